(* C02: to_binary = spec_result through arbitrary type trees, by induction over types.  The specification has its own copies
   spec_inner, spec_lenw of the model's inner, lenw, and a `match serial_size t with ...` for is_some (serial_size t):
   each pair is convertible, and the proofs below pass from one to the other silently. *)
From Coq Require Import ZArith List Bool Lia ZifyBool.
From Verif Require Import MarshalModel CqlType CqlCodec CassandraSpec
  ListFacts C01_proofs C02_proofs.
From Verif Require VIntCoding.
Import ListNotations.
Local Open Scope Z_scope.

Lemma pack_len_exact : forall pv z, 0 <= z -> pack_len pv z = guard (z <? len_limit pv) (spec_len pv z).
Proof.
  intros pv z Hz. unfold pack_len, spec_len, spec_lenw, lenw, len_limit. rewrite pack_int_exact. unfold int_range, in_z.
  destruct (3 <=? pv).
  - change (2 ^ (8 * Z.of_nat 4 - 1)) with (2 ^ 31). replace (- 2 ^ 31 <=? z) with true by lia. reflexivity.
  - replace (0 <=? z) with true by lia. reflexivity.
Qed.

Lemma null_element_exact : forall pv ser, enc_elem pv ser VNull = guard (3 <=? pv) (spec_elem pv (fun _ => []) VNull).
Proof.
  intros. cbn [enc_elem spec_elem]. unfold pack_len, spec_len, spec_lenw, lenw. rewrite pack_int_exact.
  destruct (3 <=? pv); reflexivity.
Qed.

Definition exact_on (ser : value -> option (list Z)) (rng : value -> bool) (enc : value -> list Z) (v : value) : Prop :=
  v <> VNull -> ser v = guard (rng v) (enc v).

Lemma elem_ok_nonnull : forall pv lim rng enc v, v <> VNull -> elem_ok pv lim rng enc v = rng v && (len (enc v) <? lim).
Proof. intros. destruct v; congruence || reflexivity. Qed.

Lemma spec_elem_nonnull : forall pv enc v, v <> VNull -> spec_elem pv enc v = spec_len pv (len (enc v)) ++ enc v.
Proof. intros. destruct v; congruence || reflexivity. Qed.

Lemma elem_exact : forall pv ser rng enc v, exact_on ser rng enc v ->
  enc_elem pv ser v = guard (elem_ok pv (len_limit pv) rng enc v) (spec_elem pv enc v).
Proof.
  intros pv ser rng enc v H. destruct (value_eq_null v) as [-> | E]; [apply null_element_exact|].
  rewrite enc_elem_nonnull, elem_ok_nonnull, spec_elem_nonnull, (H E) by assumption.
  destruct (rng v); [|reflexivity]. cbn [guard obind andb]. rewrite pack_len_exact by apply len_nonneg.
  destruct (len (enc v) <? len_limit pv); reflexivity.
Qed.

Lemma items_exact : forall pv ser rng enc vs, Forall (exact_on ser rng enc) vs ->
  enc_items pv ser vs = guard (forallb (elem_ok pv (len_limit pv) rng enc) vs) (flat_map (spec_elem pv enc) vs).
Proof.
  intros pv ser rng enc vs F. induction F as [|v r Hv _ IH]; [reflexivity|]. cbn [enc_items forallb flat_map].
  rewrite (elem_exact pv ser rng enc v Hv), IH. apply guard_app.
Qed.

Lemma coll_exact : forall pv ser rng enc vs, Forall (exact_on ser rng enc) vs ->
  enc_coll pv ser vs =
  guard ((len vs <? len_limit pv) && forallb (elem_ok pv (len_limit pv) rng enc) vs)
        (spec_len pv (len vs) ++ flat_map (spec_elem pv enc) vs).
Proof.
  intros pv ser rng enc vs F. unfold enc_coll. rewrite pack_len_exact, (items_exact pv ser rng enc vs F) by apply len_nonneg.
  apply guard_app.
Qed.

Lemma pairs_exact : forall pv sk rk ek sv rv ev kvs,
  Forall (fun kv => exact_on sk rk ek (fst kv) /\ exact_on sv rv ev (snd kv)) kvs ->
  enc_pairs pv sk sv kvs =
  guard (forallb (fun kv => elem_ok pv (len_limit pv) rk ek (fst kv) && elem_ok pv (len_limit pv) rv ev (snd kv)) kvs)
        (flat_map (fun kv => spec_elem pv ek (fst kv) ++ spec_elem pv ev (snd kv)) kvs).
Proof.
  intros pv sk rk ek sv rv ev kvs F. induction F as [|[k x] r [Hk Hx] _ IH]; [reflexivity|]. cbn [enc_pairs forallb flat_map fst snd] in *.
  rewrite (elem_exact pv sk rk ek k Hk), (elem_exact pv sv rv ev x Hx), IH, <- app_assoc.
  destruct (elem_ok pv (len_limit pv) rk ek k), (elem_ok pv (len_limit pv) rv ev x), (forallb _ r); reflexivity.
Qed.

Lemma map_exact : forall pv sk rk ek sv rv ev kvs,
  Forall (fun kv => exact_on sk rk ek (fst kv) /\ exact_on sv rv ev (snd kv)) kvs ->
  enc_map pv sk sv kvs =
  guard ((len kvs <? len_limit pv) &&
         forallb (fun kv => elem_ok pv (len_limit pv) rk ek (fst kv) && elem_ok pv (len_limit pv) rv ev (snd kv)) kvs)
        (spec_len pv (len kvs) ++ flat_map (fun kv => spec_elem pv ek (fst kv) ++ spec_elem pv ev (snd kv)) kvs).
Proof.
  intros pv sk rk ek sv rv ev kvs F. unfold enc_map. rewrite pack_len_exact, (pairs_exact pv sk rk ek sv rv ev kvs F) by apply len_nonneg.
  apply guard_app.
Qed.

Lemma tuple_exact : forall (ser : cqltype -> value -> option (list Z)) rng enc (knd : cqltype -> value -> bool) ts,
  Forall (fun t => forall v, knd t v = true -> exact_on (ser t) (rng t) (enc t) v) ts ->
  forall vs, zip_all knd ts vs = true ->
  enc_tuple ser ts vs =
  guard (zip_all (fun t => elem_ok 3 (2 ^ 31) (rng t) (enc t)) ts vs) (zip_cat (fun t => spec_elem 3 (enc t)) ts vs).
Proof.
  intros ser rng enc knd ts F. induction F as [|t ts Ht _ IH]; intros [|v vs] K; try reflexivity.
  cbn [zip_all zip_cat enc_tuple] in *. apply andb_true_iff in K. destruct K as [Kv K].
  rewrite (elem_exact 3 _ _ _ v (Ht v Kv)), (IH vs K). apply guard_app.
Qed.

Lemma vec_exact : forall (ser : value -> option (list Z)) (rng : value -> bool) (enc : value -> list Z) fixed vs,
  Forall (fun x => x <> VNull /\ ser x = guard (rng x) (enc x)) vs ->
  enc_vec ser fixed vs =
  guard (forallb (fun x => negb (is_null x) && rng x && (fixed || (len (enc x) <? 2 ^ 64))) vs)
        (flat_map (spec_vec_elem fixed enc) vs).
Proof.
  intros ser rng enc fixed vs F. induction F as [|v r [Hn Hv] _ IH]; [reflexivity|]. cbn [enc_vec forallb flat_map]. rewrite Hv, IH.
  rewrite (proj2 (is_null_false v) Hn). unfold spec_vec_elem.
  destruct (rng v); [|reflexivity]. destruct fixed; cbn [guard obind negb andb orb app].
  - destruct (forallb _ r); reflexivity.
  - rewrite uvint_pack_exact. replace (0 <=? len (enc v)) with true by (pose proof (len_nonneg _ (enc v)); lia).
    destruct (len (enc v) <? 2 ^ 64); [|reflexivity]. cbn [guard obind andb]. destruct (forallb _ r); [|reflexivity].
    cbn [guard obind]. rewrite <- app_assoc. reflexivity.
Qed.

Definition exact_type (t : cqltype) : Prop :=
  forall pv v, kind t v = true -> serialize pv t v = guard (in_range pv t v) (spec_enc pv t v).

Lemma exact_type_elem : forall t pv v, exact_type t -> kind_elem (kind t) v = true ->
  exact_on (serialize pv t) (in_range pv t) (spec_enc pv t) v.
Proof.
  intros t pv v P K Hn. apply P. destruct v; try exact K. congruence.
Qed.

Lemma kind_nonnull : forall t v, kind t v = true -> v <> VNull.
Proof.
  intros t v K ->. induction t as [s| | | | | | |t IHt|t IHt] using cqltype_ind'; try discriminate K.
  - destruct s; discriminate K.
  - exact (IHt K).
  - exact (IHt K).
Qed.

Lemma exact_type_list : forall t, exact_type t -> exact_type (TList t).
Proof.
  intros t IHt pv v K. destruct v; cbn [kind] in K; try discriminate. cbn [serialize in_range spec_enc].
  apply coll_exact.
  eapply Forall_impl; [|apply forallb_Forall; exact K]. intros x Hx. apply exact_type_elem; assumption.
Qed.

Lemma exact_type_map : forall t1 t2, exact_type t1 -> exact_type t2 -> exact_type (TMap t1 t2).
Proof.
  intros t1 t2 IHt1 IHt2 pv v K. destruct v; cbn [kind] in K; try discriminate. cbn [serialize in_range spec_enc].
  apply map_exact.
  eapply Forall_impl; [|apply forallb_Forall; exact K]. intros x Hx. apply andb_true_iff in Hx. destruct Hx.
  split; apply exact_type_elem; assumption.
Qed.

Lemma exact_type_tuple : forall ts, Forall exact_type ts -> exact_type (TTuple ts).
Proof.
  intros ts IH pv v K. destruct v; try discriminate K. rewrite serialize_tuple. cbn [in_range spec_enc].
  rewrite Nat.leb_antisym. destruct (length ts <? length vs)%nat; [reflexivity|].
  (* the zips that kind, in_range and spec_enc have inline are zip_all, zip_cat (C01_proofs) by conversion *)
  apply (tuple_exact _ _ _ (fun t => kind_elem (kind t))); [|exact K].
  eapply Forall_impl; [|exact IH]. intros t P x Kx. apply exact_type_elem; assumption.
Qed.

(* The hypothesis is what kind (TUdt ts) demands of a value.  spec_enc has one branch for both types and needs no equation. *)
Lemma udt_as_tuple : forall pv ts vs, length vs = length ts ->
  serialize pv (TUdt ts) (VSeq vs) = serialize pv (TTuple ts) (VSeq vs) /\
  in_range pv (TUdt ts) (VSeq vs) = in_range pv (TTuple ts) (VSeq vs).
Proof.
  intros pv ts vs L. rewrite serialize_udt, serialize_tuple, enc_udt_tuple. cbn [in_range].
  rewrite L, Nat.ltb_irrefl, Nat.leb_refl, Nat.eqb_refl. split; reflexivity.
Qed.

Lemma exact_type_udt : forall ts, Forall exact_type ts -> exact_type (TUdt ts).
Proof.
  intros ts IH pv v K. destruct v; try discriminate K. cbn [kind] in K. apply andb_true_iff in K. destruct K as [L K].
  apply Nat.eqb_eq in L. destruct (udt_as_tuple pv ts vs L) as [-> ->]. exact (exact_type_tuple ts IH pv (VSeq vs) K).
Qed.

Lemma exact_type_vector : forall t n, exact_type t -> exact_type (TVector t n).
Proof.
  intros t n IHt pv v K. destruct v; cbn [kind] in K; try discriminate. cbn [serialize in_range spec_enc].
  rewrite (Z.eqb_sym (len vs) n).
  destruct (n =? len vs); cbn [andb]; [|reflexivity].
  apply vec_exact.
  eapply Forall_impl; [|apply forallb_Forall; exact K]. intros x Hx. pose proof (kind_nonnull t x Hx).
  split; [|apply IHt]; assumption.
Qed.

Lemma exact_type_frozen : forall t, exact_type t -> exact_type (TFrozen t).
Proof.
  intros t IHt pv v K. pose proof (kind_nonnull _ v K) as Hn. cbn [serialize in_range spec_enc].
  rewrite (proj2 (is_null_false v) Hn), wrap_to_nonnull by exact Hn. exact (IHt pv v K).
Qed.

Theorem exact_all : forall t, exact_type t.
Proof.
  induction t using cqltype_ind'.
  - intros pv v _. apply scalar_exact_all.
  - apply exact_type_list; assumption.
  - (* a set is written as a list *) exact (exact_type_list t IHt).
  - apply exact_type_map; assumption.
  - apply exact_type_tuple; assumption.
  - apply exact_type_udt; assumption.
  - apply exact_type_vector; assumption.
  - apply exact_type_frozen; assumption.
  - (* Reversed delegates as Frozen does *) exact (exact_type_frozen t IHt).
Qed.

Theorem to_binary_exact : forall pv t v, kind t v = true -> to_binary pv t v = spec_result pv t v.
Proof.
  intros pv t v K. rewrite to_binary_nonnull by exact (kind_nonnull t v K). exact (exact_all t pv v K).
Qed.

Lemma in_int64b_in_z : forall x, VIntCoding.in_int64b x = in_z (- 2 ^ 63) (2 ^ 63) x.
Proof. reflexivity. Qed.
