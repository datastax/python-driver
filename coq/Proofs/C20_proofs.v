From Coq Require Import ZArith List Bool Lia.
From Verif Require Import Pool ListFacts Pool_base Keyspace.
Import ListNotations.
Local Open Scope Z_scope.

Lemma pending_from_spec l : forall k i,
  In i (pending_from k l) <-> exists j p, i = (k + j)%nat /\ nth_error l j = Some p /\ k_pending p = true.
Proof.
  induction l as [|q l IH]; intros k i; simpl.
  - split; [intros []|intros ([|j]&p&_&H&_); discriminate H].
  - transitivity ((i = k /\ k_pending q = true) \/ In i (pending_from (S k) l)).
    { destruct (k_pending q); simpl; intuition congruence. }
    rewrite IH. split.
    + intros [[-> Hq]|(j&p&->&H)]; [exists 0%nat, q|exists (S j), p]; (split; [lia|auto]).
    + intros ([|j]&p&->&Hp&Hq); [left; injection Hp as ->; split; [lia|exact Hq]|right; exists j, p; split; [lia|auto]].
Qed.

Lemma pending_from_0 l i : In i (pending_from 0 l) <-> exists p, nth_error l i = Some p /\ k_pending p = true.
Proof. rewrite pending_from_spec. split; [intros (j&p&->&H); exists p; exact H|intros (p&H); exists i, p; auto]. Qed.

Lemma In_eins i e l x : In x (map fst (eins i e l)) <-> x = i \/ In x (map fst l).
Proof.
  induction l as [|[j f] l IH]; simpl; [intuition congruence|].
  destruct (Nat.ltb i j); simpl; [intuition congruence|]. rewrite IH. intuition congruence.
Qed.

Definition pools_at (s : kstate) (P : nat -> kpool -> Prop) : Prop := forall i p, nth_error (pools s) i = Some p -> P i p.

Record switching_pool (s : kstate) (i : nat) (p : kpool) : Prop := {
  awaited : In i (remaining s) <-> k_pending p = true;
  ks_recorded : k_ks p = 2 \/ k_legacy p = true;
  answered : k_pending p = false -> k_has p = true -> k_shut p = false -> k_connks p = 2 \/ k_failed p = true;
  failure_listed : k_failed p = true -> In i (map fst (errors s))
}.

Record switching (s : kstate) : Prop := {
  sess_switched : sess_ks s = 2;
  awaited_exist : forall i, In i (remaining s) -> (i < length (pools s))%nat;
  each_pool : pools_at s (switching_pool s);
  called_when_done : (remaining s <> [] /\ calls s = []) \/ (remaining s = [] /\ calls s = [errors s])
}.

Definition idle (s : kstate) : Prop :=
  calls s = [] /\ pools_at s (fun _ p => k_pending p = false /\ k_failed p = false).

Definition KInv (s : kstate) : Prop :=
  pools_at s (fun _ p => k_connks p = k_srv p) /\ if started s then switching s else idle s.

(* well-formed starting point of a switch *)
Definition kwf (s : kstate) : Prop :=
  started s = false /\ calls s = [] /\ remaining s = [] /\
  forall p, In p (pools s) -> k_pending p = false /\ k_failed p = false /\ k_connks p = k_srv p.

Lemma KInv_wf s : kwf s -> KInv s.
Proof.
  intros (St&Hc&Hr&Hp). unfold KInv. rewrite St.
  split; [|split; [exact Hc|]]; intros i p Hi; apply nth_error_In in Hi; apply Hp in Hi; tauto.
Qed.

Lemma kwf_init outs : kwf (kinit outs).
Proof.
  split; [reflexivity|split; [reflexivity|split; [reflexivity|]]].
  intros p Hp. apply in_map_iff in Hp. destruct Hp as (o&<-&_). destruct o; repeat split.
Qed.

Lemma Forall_reset_pools (P : kpool -> Prop) ps :
  Forall (fun p => forall o, P (reset_pool p o)) ps -> forall outs, Forall P (reset_pools ps outs).
Proof. induction 1 as [|p ps Hp _ IH]; intros [|o outs]; constructor; auto. Qed.

Lemma kwf_reinit s outs : KInv s -> kwf (reinit s outs).
Proof.
  intros [G _]. split; [reflexivity|split; [reflexivity|split; [reflexivity|]]].
  apply Forall_forall, Forall_reset_pools, Forall_forall. intros q Hq o. destruct (In_nth_error _ _ Hq) as (i&Hi).
  repeat split. exact (G i q Hi).
Qed.

Lemma start_pool_ok p : k_failed p = false -> k_connks p = k_srv p ->
  (k_ks (start_pool p) = 2 \/ k_legacy (start_pool p) = true) /\ k_failed (start_pool p) = false /\
  k_connks (start_pool p) = k_srv (start_pool p) /\
  (k_pending (start_pool p) = false -> k_has (start_pool p) = true -> k_shut (start_pool p) = false -> k_connks (start_pool p) = 2).
Proof.
  intros Hf Hs. unfold start_pool.
  destruct (k_legacy p), (k_has p), (k_shut p); simpl;
    try (repeat split; congruence);
    destruct (k_connks p =? 2) eqn:E; simpl; repeat split; auto; try congruence;
    apply Z.eqb_eq in E; congruence.
Qed.

Lemma complete_pool_ok p p' err : complete_pool p = (p', err) ->
  k_pending p' = false /\ k_ks p' = k_ks p /\ k_legacy p' = k_legacy p /\
  (k_connks p = k_srv p -> k_connks p' = k_srv p') /\
  (k_has p' = true -> k_shut p' = false -> k_connks p' = 2 \/ k_failed p' = true) /\
  (k_failed p' = true -> err <> None \/ k_failed p = true).
Proof.
  unfold complete_pool. intros Ec.
  destruct (k_out p); injection Ec as <- <-; repeat split; auto; left; discriminate.
Qed.

Lemma pools_upd (P Q : nat -> kpool -> Prop) l i p p' : nth_error l i = Some p ->
  (forall j q, nth_error l j = Some q -> P j q) -> Q i p' -> (forall j q, j <> i -> P j q -> Q j q) ->
  forall j q, nth_error (upd i (fun _ => p') l) j = Some q -> Q j q.
Proof.
  intros Hi HP Hq Hfr j q Hj. rewrite nth_error_update_at in Hj. destruct (Nat.eqb_spec j i) as [->|N].
  - rewrite Hi in Hj. injection Hj as <-. exact Hq.
  - apply Hfr; [exact N|apply HP, Hj].
Qed.

Lemma KInv_start s : KInv s -> KInv (kstep s KStart).
Proof.
  intros [G H]. simpl.
  destruct (started s) eqn:St; [split; [exact G|rewrite St; exact H]|].
  destruct H as (Hc&Hp). simpl.
  assert (SP : forall j q, nth_error (map start_pool (pools s)) j = Some q ->
                (k_ks q = 2 \/ k_legacy q = true) /\ k_failed q = false /\ k_connks q = k_srv q /\
                (k_pending q = false -> k_has q = true -> k_shut q = false -> k_connks q = 2)).
  { intros j q Hj. rewrite nth_error_map in Hj. destruct (nth_error (pools s) j) as [p|] eqn:E; [|discriminate].
    injection Hj as <-. apply start_pool_ok; [apply (Hp j p E)|apply (G j p E)]. }
  assert (PF := pending_from_0 (map start_pool (pools s))).
  split; [intros j q Hj; apply (SP j q Hj)|]. split; [reflexivity| | |]; unfold pools_at; simpl.
  - (* awaited_exist *) intros j Hj. apply PF in Hj. destruct Hj as (q&Hq&_). apply nth_error_Some. congruence.
  - (* each_pool *)
    intros j q Hj. destruct (SP j q Hj) as (X&F&_&Y). split; [split|exact X|auto|intros Hf; congruence].
    + intros Hin. apply PF in Hin. destruct Hin as (q'&Hq'&Hp'). congruence.
    + intros Hq. apply PF. eauto.
  - (* called_when_done *) destruct (pending_from 0 (map start_pool (pools s))); [right; auto|left; split; [discriminate|reflexivity]].
Qed.

Lemma KInv_complete s i : KInv s -> KInv (kstep s (KComplete i)).
Proof.
  intros [G H]. unfold KInv, idle, pools_at. simpl.
  destruct (nth_error (pools s) i) as [p|] eqn:En; [|split; assumption].
  destruct (k_pending p) eqn:Ep; [|split; assumption].
  destruct (complete_pool p) as [p' err] eqn:Ec.
  destruct (complete_pool_ok p p' err Ec) as (Pend&Ks&Leg&Srv&Ans&Fail). simpl.
  split; [apply (pools_upd _ _ _ _ _ _ En G); [apply Srv, (G i p En)|auto]|].
  destruct (started s).
  2:{ destruct H as (_&Hp). destruct (Hp i p En). congruence. }
  destruct H as [Hk Ha Hb Hd].
  assert (Hi : In i (remaining s)) by (apply (Hb i p En), Ep).
  split; [exact Hk| | |]; unfold pools_at; simpl.
  - (* awaited_exist *) intros j Hj. apply In_del in Hj. rewrite length_update_at. apply Ha, Hj.
  - (* each_pool *) apply (pools_upd _ _ _ _ _ _ En Hb).
    + (* the pool that has answered *) destruct (Hb i p En) as [_ X _ Y]. split; simpl.
      * (* awaited *) rewrite Pend, In_del. split; [tauto|discriminate].
      * (* ks_recorded *) rewrite Ks, Leg. exact X.
      * (* answered *) intros _. exact Ans.
      * (* failure_listed *) intros Hf. destruct err as [e|]; [apply In_eins; left; reflexivity|].
        destruct (Fail Hf) as [N|Hfp]; [congruence|]. apply Y, Hfp.
    + (* the others: only [awaited] and [failure_listed] read what changed *)
      intros j q N [W X Y Z]. split; simpl; [rewrite In_del; tauto|exact X|exact Y|].
      intros Hf. destruct err as [e|]; [apply In_eins; right|]; apply Z, Hf.
  - (* called_when_done *) destruct Hd as [[_ Hcl]|[Hre _]]; [|rewrite Hre in Hi; destruct Hi].
    rewrite Hcl. destruct (del i (remaining s)); [right; split; reflexivity|left; split; [discriminate|reflexivity]].
Qed.

Lemma KInv_reconnect s i : KInv s -> KInv (kstep s (KReconnect i)).
Proof.
  intros [G H]. unfold KInv, idle, pools_at. simpl.
  destruct (nth_error (pools s) i) as [p|] eqn:En; [|split; assumption].
  destruct (negb (k_has p) && negb (k_shut p) && negb (k_pending p)) eqn:Eg; [|split; assumption].
  apply andb_prop in Eg. destruct Eg as [_ Epn]. apply negb_true_iff in Epn. simpl.
  split; [apply (pools_upd _ _ _ _ _ _ En G); [reflexivity|auto]|].
  destruct (started s).
  - destruct H as [Hk Ha Hb Hd].
    split; simpl; [exact Hk|rewrite length_update_at; exact Ha| |exact Hd]. unfold pools_at.
    apply (pools_upd _ _ _ _ _ _ En Hb); [|intros j q _ [W X Y Z]; split; assumption]. destruct (Hb i p En) as [W X _ Y].
    split; simpl; [rewrite <- Epn; exact W|exact X| |exact Y].
    (* answered: the fresh connection selects the session keyspace (v1/v2 pool) or the pool's own, both the new one *)
    intros _ _ _. left. destruct X as [K|L]; [|rewrite L; exact Hk]. destruct (k_legacy p); [exact Hk|exact K].
  - destruct H as (Hc&Hp). split; [exact Hc|].
    apply (pools_upd _ _ _ _ _ _ En Hp); [|auto]. exact (conj eq_refl (proj2 (Hp i p En))).
Qed.

Lemma KInv_step s o : KInv s -> KInv (kstep s o).
Proof. destruct o; [apply KInv_start|apply KInv_complete|apply KInv_reconnect]. Qed.

Lemma KInv_run ops : forall s, KInv s -> KInv (krun s ops).
Proof. exact (fold_left_inv _ _ KInv_step ops). Qed.

Lemma call_final s a : KInv s -> In a (calls s) -> switching s /\ remaining s = [] /\ a = errors s.
Proof.
  intros [_ H] Hin. destruct (started s).
  - split; [exact H|]. destruct (called_when_done s H) as [[_ E]|[Hr E]]; rewrite E in Hin; [destruct Hin|destruct Hin as [<-|[]]; auto].
  - destruct H as (E&_). rewrite E in Hin. destruct Hin.
Qed.

Lemma k_success s : KInv s -> In [] (calls s) ->
  forall p, In p (pools s) -> k_shut p = false ->
  (k_has p = true -> k_srv p = 2) /\ (k_has p = false -> k_legacy p = false -> k_ks p = 2).
Proof.
  intros H Hin p Hp Hs. destruct (call_final s [] H Hin) as ([_ _ Hb _]&Hr&He). destruct H as [G _].
  destruct (In_nth_error _ _ Hp) as (j&Hj).
  destruct (Hb j p Hj) as [Hrem Hks Hq Hc]. split; [|intros _ L; destruct Hks; congruence].
  intros Hh. rewrite <- (G j p Hj).
  assert (k_pending p = false).
  { destruct (k_pending p); [|reflexivity]. rewrite Hr in Hrem. destruct (proj2 Hrem eq_refl). }
  destruct (Hq H Hh Hs) as [?|Hf]; [assumption|].
  specialize (Hc Hf). rewrite <- He in Hc. destruct Hc.
Qed.

Lemma k_error_reported s : KInv s -> forall i p, nth_error (pools s) i = Some p -> k_failed p = true ->
  forall a, In a (calls s) -> In i (map fst a).
Proof. intros H i p Hn Hf a Hin. destruct (call_final s a H Hin) as ([_ _ Hb _]&_&->). apply (Hb i p Hn), Hf. Qed.

Lemma k_completes s : KInv s -> started s = true ->
  (length (calls s) <= 1)%nat /\
  ((forall p, In p (pools s) -> k_pending p = false) -> length (calls s) = 1%nat).
Proof.
  intros [_ H] St. rewrite St in H. destruct H as [_ Ha Hb Hd]. split.
  - destruct Hd as [[_ E]|[_ E]]; rewrite E; simpl; lia.
  - intros Hall. destruct Hd as [[N _]|[_ E]]; [|rewrite E; reflexivity].
    destruct (remaining s) as [|j r] eqn:R; [congruence|].
    destruct (nth_error (pools s) j) as [p|] eqn:Hp; [|apply nth_error_None in Hp; specialize (Ha j (or_introl eq_refl)); lia].
    destruct (Hb j p Hp) as [W _ _ _]. rewrite R, (Hall p (nth_error_In _ _ Hp)) in W. discriminate (proj1 W (or_introl eq_refl)).
Qed.

Lemma started_step s o : started s = true -> started (kstep s o) = true.
Proof.
  intros H. destruct o; simpl; [rewrite H; exact H| |]; destruct (nth_error (pools s) i) as [k|]; try exact H.
  - destruct (k_pending k); [|exact H]. destruct (complete_pool k). exact H.
  - destruct (_ && _); exact H.
Qed.

Lemma started_after_start ops s : started (krun (kstep s KStart) ops) = true.
Proof. apply (fold_left_inv _ _ started_step). simpl. destruct (started s) eqn:E; [exact E|reflexivity]. Qed.

Lemma catchup_eq rounds : forall pool sess n p s m, catchup pool sess n rounds = (true, p, s, m) -> p = s.
Proof.
  induction rounds as [|[f r] rest IH]; intros pool sess n p s m; simpl; destruct (pool =? sess) eqn:E.
  1, 3: intros H; injection H as <- <- _; apply Z.eqb_eq, E.
  - intros H. injection H as <- <- _. reflexivity.
  - destruct f; [discriminate|apply IH].
Qed.
