(* Hosts are read through their endpoints (`keys`).  A refresh turns keys ks into `filter K (ks ++ new)` and `tells` its
   listeners and policies: added `new`, removed `filter (not K) ks`; the refresh on a live control connection, with its
   nested refreshes, does and tells the same. *)
From Coq Require Import ZArith List Bool Lia.
From Verif Require Import NodeList ListFacts.
Import ListNotations.
Local Open Scope Z_scope.

Definition keys (hs : hosts) : list endpoint := map fst hs.

Lemma ep_eqb_spec : forall a b, reflect (a = b) (ep_eqb a b).
Proof.
  intros [a1 a2] [b1 b2]. unfold ep_eqb. simpl.
  destruct (Z.eqb_spec a1 b1) as [->|H1]; [destruct (Z.eqb_spec a2 b2) as [->|H2]|]; constructor; congruence.
Qed.

Lemma ep_eqb_refl : forall a, ep_eqb a a = true.
Proof. intros a. destruct (ep_eqb_spec a a); congruence. Qed.

Lemma mem_spec : forall e l, reflect (In e l) (mem e l).
Proof.
  intros e l. apply iff_reflect. symmetry. apply (existsb_In ep_eqb).
  intros x y. destruct (ep_eqb_spec x y); split; congruence.
Qed.

Lemma is_some_true : forall {A} (o : option A), is_some o = true <-> o <> None.
Proof. intros A [x|]; simpl; split; congruence. Qed.

Lemma nonempty_true : forall {A} (o : option (list A)), nonempty o = true <-> exists t ts, o = Some (t :: ts).
Proof.
  intros A [[|t ts]|]; simpl; (split; [try discriminate; eauto|intros [t' [ts' H]]; congruence]).
Qed.

Definition row_for (c : config) (rows : list row) (e : endpoint) : Prop :=
  exists r, In r rows /\ valid c r = true /\ ep_of c r = e.

Lemma row_for_cons : forall c r rows e, row_for c (r :: rows) e <-> valid c r = true /\ ep_of c r = e \/ row_for c rows e.
Proof.
  intros c r rows e. unfold row_for. rewrite <- !Exists_exists, Exists_cons. reflexivity.
Qed.

Lemma accept_keys : forall c rows found e,
  In e (map fst (accept c found rows)) <-> ~ In e found /\ row_for c rows e.
Proof.
  intros c rows. induction rows as [|r rest IH]; intros found e; simpl.
  - split; [intros []|]. intros [_ [r [[] _]]].
  - rewrite row_for_cons. destruct (valid c r).
    + destruct (mem_spec (ep_of c r) found) as [Hf|Hf]; simpl; rewrite IH; simpl.
      * intuition congruence.
      * destruct (ep_eqb_spec (ep_of c r) e); intuition congruence.
    + rewrite IH. intuition congruence.
Qed.

Lemma accept_NoDup : forall c rows found, NoDup (map fst (accept c found rows)).
Proof.
  intros c rows. induction rows as [|r rest IH]; intros found; simpl; [constructor|].
  destruct (valid c r); [|apply IH].
  destruct (mem (ep_of c r) found); [apply IH|]. constructor; [|apply IH].
  rewrite accept_keys. intros [H _]. apply H. left. reflexivity.
Qed.

Lemma find_None : forall e hs, find e hs = None <-> ~ In e (keys hs).
Proof.
  intros e hs. induction hs as [|[e' h] r IH]; simpl.
  - split; [intros _ []|reflexivity].
  - destruct (ep_eqb_spec e e') as [->|Hne].
    + split; [discriminate|]. intros H. exfalso. apply H. left. reflexivity.
    + rewrite IH. intuition congruence.
Qed.

Lemma find_Some_In : forall e hs h, find e hs = Some h -> In e (keys hs).
Proof.
  intros e hs h H. destruct (mem_spec e (keys hs)) as [Hin|Hn]; [exact Hin|]. apply find_None in Hn. congruence.
Qed.

Lemma replace_keys : forall e h hs, keys (replace e h hs) = keys hs.
Proof.
  intros e h hs. induction hs as [|[e' h'] r IH]; simpl; [reflexivity|].
  destruct (ep_eqb e e'); simpl; [reflexivity|]. f_equal. exact IH.
Qed.

Lemma find_replace_same : forall e h hs, In e (keys hs) -> find e (replace e h hs) = Some h.
Proof.
  intros e h hs. induction hs as [|[e' h'] r IH]; simpl; [intros []|].
  intros H. destruct (ep_eqb_spec e e') as [->|Hne]; simpl.
  - rewrite ep_eqb_refl. reflexivity.
  - destruct (ep_eqb_spec e e'); [contradiction|]. apply IH. destruct H as [H|H]; [congruence|exact H].
Qed.

Lemma find_replace_other : forall e e' h hs, e <> e' -> find e (replace e' h hs) = find e hs.
Proof.
  intros e e' h hs Hne. induction hs as [|[e2 h2] r IH]; simpl; [reflexivity|].
  destruct (ep_eqb_spec e' e2) as [<-|H2]; simpl.
  - destruct (ep_eqb_spec e e'); [contradiction|reflexivity].
  - destruct (ep_eqb e e2); [reflexivity|exact IH].
Qed.

Lemma find_app_other : forall e e' h hs, e <> e' -> find e (hs ++ [(e', h)]) = find e hs.
Proof.
  intros e e' h hs Hne. induction hs as [|[e2 h2] r IH]; simpl.
  - destruct (ep_eqb_spec e e'); [contradiction|reflexivity].
  - destruct (ep_eqb e e2); [reflexivity|exact IH].
Qed.

Lemma keys_filter : forall (p : endpoint -> bool) hs,
  keys (filter (fun eh : endpoint * host => p (fst eh)) hs) = filter p (keys hs).
Proof.
  intros p hs. induction hs as [|[e h] r IH]; simpl; [reflexivity|].
  destruct (p e); simpl; [f_equal|]; exact IH.
Qed.

Lemma find_filter : forall (p : endpoint -> bool) e hs,
  find e (filter (fun eh : endpoint * host => p (fst eh)) hs) = if p e then find e hs else None.
Proof.
  intros p e hs. induction hs as [|[e' h'] r IH]; simpl; [destruct (p e); reflexivity|].
  destruct (ep_eqb_spec e e') as [->|Hne]; destruct (p e'); simpl.
  - rewrite ep_eqb_refl. reflexivity.
  - exact IH.
  - destruct (ep_eqb_spec e e'); [contradiction|exact IH].
  - exact IH.
Qed.

Definition listener_adds (evs : list event) : list endpoint :=
  flat_map (fun x => match x with EListenerAdd e _ _ => [e] | _ => [] end) evs.
Definition policy_adds (evs : list event) : list endpoint :=
  flat_map (fun x => match x with ELbpAdd e _ _ => [e] | _ => [] end) evs.
Definition listener_removes (evs : list event) : list endpoint :=
  flat_map (fun x => match x with EListenerRemove e => [e] | _ => [] end) evs.
Definition policy_removes (evs : list event) : list endpoint :=
  flat_map (fun x => match x with ELbpRemove e => [e] | _ => [] end) evs.

Definition nofuel (evs : list event) : Prop :=
  forallb (fun x => match x with EOutOfFuel => false | _ => true end) evs = true.

Record tells (evs : list event) (adds removes : list endpoint) : Prop := {
  told_listener_adds : listener_adds evs = adds;
  told_policy_adds : policy_adds evs = adds;
  told_listener_removes : listener_removes evs = removes;
  told_policy_removes : policy_removes evs = removes;
  told_nofuel : nofuel evs
}.

Lemma tells_app : forall {a b A A' R R'}, tells a A R -> tells b A' R' -> tells (a ++ b) (A ++ A') (R ++ R').
Proof.
  intros a b A A' R R' [H1 H2 H3 H4 H5] [H1' H2' H3' H4' H5'].
  split; unfold listener_adds, policy_adds, listener_removes, policy_removes, nofuel in *;
    rewrite ?flat_map_app, ?forallb_app; try congruence. rewrite H5, H5'. reflexivity.
Qed.

Lemma tells_remove : forall e, tells [ELbpRemove e; EListenerRemove e] [] [e].
Proof. repeat split. Qed.

Lemma tells_update_location : forall e h dc rack, tells (fst (update_location e h dc rack)) [] [].
Proof. intros. unfold update_location. destruct (same_location h dc rack); repeat split. Qed.

Definition fresh (hs : hosts) (e : endpoint) : bool := match find e hs with None => true | Some _ => false end.

Lemma fresh_iff : forall hs e, fresh hs e = true <-> ~ In e (keys hs).
Proof. intros hs e. rewrite <- find_None. unfold fresh. destruct (find e hs); split; congruence. Qed.

(* what makes the peers loop ask for a rebuild *)
Definition row_triggers (hs : hosts) (er : endpoint * row) : Prop :=
  find (fst er) hs = None \/
  exists h, find (fst er) hs = Some h /\ same_location h (r_dc (snd er)) (r_rack (snd er)) = false.

(* what a row does depends on the hosts only through what they hold at its endpoint: hs0 is any hosts that hold the same there *)
Lemma apply_row_spec : forall hs0 hs e r, find e hs = find e hs0 ->
  keys (fst (fst (apply_row hs (e, r)))) = keys hs ++ (if fresh hs0 e then [e] else []) /\
  tells (snd (fst (apply_row hs (e, r)))) (if fresh hs0 e then [e] else []) [] /\
  (snd (apply_row hs (e, r)) = true <-> row_triggers hs0 (e, r)).
Proof.
  intros hs0 hs e r He. unfold apply_row, fresh, row_triggers. cbn [fst snd]. rewrite <- He. destruct (find e hs) as [h|].
  - pose proof (tells_update_location e h (r_dc r) (r_rack r)) as Ht. unfold update_location in *.
    destruct (same_location h (r_dc r) (r_rack r)) eqn:Es; simpl; rewrite replace_keys, app_nil_r;
      (split; [reflexivity|split; [exact Ht|]]).
    + split; [discriminate|]. intros [H|[h0 [H1 H2]]]; congruence.
    + split; [|reflexivity]. intros _. right. exists h. split; [reflexivity|exact Es].
  - simpl. unfold keys. rewrite map_app. repeat split. intros _. left. reflexivity.
Qed.

Lemma apply_rows_cons : forall hs er rest,
  apply_rows hs (er :: rest) =
  (fst (fst (apply_rows (fst (fst (apply_row hs er))) rest)),
   snd (fst (apply_row hs er)) ++ snd (fst (apply_rows (fst (fst (apply_row hs er))) rest)),
   snd (apply_row hs er) || snd (apply_rows (fst (fst (apply_row hs er))) rest)).
Proof.
  intros hs er rest. simpl. destruct (apply_row hs er) as [[hs1 ev1] b1]. simpl.
  destruct (apply_rows hs1 rest) as [[hs2 ev2] b2]. reflexivity.
Qed.

Lemma apply_row_find_other : forall hs e r e', e' <> e -> find e' (fst (fst (apply_row hs (e, r)))) = find e' hs.
Proof.
  intros hs e r e' Hne. unfold apply_row. destruct (find e hs) as [h|].
  - destruct (update_location e h (r_dc r) (r_rack r)). apply find_replace_other. exact Hne.
  - apply find_app_other. exact Hne.
Qed.

(* rows with distinct endpoints act independently: each finds at its endpoint what the hosts held before the loop (hs0) *)
Lemma apply_rows_spec : forall ers hs0 hs, NoDup (map fst ers) ->
  (forall e, In e (map fst ers) -> find e hs = find e hs0) ->
  keys (fst (fst (apply_rows hs ers))) = keys hs ++ filter (fresh hs0) (map fst ers) /\
  tells (snd (fst (apply_rows hs ers))) (filter (fresh hs0) (map fst ers)) [] /\
  (snd (apply_rows hs ers) = true <-> Exists (row_triggers hs0) ers).
Proof.
  intros ers hs0. induction ers as [|[e r] rest IH]; intros hs Hnd Hs.
  - simpl. rewrite app_nil_r, Exists_nil. repeat split; [discriminate|contradiction].
  - rewrite apply_rows_cons. cbn [fst snd map filter]. inversion Hnd as [|x l Hx Hl].
    destruct (IH (fst (fst (apply_row hs (e, r)))) Hl) as [K [T F]].
    { intros e' He'. rewrite apply_row_find_other; [apply Hs; right; exact He'|]. intros ->. exact (Hx He'). }
    destruct (apply_row_spec hs0 hs e r (Hs e (or_introl eq_refl))) as [K1 [T1 F1]].
    split; [|split].
    + rewrite K, K1, <- app_assoc. f_equal. destruct (fresh hs0 e); reflexivity.
    + pose proof (tells_app T1 T) as T2. destruct (fresh hs0 e); exact T2.
    + rewrite orb_true_iff, F1, F, Exists_cons. reflexivity.
Qed.

(* decided by the snapshot alone, whatever the hosts (so the nested refreshes of refresh_live share them): found_hosts
   after the system.local part, the endpoints of the accepted peers rows, the hosts the removal loop keeps *)
Definition found_local (c : config) (sn : snapshot) : list endpoint :=
  match sn_local sn with Some _ => [control c] | None => [] end.
Definition accepted_eps (c : config) (sn : snapshot) : list endpoint := map fst (accept c (found_local c sn) (sn_peers sn)).
Definition kept (c : config) (sn : snapshot) : endpoint -> bool := keep c (found_local c sn ++ accepted_eps c sn).

Lemma lr_found_eq : forall c st sn, lr_found (local_part c st sn) = found_local c sn.
Proof.
  intros c st sn. unfold local_part, found_local. destruct (sn_local sn); [|reflexivity].
  destruct (find (control c) (st_hosts st)); reflexivity.
Qed.

Lemma accepted_eq : forall c st sn, map fst (accepted c st sn) = accepted_eps c sn.
Proof. intros. unfold accepted. rewrite lr_found_eq. reflexivity. Qed.

Lemma found_all_eq : forall c st sn, found_all c st sn = found_local c sn ++ accepted_eps c sn.
Proof. intros. unfold found_all. rewrite lr_found_eq, accepted_eq. reflexivity. Qed.

Lemma kept_accepted : forall c sn e, kept c sn e = true <-> e = control c \/ In e (accepted_eps c sn).
Proof.
  intros c sn e. unfold kept, keep. destruct (ep_eqb_spec e (control c)) as [->|Hne]; simpl; [tauto|].
  destruct (mem_spec e (found_local c sn ++ accepted_eps c sn)) as [H|H]; rewrite in_app_iff in H; unfold found_local in H.
  - destruct H as [H|H]; [|tauto]. destruct (sn_local sn); [destruct H as [H|[]]; congruence|destruct H].
  - intuition congruence.
Qed.

Lemma kept_spec : forall c sn e, kept c sn e = true <-> e = control c \/ row_for c (sn_peers sn) e.
Proof.
  intros c sn e. rewrite kept_accepted. unfold accepted_eps. rewrite accept_keys. unfold found_local.
  destruct (ep_eqb_spec e (control c)) as [->|Hne]; [tauto|].
  destruct (sn_local sn); simpl; intuition congruence.
Qed.

Definition new_keys (c : config) (st : state) (sn : snapshot) : list endpoint :=
  filter (fresh (lr_hosts (local_part c st sn))) (accepted_eps c sn).
Definition gone_keys (c : config) (st : state) (sn : snapshot) : list endpoint :=
  filter (fun e => negb (kept c sn e)) (keys (st_hosts st)).

Lemma local_keys : forall c st sn, keys (lr_hosts (local_part c st sn)) = keys (st_hosts st).
Proof.
  intros c st sn. unfold local_part. destruct (sn_local sn) as [l|]; [|reflexivity].
  destruct (find (control c) (st_hosts st)); [|reflexivity]. apply replace_keys.
Qed.

Lemma In_new_accepted : forall c st sn e, In e (new_keys c st sn) <-> ~ In e (keys (st_hosts st)) /\ In e (accepted_eps c sn).
Proof.
  intros c st sn e. unfold new_keys. rewrite filter_In, fresh_iff, local_keys. tauto.
Qed.

Lemma new_kept : forall c st sn e, In e (new_keys c st sn) -> kept c sn e = true.
Proof. intros c st sn e H. apply kept_accepted. right. apply In_new_accepted in H. tauto. Qed.

Lemma local_tells : forall c st sn, tells (lr_events (local_part c st sn)) [] [].
Proof.
  intros c st sn. unfold local_part. destruct (sn_local sn) as [l|]; [|repeat split].
  destruct (find (control c) (st_hosts st)); [|repeat split]. apply tells_update_location.
Qed.

Lemma peers_spec : forall c st sn,
  keys (hosts_mid c st sn) = keys (st_hosts st) ++ new_keys c st sn /\
  tells (snd (fst (peers_part c st sn))) (new_keys c st sn) [] /\
  (snd (peers_part c st sn) = true <-> exists er, In er (accepted c st sn) /\ row_triggers (lr_hosts (local_part c st sn)) er).
Proof.
  intros c st sn. unfold hosts_mid, peers_part, new_keys.
  pose proof (apply_rows_spec (accepted c st sn) (lr_hosts (local_part c st sn)) (lr_hosts (local_part c st sn))) as H.
  rewrite accepted_eq, local_keys, Exists_exists in H. apply H; [apply accept_NoDup|reflexivity].
Qed.

Lemma mid_keys : forall c st sn, keys (hosts_mid c st sn) = keys (st_hosts st) ++ new_keys c st sn.
Proof. intros. apply peers_spec. Qed.

Lemma In_mid : forall c st sn e, In e (keys (hosts_mid c st sn)) <-> In e (keys (st_hosts st)) \/ In e (accepted_eps c sn).
Proof.
  intros c st sn e. rewrite mid_keys, in_app_iff, In_new_accepted. destruct (mem_spec e (keys (st_hosts st))); tauto.
Qed.

Lemma gone_mid : forall c st sn, filter (fun e => negb (kept c sn e)) (keys (hosts_mid c st sn)) = gone_keys c st sn.
Proof.
  intros c st sn. rewrite mid_keys, filter_app, (filter_none _ (new_keys c st sn)); [apply app_nil_r|].
  intros e H. rewrite (new_kept _ _ _ _ H). reflexivity.
Qed.

Lemma after_mid : forall c st sn, keys (hosts_after c st sn) = filter (kept c sn) (keys (hosts_mid c st sn)).
Proof. intros. unfold hosts_after. rewrite found_all_eq. apply (keys_filter (kept c sn)). Qed.

Lemma In_after : forall c st sn e, In e (keys (hosts_after c st sn)) <->
  kept c sn e = true /\ (In e (keys (st_hosts st)) \/ In e (accepted_eps c sn)).
Proof. intros c st sn e. rewrite after_mid, filter_In, In_mid. tauto. Qed.

Lemma exact_hosts : forall c st sn, In (control c) (keys (st_hosts st)) -> forall e,
  In e (keys (hosts_after c st sn)) <-> e = control c \/ row_for c (sn_peers sn) e.
Proof.
  intros c st sn Hc e. rewrite In_after, <- kept_spec. pose proof (kept_accepted c sn e) as HK.
  split; [tauto|]. intros H. split; [exact H|]. destruct (proj1 HK H) as [->|Ha]; tauto.
Qed.

Lemma mid_NoDup : forall c st sn, NoDup (keys (st_hosts st)) -> NoDup (keys (hosts_mid c st sn)).
Proof.
  intros c st sn H. rewrite mid_keys. apply NoDup_app_intro; [exact H|apply NoDup_filter, accept_NoDup|].
  intros x Hx Hn. apply In_new_accepted in Hn. tauto.
Qed.

Lemma after_NoDup : forall c st sn, NoDup (keys (st_hosts st)) -> NoDup (keys (hosts_after c st sn)).
Proof. intros c st sn H. rewrite after_mid. apply NoDup_filter, mid_NoDup, H. Qed.

Lemma In_new_iff : forall c st sn e, In e (new_keys c st sn) <->
  ~ In e (keys (st_hosts st)) /\ In e (keys (hosts_after c st sn)).
Proof.
  intros c st sn e. rewrite In_after, In_new_accepted. pose proof (kept_accepted c sn e). tauto.
Qed.

Lemma In_gone_iff : forall c st sn e, In e (gone_keys c st sn) <->
  In e (keys (st_hosts st)) /\ ~ In e (keys (hosts_after c st sn)).
Proof.
  intros c st sn e. unfold gone_keys. rewrite In_after, filter_In. destruct (kept c sn e); simpl; intuition congruence.
Qed.

Lemma refresh_hosts : forall c f st sn, st_hosts (fst (refresh c f st sn)) = hosts_after c st sn.
Proof. intros. unfold refresh. destruct (lr_part (local_part c st sn) && should_rebuild c f st sn); reflexivity. Qed.

Definition rebuilt (c : config) (f : bool) (st : state) (sn : snapshot) : bool :=
  lr_part (local_part c st sn) && should_rebuild c f st sn.

Lemma refresh_events : forall c f st sn, snd (refresh c f st sn) =
  notifications c st sn ++ (if rebuilt c f st sn then [ERebuild (snapshot_tokens c st sn)] else []).
Proof.
  intros. unfold refresh, rebuilt. destruct (lr_part (local_part c st sn) && should_rebuild c f st sn);
    [reflexivity|rewrite app_nil_r; reflexivity].
Qed.

Lemma refresh_tokens : forall c f st sn, st_tokens (fst (refresh c f st sn)) =
  if rebuilt c f st sn then Some (snapshot_tokens c st sn) else st_tokens st.
Proof. intros. unfold refresh, rebuilt. destruct (lr_part (local_part c st sn) && should_rebuild c f st sn); reflexivity. Qed.

Lemma tokens_mirror_iff : forall c f st sn, st_tokens (fst (refresh c f st sn)) = Some (snapshot_tokens c st sn) <->
  rebuilt c f st sn = true \/ st_tokens st = Some (snapshot_tokens c st sn).
Proof.
  intros c f st sn. rewrite refresh_tokens. destruct (rebuilt c f st sn); [tauto|].
  split; [intros H; right; exact H|intros [H|H]; [discriminate H|exact H]].
Qed.

Definition Inv (c : config) (st : state) : Prop :=
  NoDup (keys (st_hosts st)) /\ In (control c) (keys (st_hosts st)).

Lemma Inv_refresh : forall c f st sn, Inv c st -> Inv c (fst (refresh c f st sn)).
Proof.
  intros c f st sn [Hn Hc]. unfold Inv. rewrite refresh_hosts. split; [apply after_NoDup; exact Hn|].
  apply exact_hosts; [exact Hc|left; reflexivity].
Qed.

Lemma tells_removal : forall c found hs,
  tells (removal_events c found hs) [] (filter (fun e => negb (keep c found e)) (keys hs)).
Proof.
  intros c found hs. induction hs as [|[e h] r IH]; [repeat split|].
  change (removal_events c found ((e, h) :: r))
    with ((if keep c found e then [] else [ELbpRemove e; EListenerRemove e]) ++ removal_events c found r).
  simpl filter. destruct (keep c found e); [exact IH|].
  exact (tells_app (tells_remove e) IH).
Qed.

Lemma tells_rebuild : forall (b : bool) a, tells (if b then [ERebuild a] else []) [] [].
Proof. intros [|] a; repeat split. Qed.

(* ev: the events of the removal loop, of the plain refresh or of the one on a live control connection *)
Lemma tells_refresh : forall c st sn ev R (b : bool), tells ev [] R ->
  tells ((lr_events (local_part c st sn) ++ snd (fst (peers_part c st sn)) ++ ev) ++
         (if b then [ERebuild (snapshot_tokens c st sn)] else [])) (new_keys c st sn) R.
Proof.
  intros c st sn ev R b Hr.
  (* additions [] ++ (new_keys ++ []) ++ [], removals [] ++ ([] ++ R) ++ [] *)
  pose proof (tells_app (tells_app (local_tells c st sn) (tells_app (proj1 (proj2 (peers_spec c st sn))) Hr))
                (tells_rebuild b (snapshot_tokens c st sn))) as H.
  rewrite !app_nil_r in H. exact H.
Qed.

Lemma refresh_tells : forall c f st sn, tells (snd (refresh c f st sn)) (new_keys c st sn) (gone_keys c st sn).
Proof.
  intros c f st sn. rewrite refresh_events. unfold notifications. apply tells_refresh.
  rewrite found_all_eq, <- gone_mid. apply tells_removal.
Qed.

Lemma apply_rows_find_other : forall ers hs e', ~ In e' (map fst ers) -> find e' (fst (fst (apply_rows hs ers))) = find e' hs.
Proof.
  intros ers. induction ers as [|[e r] rest IH]; intros hs e' Hn; [reflexivity|].
  rewrite apply_rows_cons. cbn [fst snd]. rewrite IH.
  - apply apply_row_find_other. intros ->. apply Hn. left. reflexivity.
  - intro H. apply Hn. right. exact H.
Qed.

Lemma same_location_refl : forall h, same_location h (h_dc h) (h_rack h) = true.
Proof.
  intros h. unfold same_location. destruct (h_dc h), (h_rack h); simpl; rewrite ?Z.eqb_refl; reflexivity.
Qed.

(* conditional: IF the location of e changed from h to h', evs hold on_down at the old place followed at once by on_up at the new *)
Definition reports_if_moved (e : endpoint) (h h' : host) (evs : list event) : Prop :=
  same_location h (h_dc h') (h_rack h') = false ->
  exists a b, evs = a ++ [ELbpDown e (h_dc h) (h_rack h); ELbpUp e (h_dc h') (h_rack h')] ++ b.

Lemma moved_app : forall e h h' a evs b, reports_if_moved e h h' evs -> reports_if_moved e h h' (a ++ evs ++ b).
Proof.
  intros e h h' a evs b H Hm. destruct (H Hm) as [x [y ->]]. exists (a ++ x), (y ++ b). rewrite <- !app_assoc. reflexivity.
Qed.

Lemma update_location_moved : forall e h dc rack id,
  reports_if_moved e h {| h_dc := dc; h_rack := rack; h_host_id := id |} (fst (update_location e h dc rack)).
Proof. intros e h dc rack id Hm. unfold update_location. simpl in Hm. rewrite Hm. exists [], []. reflexivity. Qed.

Lemma apply_rows_moved : forall ers hs e h h', NoDup (map fst ers) ->
  find e hs = Some h -> find e (fst (fst (apply_rows hs ers))) = Some h' ->
  reports_if_moved e h h' (snd (fst (apply_rows hs ers))).
Proof.
  intros ers. induction ers as [|[e0 r] rest IH]; intros hs e h h' Hnd Hf Hf'.
  - simpl in Hf'. intros Hm. replace h' with h in Hm by congruence. rewrite same_location_refl in Hm. discriminate Hm.
  - rewrite apply_rows_cons in *. cbn [fst snd] in *. inversion Hnd as [|x l Hx Hl]; subst.
    destruct (ep_eqb_spec e e0) as [<-|Hne].
    + (* no later row has the endpoint of e: its record after the loop is the one this row wrote *)
      rewrite apply_rows_find_other in Hf' by exact Hx. unfold apply_row in *. rewrite Hf in *.
      pose proof (update_location_moved e h (r_dc r) (r_rack r) (r_host_id r)) as Hu.
      destruct (update_location e h (r_dc r) (r_rack r)) as [ev ch]. cbn [fst snd] in *.
      rewrite find_replace_same in Hf' by exact (find_Some_In _ _ _ Hf). injection Hf' as <-.
      apply (moved_app _ _ _ []). exact Hu.
    + assert (Hf1 : find e (fst (fst (apply_row hs (e0, r)))) = Some h) by (rewrite apply_row_find_other; assumption).
      pose proof (moved_app e h h' (snd (fst (apply_row hs (e0, r)))) _ [] (IH _ e h h' Hl Hf1 Hf')) as H.
      rewrite app_nil_r in H. exact H.
Qed.

Lemma local_moved : forall c st sn e h, find e (st_hosts st) = Some h ->
  find e (lr_hosts (local_part c st sn)) = Some h \/
  In e (found_local c sn) /\
  exists h1, find e (lr_hosts (local_part c st sn)) = Some h1 /\ reports_if_moved e h h1 (lr_events (local_part c st sn)).
Proof.
  intros c st sn e h Hf. unfold local_part, found_local. destruct (sn_local sn) as [l|]; [|left; exact Hf].
  destruct (ep_eqb_spec e (control c)) as [->|Hne].
  - rewrite Hf. right. split; [left; reflexivity|]. eexists. split; [|apply update_location_moved].
    apply find_replace_same, (find_Some_In _ _ _ Hf).
  - left. destruct (find (control c) (st_hosts st)); [simpl; rewrite find_replace_other by exact Hne|]; exact Hf.
Qed.

Lemma location_reaches_policy : forall c f st sn e h h',
  find e (st_hosts st) = Some h -> find e (st_hosts (fst (refresh c f st sn))) = Some h' ->
  reports_if_moved e h h' (snd (refresh c f st sn)).
Proof.
  intros c f st sn e h h' Hf Hf'. rewrite refresh_hosts in Hf'. unfold hosts_after in Hf'. rewrite find_filter in Hf'.
  destruct (keep c (found_all c st sn) e); [|discriminate Hf'].
  unfold hosts_mid, peers_part in Hf'. rewrite refresh_events. unfold notifications, peers_part. rewrite <- !app_assoc.
  destruct (local_moved c st sn e h Hf) as [Hl|[Hin [h1 [Hl Hm]]]].
  - apply moved_app. apply apply_rows_moved; [rewrite accepted_eq; apply accept_NoDup|exact Hl|exact Hf'].
  - (* the control host has no accepted row: its record is the one system.local wrote *)
    rewrite apply_rows_find_other in Hf'.
    + rewrite Hl in Hf'. injection Hf' as <-. apply (moved_app _ _ _ []). exact Hm.
    + rewrite accepted_eq. unfold accepted_eps. rewrite accept_keys. tauto.
Qed.

Lemma removed_iff : forall c st sn, some_removed c st sn = true <-> exists e, In e (gone_keys c st sn).
Proof.
  intros c st sn. unfold some_removed. rewrite negb_true_iff, Nat.eqb_neq.
  replace (length (hosts_after c st sn)) with (length (filter (kept c sn) (keys (hosts_mid c st sn))))
    by (rewrite <- after_mid; apply map_length).
  replace (length (hosts_mid c st sn)) with (length (keys (hosts_mid c st sn))) by apply map_length.
  (* a filter is shorter than its list iff some element fails it: here, iff some key is in gone_keys *)
  pose proof (filter_length_le (kept c sn) (keys (hosts_mid c st sn))) as Hle.
  pose proof (filter_length_lt (kept c sn) (keys (hosts_mid c st sn))) as Hlt.
  split.
  - intros Hne. destruct (proj1 Hlt ltac:(lia)) as [e [Hin Hk]]. exists e. rewrite <- gone_mid, filter_In, Hk. auto.
  - intros [e He]. rewrite <- gone_mid, filter_In, negb_true_iff in He. apply proj2 in Hlt. specialize (Hlt (ex_intro _ e He)). lia.
Qed.

Lemma rebuilt_iff : forall c f st sn, rebuilt c f st sn = true <->
  lr_part (local_part c st sn) = true /\
  (f = true \/ st_partitioner st = false \/
   (exists er, In er (accepted c st sn) /\ row_triggers (lr_hosts (local_part c st sn)) er) \/
   (exists e, In e (keys (st_hosts st)) /\ ~ In e (keys (hosts_after c st sn)))).
Proof.
  intros c f st sn. unfold rebuilt, should_rebuild.
  rewrite andb_true_iff, !orb_true_iff, negb_true_iff, removed_iff, (proj2 (proj2 (peers_spec c st sn))).
  setoid_rewrite In_gone_iff. tauto.
Qed.

Lemma membership_change_rebuilds : forall c f st sn e,
  lr_part (local_part c st sn) = true ->
  (In e (keys (st_hosts st)) /\ ~ In e (keys (hosts_after c st sn))) \/
  (~ In e (keys (st_hosts st)) /\ In e (keys (hosts_after c st sn))) ->
  rebuilt c f st sn = true.
Proof.
  intros c f st sn e Hp H. apply rebuilt_iff. split; [exact Hp|]. right. right. destruct H as [H|H].
  - right. exists e. exact H.
  - (* a host that appeared has an accepted row, and the hosts do not know its endpoint *)
    left. apply In_new_iff, In_new_accepted in H. destruct H as [Hn Ha].
    rewrite <- (accepted_eq c st sn) in Ha. apply in_map_iff in Ha. destruct Ha as [[e' r] [He Hin]]. simpl in He. subst e'.
    exists (e, r). split; [exact Hin|]. left. apply find_None. rewrite local_keys. exact Hn.
Qed.

Lemma remove_loop_cons : forall rec K e l s, fst (remove_loop rec K (e :: l) s) =
  if K e || negb (mem e (keys (st_hosts s))) then fst (remove_loop rec K l s)
  else let r := rec (with_hosts s (remove_host e (st_hosts s))) in
       let r' := fst (remove_loop rec K l (fst r)) in
       (fst r', [ELbpRemove e; EListenerRemove e] ++ snd r ++ snd r').
Proof.
  intros. simpl. destruct (K e); [reflexivity|]. unfold keys. destruct (mem e (map fst (st_hosts s))).
  - destruct (rec (with_hosts s (remove_host e (st_hosts s)))) as [s2 ev2]. simpl.
    destruct (remove_loop rec K l s2) as [[s3 ev3] b3]. reflexivity.
  - destruct (remove_loop rec K l s) as [[s3 ev3] b3]. reflexivity.
Qed.

Lemma loop_all_kept : forall rec K l s, (forall x, In x (keys (st_hosts s)) -> K x = true) ->
  fst (remove_loop rec K l s) = (s, []).
Proof.
  intros rec K l s H. induction l as [|e l IH]; [reflexivity|]. rewrite remove_loop_cons.
  destruct (mem_spec e (keys (st_hosts s))) as [Hin|_]; [rewrite (H e Hin)|rewrite orb_true_r]; exact IH.
Qed.

Lemma remove_host_keys : forall e hs, keys (remove_host e hs) = filter (fun x => negb (ep_eqb x e)) (keys hs).
Proof. intros. apply (keys_filter (fun x => negb (ep_eqb x e))). Qed.

Lemma remove_host_length : forall e hs, In e (keys hs) -> (length (keys (remove_host e hs)) < length (keys hs))%nat.
Proof.
  intros e hs H. rewrite remove_host_keys. apply filter_length_lt. exists e. split; [exact H|]. rewrite ep_eqb_refl. reflexivity.
Qed.

(* what a (nested or outer) refresh r does when its removal loop, which keeps K, starts from the endpoints `start` *)
Definition refreshed_from (K : endpoint -> bool) (adds start : list endpoint) (r : state * list event) : Prop :=
  keys (st_hosts (fst r)) = filter K start /\ tells (snd r) adds (filter (fun e => negb (K e)) start).

(* The loop runs over the endpoints l that remain of the hosts `pre ++ l` of s.  The first one not kept is removed; the nested
   refresh that follows removes all the others, so that the rest of the loop finds nothing to do. *)
Lemma loop_spec : forall (rec : state -> state * list event) K s, NoDup (keys (st_hosts s)) ->
  (forall e, K e = false -> In e (keys (st_hosts s)) ->
     refreshed_from K [] (keys (remove_host e (st_hosts s))) (rec (with_hosts s (remove_host e (st_hosts s))))) ->
  forall l pre, keys (st_hosts s) = pre ++ l -> (forall x, In x pre -> K x = true) ->
    refreshed_from K [] (keys (st_hosts s)) (fst (remove_loop rec K l s)).
Proof.
  intros rec K s Hnd Hrec l. induction l as [|e l IH]; intros pre Hk Hpre.
  - rewrite app_nil_r in Hk. unfold refreshed_from. simpl. rewrite Hk, (filter_all _ pre Hpre), (filter_none _ pre); [repeat split|].
    intros x Hx. rewrite (Hpre x Hx). reflexivity.
  - rewrite remove_loop_cons. destruct (K e) eqn:Ek; simpl orb.
    + apply (IH (pre ++ [e])); [rewrite <- app_assoc; exact Hk|].
      intros x Hx. apply in_app_or in Hx. destruct Hx as [Hx|[<-|[]]]; auto.
    + assert (He : In e (keys (st_hosts s))) by (rewrite Hk; apply in_elt).
      destruct (mem_spec e (keys (st_hosts s))); [|contradiction]. cbn [negb].
      assert (Hk1 : keys (remove_host e (st_hosts s)) = pre ++ l).
      { rewrite remove_host_keys, Hk, filter_app. simpl. rewrite ep_eqb_refl.
        rewrite Hk in Hnd. apply NoDup_remove_2 in Hnd. rewrite in_app_iff in Hnd.
        rewrite !filter_all; [reflexivity| |]; intros x Hx; destruct (ep_eqb_spec x e) as [->|]; tauto. }
      destruct (Hrec e Ek He) as [G1 G2]. rewrite Hk1 in G1, G2. rewrite loop_all_kept.
      2: { intros x Hx. rewrite G1 in Hx. apply filter_In in Hx. apply Hx. }
      assert (Hp : filter (fun x => negb (K x)) pre = []) by (apply filter_none; intros x Hx; rewrite (Hpre x Hx); reflexivity).
      unfold refreshed_from. cbn [fst snd]. rewrite Hk, app_nil_r. split.
      * rewrite G1, !filter_app. simpl. rewrite Ek. reflexivity.
      * pose proof (tells_app (tells_remove e) G2) as T.
        rewrite !filter_app, Hp in *. simpl. rewrite Ek. exact T.
Qed.

Lemma nothing_new : forall c st sn, incl (accepted_eps c sn) (keys (st_hosts st)) ->
  new_keys c st sn = [] /\ keys (hosts_mid c st sn) = keys (st_hosts st).
Proof.
  intros c st sn Hacc. assert (Hn : new_keys c st sn = []).
  { apply filter_none. intros e He. apply not_true_is_false. rewrite fresh_iff, local_keys. intros H. exact (H (Hacc e He)). }
  split; [exact Hn|]. rewrite mid_keys, Hn. apply app_nil_r.
Qed.

Lemma live_spec : forall c sn n f st, NoDup (keys (st_hosts st)) -> (length (keys (hosts_mid c st sn)) < n)%nat ->
  refreshed_from (kept c sn) (new_keys c st sn) (keys (hosts_mid c st sn)) (refresh_live n c f st sn).
Proof.
  intros c sn n. induction n as [|n IH]; intros f st Hnd Hlen; [lia|].
  cbn [refresh_live]. rewrite found_all_eq. fold (kept c sn) (keys (hosts_mid c st sn)).
  assert (L : refreshed_from (kept c sn) [] (keys (hosts_mid c st sn))
                (fst (remove_loop (fun s => refresh_live n c true s sn) (kept c sn) (keys (hosts_mid c st sn))
                        (with_hosts st (hosts_mid c st sn))))).
  { apply (loop_spec _ _ (with_hosts st (hosts_mid c st sn)) (mid_NoDup c st sn Hnd)) with (pre := []); [|reflexivity|intros x []].
    (* A nested refresh starts from s1, the hosts without e: fewer hosts, which still hold every accepted endpoint.  So its
       peers loop adds none (new_keys c s1 sn = []) and leaves the keys alone (keys (hosts_mid c s1 sn) = keys (st_hosts s1)):
       that is how the induction hypothesis at s1 differs from what loop_spec asks of the nested call. *)
    intros e Ek He. cbn [st_hosts with_hosts] in *. set (s1 := with_hosts _ _).
    destruct (nothing_new c s1 sn) as [Hn Hm].
    { intros x Hx. cbn [s1 st_hosts with_hosts]. rewrite remove_host_keys. apply filter_In. split.
      - apply In_mid. right. exact Hx.
      - destruct (ep_eqb_spec x e) as [->|]; [|reflexivity]. rewrite (proj2 (kept_accepted c sn e)) in Ek by (right; exact Hx). discriminate. }
    assert (G : refreshed_from (kept c sn) (new_keys c s1 sn) (keys (hosts_mid c s1 sn)) (refresh_live n c true s1 sn)).
    { apply IH.
      - cbn [s1 st_hosts with_hosts]. rewrite remove_host_keys. apply NoDup_filter, mid_NoDup, Hnd.
      - rewrite Hm. pose proof (remove_host_length e _ He). cbn [s1 st_hosts with_hosts]. lia. }
    rewrite Hn, Hm in G. exact G. }
  destruct (remove_loop (fun s => refresh_live n c true s sn) (kept c sn) (keys (hosts_mid c st sn))
              (with_hosts st (hosts_mid c st sn))) as [[s2 ev2] removed].
  destruct L as [G1 G2].
  (* rebuilding or not (whatever `removed` says) only appends an ERebuild *)
  destruct (lr_part (local_part c st sn) && (f || negb (st_partitioner st) || snd (peers_part c st sn) || removed));
    (split; [exact G1|]).
  - exact (tells_refresh c st sn ev2 _ true G2).
  - pose proof (tells_refresh c st sn ev2 _ false G2) as T. rewrite app_nil_r in T. exact T.
Qed.

Lemma live_refresh : forall c f st sn, NoDup (keys (st_hosts st)) ->
  keys (st_hosts (fst (refresh_live (live_fuel c st sn) c f st sn))) = keys (hosts_after c st sn) /\
  tells (snd (refresh_live (live_fuel c st sn) c f st sn)) (new_keys c st sn) (gone_keys c st sn).
Proof.
  intros c f st sn Hnd. rewrite after_mid, <- gone_mid. apply live_spec; [exact Hnd|]. unfold live_fuel, keys. rewrite map_length. lia.
Qed.

Lemma In_find_Some : forall e hs, In e (keys hs) -> exists h, find e hs = Some h.
Proof.
  intros e hs H. destruct (find e hs) as [h|] eqn:E; [exists h; reflexivity|].
  apply find_None in E. contradiction.
Qed.

Lemma accept_rows : forall c rows found e r, In (e, r) (accept c found rows) -> In r rows /\ valid c r = true /\ ep_of c r = e.
Proof.
  intros c rows. induction rows as [|r0 rest IH]; intros found e r H; simpl in H; [destruct H|].
  assert (Hrest : forall found', In (e, r) (accept c found' rest) -> In r (r0 :: rest) /\ valid c r = true /\ ep_of c r = e).
  { intros found' H'. destruct (IH _ _ _ H') as [H1 H2]. split; [right; exact H1|exact H2]. }
  destruct (valid c r0) eqn:Ev; [|exact (Hrest _ H)].
  destruct (mem (ep_of c r0) found); [exact (Hrest _ H)|].
  destruct H as [Hhead|Htail]; [|exact (Hrest _ Htail)].
  injection Hhead as <- <-. split; [left; reflexivity|split; [exact Ev|reflexivity]].
Qed.
