(* `versions` enumerates the reported versions, so `agreed` is `single_version`.  Every way out of the wait loop says of the
   script it ran on what `outcome_says` lists. *)
From Coq Require Import ZArith List Bool Lia.
From Verif Require Import SchemaAgreement ListFacts.
Import ListNotations.
Local Open Scope Z_scope.

Definition reported (h : hoststates) (s : snapshot) (v : Z) : Prop :=
  s_local s = Some (Some v) \/ exists e, In (e, Some v) (s_peers s) /\ counted h e = true.

(* DESIGN 4.0: exactly one distinct non-empty version among the control node and the counted peers *)
Definition single_version (h : hoststates) (s : snapshot) : Prop :=
  exists v, reported h s v /\ forall w, reported h s w -> w = v.

Lemma add_version_spec : forall v l P, enum l P -> enum (add_version v l) (fun w => P w \/ w = v).
Proof. intros v l P. apply enum_add, (existsb_In Z.eqb Z.eqb_eq). Qed.

Lemma peer_versions_spec : forall h rows acc P, enum acc P ->
  enum (peer_versions h rows acc) (fun w => P w \/ exists e, In (e, Some w) rows /\ counted h e = true).
Proof.
  intros h rows. induction rows as [|[e ov] r IH]; intros acc P Hacc.
  - apply (enum_ext Hacc). intros w. split; [auto|]. intros [H|[e [[] _]]]. exact H.
  - set (acc' := match ov with Some v => if counted h e then add_version v acc else acc | None => acc end).
    assert (Hacc' : enum acc' (fun w => P w \/ ov = Some w /\ counted h e = true)).
    { unfold acc'. destruct ov as [v|]; [destruct (counted h e)|]; try (apply (enum_ext Hacc); intuition congruence).
      apply (enum_ext (add_version_spec v acc P Hacc)). intuition congruence. }
    replace (peer_versions h ((e, ov) :: r) acc) with (peer_versions h r acc')
      by (unfold acc'; simpl; destruct ov; [destruct (counted h e)|]; reflexivity).
    apply (enum_ext (IH acc' _ Hacc')). intros w. simpl. split.
    + intros [[H|[-> H]]|[e' [Hin H]]]; [left; exact H|right; exists e; auto|right; exists e'; auto].
    + intros [H|[e' [[Heq|Hin] H]]]; [auto|injection Heq as <- ->; auto|right; exists e'; auto].
Qed.

Lemma versions_spec : forall h s, enum (versions h s) (reported h s).
Proof.
  intros h s. apply peer_versions_spec. unfold local_versions. split.
  - destruct (s_local s) as [[v|]|]; repeat constructor. intros [].
  - intros w. destruct (s_local s) as [[v|]|]; simpl; [|split; [intros []|discriminate]..].
    split; [intros [->|[]]; reflexivity|intros H; injection H; auto].
Qed.

Lemma agreed_spec : forall h s, agreed h s = true <-> single_version h s.
Proof.
  intros h s. unfold agreed, single_version. destruct (versions_spec h s) as [Hnd Hin]. rewrite Nat.eqb_eq. split.
  - destruct (versions h s) as [|a [|b t]]; intros H; try discriminate H.
    exists a. split; [apply Hin; left; reflexivity|]. intros w Hw. apply Hin in Hw. destruct Hw as [->|[]]. reflexivity.
  - intros [v [Hv Hall]]. apply Hin in Hv. destruct (versions h s) as [|a [|b t]]; [destruct Hv|reflexivity|].
    (* two entries would both equal v *)
    exfalso. inversion Hnd as [|x l' Hx _]. apply Hx. left.
    rewrite (Hall a), (Hall b); [reflexivity| |]; apply Hin; simpl; auto.
Qed.

Lemma loop_nil : forall c k e, snd (loop c k e []) = if e <? budget c then More k e else Disagreed e.
Proof. intros. simpl. destruct (e <? budget c); reflexivity. Qed.

Lemma loop_cons : forall c k e p rest, snd (loop c k e (p :: rest)) =
  if e <? budget c then
    match p_resp p with
    | RTimeout => snd (loop c (S k) (e + Z.min (qtimeout c) (budget c - e)) rest)
    | RShutdown sd => if sd then Aborted else Raised
    | RSnap s => if agreed (p_hosts p) s then Agreed k else snd (loop c (S k) (e + p_dur p + sleep_ms) rest)
    end
  else Disagreed e.
Proof.
  intros. simpl. destruct (e <? budget c); [|reflexivity]. unfold poll_step.
  (* in the two cases that go on, name the pair the recursive call returns, whatever its elapsed time *)
  destruct (p_resp p) as [|sd|s]; [|reflexivity|destruct (agreed (p_hosts p) s); [reflexivity|]];
    match goal with |- context [loop c (S k) ?e' rest] => destruct (loop c (S k) e' rest) end; reflexivity.
Qed.

(* what each way out of the loop, started with poll counter k at elapsed time e, says about the script it ran on *)
Definition outcome_says (c : cfg) (k : nat) (e : Z) (polls : list poll) (o : outcome) : Prop :=
  match o with
  | More k' e' => k' = (k + length polls)%nat /\ e' < budget c /\
      (0 < qtimeout c -> Forall (fun p => 0 <= p_dur p) polls -> e + Z.of_nat (length polls) <= e')
  | Disagreed e' => budget c <= e'
  | Agreed j => exists i p s, j = (k + i)%nat /\
      nth_error polls i = Some p /\ p_resp p = RSnap s /\ single_version (p_hosts p) s
  | Aborted | Raised => Exists (fun p => exists sd, p_resp p = RShutdown sd) polls
  | AgreedPreloaded | Bypassed => False
  end.

Lemma loop_outcome : forall c polls k e o, snd (loop c k e polls) = o -> outcome_says c k e polls o.
Proof.
  intros c polls k e o <-. revert k e. induction polls as [|p r IH]; intros k e.
  - rewrite loop_nil. destruct (e <? budget c) eqn:Eb; simpl; lia.
  - rewrite loop_cons. destruct (e <? budget c) eqn:Eb; [|simpl; lia].
    (* the loop goes on with the next poll, at least 1 ms later: what the rest says, said of p :: r *)
    assert (Hnext : forall e1, (0 < qtimeout c -> 0 <= p_dur p -> e < e1) ->
                    outcome_says c k e (p :: r) (snd (loop c (S k) e1 r))).
    { intros e1 He1. specialize (IH (S k) e1). destruct (snd (loop c (S k) e1 r)) as [j| | |e'| | |k' e']; simpl in *;
        try exact IH; try exact (Exists_cons_tl p IH).
      - (* Agreed j *)
        destruct IH as (i & IH). exists (S i). rewrite <- plus_n_Sm. exact IH.
      - (* More k' e' *)
        destruct IH as [Hk [Hb Hadv]]. split; [lia|]. split; [exact Hb|]. intros Hq HF.
        inversion HF as [|p' r' Hp Hr]. specialize (Hadv Hq Hr). specialize (He1 Hq Hp). lia. }
    destruct (p_resp p) as [|sd|s] eqn:Ep.
    + apply Hnext. lia.
    + destruct sd; apply Exists_cons_hd; eexists; exact Ep.
    + destruct (agreed (p_hosts p) s) eqn:Ea; [|apply Hnext; unfold sleep_ms; lia].
      exists 0%nat, p, s. split; [lia|]. split; [reflexivity|]. split; [exact Ep|apply agreed_spec, Ea].
Qed.

Lemma loop_More_index : forall c polls k e k' e', snd (loop c k e polls) = More k' e' -> k' = (k + length polls)%nat.
Proof. intros c polls k e k' e' H. exact (proj1 (loop_outcome c polls k e _ H)). Qed.

Lemma loop_app : forall c pre k e k' e' l,
  snd (loop c k e pre) = More k' e' ->
  snd (loop c k e (pre ++ l)) = snd (loop c k' e' l).
Proof.
  intros c pre. induction pre as [|p pre IH]; intros k e k' e' l H.
  - rewrite loop_nil in H. destruct (e <? budget c); [|discriminate H]. injection H as -> ->. reflexivity.
  - rewrite loop_cons in H. simpl app. rewrite loop_cons. destruct (e <? budget c); [|discriminate H].
    destruct (p_resp p) as [|[|]|s]; [|discriminate H|discriminate H|destruct (agreed (p_hosts p) s); [discriminate H|]];
      apply IH; exact H.
Qed.

Lemma verdict_at_poll : forall c k0 e0 pre p rest k e,
  snd (loop c k0 e0 pre) = More k e ->
  (snd (loop c k0 e0 (pre ++ p :: rest)) = Agreed k <->
   exists s, p_resp p = RSnap s /\ single_version (p_hosts p) s).
Proof.
  intros c k0 e0 pre p rest k e H. rewrite (loop_app c pre k0 e0 k e (p :: rest) H). split.
  - intros Ha. apply loop_outcome in Ha. destruct Ha as (i & p' & s & Hi & Hn & Hs).
    replace i with 0%nat in Hn by lia. injection Hn as <-. exists s. exact Hs.
  - intros [s [Hr Hs]]. apply agreed_spec in Hs. apply loop_outcome in H. simpl in H.
    rewrite loop_cons, Hr, Hs. destruct (Z.ltb_spec e (budget c)); [reflexivity|lia].
Qed.

Definition inconclusive (p : poll) : Prop :=
  match p_resp p with
  | RTimeout => True
  | RShutdown _ => False
  | RSnap s => ~ single_version (p_hosts p) s
  end.

Lemma keeps_polling : forall c polls k e, Forall inconclusive polls ->
  (exists k' e', snd (loop c k e polls) = More k' e' /\ e' < budget c) \/
  (exists e', snd (loop c k e polls) = Disagreed e' /\ budget c <= e').
Proof.
  intros c polls k e HF. rewrite Forall_forall in HF. unfold inconclusive in HF.
  assert (Hsd : ~ Exists (fun p => exists sd, p_resp p = RShutdown sd) polls).
  { rewrite Exists_exists. intros [p [Hin [sd Hr]]]. apply HF in Hin. rewrite Hr in Hin. exact Hin. }
  pose proof (loop_outcome c polls k e _ eq_refl) as O.
  destruct (snd (loop c k e polls)) as [j| | |e'| | |k' e']; try contradiction.
  - (* Agreed j *)
    destruct O as (i & p & s & _ & Hn & Hr & Hs). apply nth_error_In, HF in Hn. rewrite Hr in Hn. contradiction.
  - right. exists e'. split; [reflexivity|exact O].
  - left. exists k', e'. split; [reflexivity|apply O].
Qed.

(* the loop cannot poll forever: every inconclusive poll costs at least 1 ms of the budget *)
Lemma loop_terminates : forall c polls k e, 0 < qtimeout c -> Forall (fun p => 0 <= p_dur p) polls ->
  budget c - e <= Z.of_nat (length polls) -> forall k' e', snd (loop c k e polls) <> More k' e'.
Proof.
  intros c polls k e Hq HF Hlen k' e' H. destruct (loop_outcome c polls k e _ H) as [_ [Hb Hadv]].
  specialize (Hadv Hq HF). lia.
Qed.

Lemma wait_positive_budget : forall c sd pre polls, 0 < budget c ->
  wait c sd pre polls =
  if sd then ([], Aborted)
  else match pre with
       | Some (h, s) => if agreed h s then ([], AgreedPreloaded) else loop c 0 0 polls
       | None => loop c 0 0 polls
       end.
Proof. intros c sd pre polls H. unfold wait. assert (E : (budget c <=? 0) = false) by lia. rewrite E. reflexivity. Qed.

Lemma wait_loop : forall c polls, 0 < budget c -> wait c false None polls = loop c 0 0 polls.
Proof. intros c polls H. exact (wait_positive_budget c false None polls H). Qed.

Lemma truthy_Agreed : forall o, o <> AgreedPreloaded -> o <> Bypassed -> (truthy o = true <-> exists k, o = Agreed k).
Proof.
  intros o N1 N2. destruct o as [k| | |el| | |k el].
  (* Disagreed, Aborted, Raised, More *)
  4-7: split; [discriminate|intros [k' Hk]; discriminate Hk].
  - (* Agreed *) split; [intros _; exists k; reflexivity|reflexivity].
  - (* AgreedPreloaded *) destruct (N1 eq_refl).
  - (* Bypassed *) destruct (N2 eq_refl).
Qed.

Lemma wait_truthy_Agreed : forall c sd polls, 0 < budget c ->
  (truthy (snd (wait c sd None polls)) = true <-> exists k, snd (wait c sd None polls) = Agreed k).
Proof.
  intros c sd polls Hb. rewrite wait_positive_budget by exact Hb.
  destruct sd; [apply truthy_Agreed; discriminate|].
  apply truthy_Agreed; exact (loop_outcome c polls 0%nat 0 _).
Qed.

Lemma delivered_flag : forall r, fu_delivered (run_future (future_steps r)) = Some (fu_flag (run_future (future_steps r))).
Proof. intros [b|]; reflexivity. Qed.

Lemma future_flag : forall e c polls,
  f_is_schema_agreed (schema_change_path e c polls) =
  negb (cluster_shutdown e) && truthy (snd (wait c (cc_shutdown e) None polls)) &&
  negb (meta_enabled e && refresh_raises e).
Proof.
  intros e c polls. unfold schema_change_path. destruct (cluster_shutdown e); [reflexivity|].
  destruct (wait c (cc_shutdown e) None polls) as [ev o]. simpl. unfold refresh_schema.
  destruct o; destruct (meta_enabled e); destruct (refresh_raises e); reflexivity.
Qed.
