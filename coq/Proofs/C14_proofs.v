(* With the first-wins guard (g = true) every pair is invoked at most once, with the outcome result() reports
   (SStep, SInv); with or without it an outcome exists once nothing is outstanding (LInv); C14_at reads the statement off the
   two.  The _callback_lock protocol (Model/FutureCbLock.v) has an invariant of its own (LkInv). *)
From Coq Require Import ZArith List Bool Lia.
From Verif Require Import ListFacts FutureState FutureOnce FutureOnce_effects FutureCbLock.
Import ListNotations.
Local Open Scope Z_scope.

Definition same_view (s s' : state) : Prop :=
  fres s' = fres s /\ fexc s' = fexc s /\ event s' = event s /\ pairs s' = pairs s.

Definition SStep (s s' : state) : Prop :=
  same_view s s'
  \/ (final_set s = false /\ exists v, fres s' = Some v /\ fexc s' = None /\ event s' = true /\ pairs s' = run_cbs v (pairs s))
  \/ (final_set s = false /\ exists e, fres s' = None /\ fexc s' = Some e /\ event s' = true /\ pairs s' = run_ebs e (pairs s)).

Lemma same_view_final s s' : same_view s s' -> final_set s' = final_set s.
Proof. unfold same_view, final_set. intros (-> & -> & _). reflexivity. Qed.

Lemma final_set_false s : final_set s = false -> fres s = None /\ fexc s = None.
Proof. unfold final_set. destruct (fres s), (fexc s); try discriminate. split; reflexivity. Qed.

Lemma SStep_same_l s1 s2 s3 : same_view s1 s2 -> SStep s2 s3 -> SStep s1 s3.
Proof. intros (h1 & h2 & h3 & h4). unfold SStep, same_view, final_set. rewrite h1, h2, h3, h4. exact (fun H => H). Qed.

Lemma SStep_same_r s1 s2 s3 : SStep s1 s2 -> same_view s2 s3 -> SStep s1 s3.
Proof. intros H (h1 & h2 & h3 & h4). revert H. unfold SStep, same_view. rewrite h1, h2, h3, h4. exact (fun H => H). Qed.

Lemma SStep_after_final s s' : SStep s s' -> final_set s = true -> same_view s s'.
Proof. intros [H|[(Hf & _)|(Hf & _)]] Ht; [assumption|congruence|congruence]. Qed.

Lemma SStep_trans s1 s2 s3 : SStep s1 s2 -> SStep s2 s3 -> SStep s1 s3.
Proof.
  intros H12 H23. destruct H12 as [H|[(Hf & v & H)|(Hf & e & H)]].
  - eapply SStep_same_l; eassumption.
  - eapply SStep_same_r; [right; left; split; [assumption|exists v; eassumption]|].
    apply SStep_after_final; [assumption|]. unfold final_set. destruct H as (-> & _). reflexivity.
  - eapply SStep_same_r; [right; right; split; [assumption|exists e; eassumption]|].
    apply SStep_after_final; [assumption|]. unfold final_set. destruct H as (_ & -> & _). apply orb_true_r.
Qed.

(* the first conjunct of calm, and of frame, is same_view *)
Lemma calm_view s s' : calm s s' -> same_view s s'.
Proof. intros (H & _). exact H. Qed.

(* with the guard a completion changes the view only if there was no outcome yet *)
Lemma SStep_set_final o s : SStep s (set_final true o s).
Proof.
  destruct (calm_cancel s) as (Hv & _). pose proof Hv as (h1 & h2 & _ & h4). unfold set_final.
  rewrite (same_view_final s (cancel_timer s) Hv).
  destruct (final_set s) eqn:Hf; [left; exact Hv|].
  destruct (final_set_false s Hf) as (Er & Ee). rewrite Er in h1. rewrite Ee in h2.
  destruct o; [right; left|right; left|right; right]; (split; [exact Hf|]); eexists; cbn; rewrite ?h1, ?h2, h4; repeat split.
Qed.

Lemma eff_SStep s s' : Eff true s s' -> SStep s s'.
Proof.
  induction 1 as [s|s1 s2 s3 _ IH1 _ IH2|s s' (H & _)|k d s|o s _|prep h s|a s|q s _|s _];
    try (left; repeat split; fail).   (* refl, new_timer, clear, queue, tfired *)
  - eapply SStep_trans; eassumption.
  - (* frame *) left. exact H.
  - apply SStep_set_final.
  - left. unfold query_gen. destruct (pool_of _ _); repeat split.
Qed.

(* the pair add_callbacks would register now: already invoked with the outcome, if there is one *)
Definition fresh_pair (s : state) : pair :=
  mkPair (match fres s with Some v => [v] | None => [] end) (match fexc s with Some e => [e] | None => [] end).

Definition SInv (s : state) : Prop :=
  event s = final_set s /\ (is_some (fres s) && is_some (fexc s) = false) /\ Forall (eq (fresh_pair s)) (pairs s).

Lemma SInv_SStep s s' : SInv s -> SStep s s' -> SInv s'.
Proof.
  intros (He & Hx & Hp) [H|HS].
  - pose proof (same_view_final _ _ H) as Hfs. destruct H as (H1 & H2 & H3 & H4).
    unfold SInv, fresh_pair. rewrite Hfs, H1, H2, H3, H4. repeat split; assumption.
  - (* no pair had been invoked; now each has been, once *)
    assert (Hn : fres s = None /\ fexc s = None) by (destruct HS as [(Hf & _)|(Hf & _)]; exact (final_set_false s Hf)).
    destruct Hn as (Er & Ee). unfold fresh_pair in Hp. rewrite Er, Ee in Hp.
    destruct HS as [(_ & v & H1 & H2 & H3 & H4)|(_ & e & H1 & H2 & H3 & H4)];
      unfold SInv, final_set, fresh_pair; rewrite H1, H2, H3, H4; repeat split;
      unfold run_cbs, run_ebs; rewrite Forall_map; (eapply Forall_impl; [|exact Hp]);
      intros p <-; reflexivity.
Qed.

Lemma SInv_step pf s o : SInv s -> SInv (step true pf s o).
Proof.
  intros H. destruct (step_Op true pf s o) as [o s' E|d|k t _|pl _|].
  - exact (SInv_SStep _ _ H (eff_SStep _ _ E)).
  - exact H.
  - exact (SInv_SStep (timer_fired k s) _ H (eff_SStep _ _ (eff_handler true t _))).
  - (* a new page fetch starts with no outcome and no callback invoked *)
    unfold next_page.
    eapply SInv_SStep; [|apply eff_SStep, eff_send_request].
    eapply SInv_SStep; [|left; apply calm_view, calm_start_timer].
    assert (Hreset : SInv (page_reset pl s)).
    { unfold SInv, final_set. cbn. repeat split. rewrite Forall_map. apply Forall_forall. reflexivity. }
    eapply SInv_SStep; [exact Hreset|left; exact (proj1 (page_timer_reset_keeps pf _))].
  - destruct H as (He & Hx & Hp). repeat split; try assumption.
    apply Forall_app. split; [assumption|]. constructor; [reflexivity|constructor].
Qed.

Lemma SInv_init c : SInv (init c).
Proof.
  eapply SInv_SStep; [|left; apply calm_view, calm_start_timer].
  repeat split. constructor.
Qed.

Lemma SInv_run pf h s : SInv s -> SInv (run true pf s h).
Proof. exact (fold_left_inv _ _ (SInv_step pf) h s). Qed.

Section Live.
Variable g : bool.

(* a connection is known whenever _retry_task or the next page's send_request() runs, so that _on_timeout completes instead of re-arming *)
Definition AInv (s : state) : Prop :=
  (attempts s <> [] -> cur_conn s <> None) /\ (queue s <> [] -> attempts s <> []) /\ (paging s = true -> attempts s <> []).

Definition Timely (s : state) : Prop := tfired s = true -> final_set s = true.
Definition Settled (s : state) : Prop := cur_answered s = true -> final_set s = true.
Definition LInv (s : state) : Prop := AInv s /\ Timely s /\ Settled s.

(* _query writes the host, the connection, the stream id and, if it sends, the new request *)
Definition frameQ (s s1 : state) : Prop :=
  queue s1 = queue s /\ paging s1 = paging s /\ fres s1 = fres s /\ fexc s1 = fexc s /\
  chains s1 = chains s /\ refreshes s1 = refreshes s.

Lemma query_gen_shape prep h s :
  let '(s1, r) := query_gen prep h s in
  frameQ s s1 /\ (cur_conn s <> None -> cur_conn s1 <> None) /\
  match r with
  | Some _ => attempts s1 = attempts s ++ [mkAtt h true false prep] /\ cur_conn s1 <> None
  | None => attempts s1 = attempts s
  end.
Proof.
  unfold query_gen, frameQ. destruct (pool_of _ _); repeat split; try discriminate; try tauto.
Qed.

Lemma eff_AInv s s' : Eff g s s' -> AInv s -> AInv s'.
Proof.
  induction 1 as [s|s1 s2 s3 _ IH1 _ IH2|s s' (_ & _ & (_ & hc & hh) & _ & (hq & hp & _))|k d s|o s Hrows|prep h s|a s|q s Hq|s _];
    auto; intros (a1 & a2 & a3).   (* refl, trans, new_timer, clear, tfired *)
  - (* frame *) unfold AInv. rewrite hc, hq, hp. pose proof (hosts_nil _ _ hh). pose proof (hosts_nil _ _ (eq_sym hh)). tauto.
  - destruct (set_final_frame g o s) as (_ & _ & (e1 & e2 & e3) & Hp).
    unfold AInv. rewrite e1, e2, e3. repeat split; try assumption.
    destruct Hp as [-> |(v & m & E)]; [exact a3|]. intros _. exact (Hrows v m E).
  - pose proof (query_gen_shape prep h s) as Hs. destruct (query_gen prep h s) as [s1 r]. destruct Hs as ((q1 & q2 & _) & hc & Hr).
    unfold AInv. cbn [fst]. rewrite q1, q2. destruct r; [destruct Hr as (-> & Hr)|rewrite Hr]; repeat split; auto using app_one_nonnil.
  - (* queue *) repeat split; try assumption. intros Hne Ea. apply Hne, Hq; [|exact Ea]. destruct (queue s); [reflexivity|]. exfalso. apply a2; [discriminate|exact Ea].
Qed.

Lemma eff_Timely s s' : Eff g s s' -> Timely s -> Timely s'.
Proof.
  unfold Timely, final_set.
  induction 1 as [s|s1 s2 s3 _ IH1 _ IH2|s s' ((hr & he & _) & _ & _ & _ & (_ & _ & ht))|k d s|o s _|prep h s|a s|q s _|s Hf]; auto.
  - (* frame *) rewrite hr, he, ht. exact (fun H => H).
  - intros _ _. apply (final_set_final g o s).
  - unfold query_gen. destruct (pool_of _ _); auto.
Qed.

Lemma Settled_final s : final_set s = true -> Settled s.
Proof. intros H _. exact H. Qed.

Lemma Settled_busy s :
  (exists a, In a (attempts s) /\ aopen a = true /\ astale a = false) \/ queue s <> []
  \/ (exists c, In c (chains s) /\ fst c <> []) \/ refreshes s <> 0%nat -> Settled s.
Proof.
  intros H E. exfalso.
  apply andb_prop in E as (E & Hr). apply andb_prop in E as (E & Hc). apply andb_prop in E as (E & Hq). apply andb_prop in E as (_ & Ha).
  destruct H as [(a & Hin & Ho & Hs)|[H|[(c & Hin & Hne)|H]]].
  - pose proof (proj1 (forallb_forall _ _) Ha a Hin) as X. cbn in X. rewrite Ho, Hs in X. discriminate.
  - destruct (queue s); [exact (H eq_refl)|discriminate].
  - pose proof (proj1 (forallb_forall _ _) Hc c Hin) as X. cbn in X. destruct (fst c); [exact (Hne eq_refl)|discriminate].
  - apply Nat.eqb_eq in Hr. exact (H Hr).
Qed.

Lemma Settled_calm s s' : calm s s' -> Settled s -> Settled s'.
Proof.
  intros ((hr & he & _) & _ & (h1 & _ & h3 & _ & _ & h6 & h7) & _).
  unfold Settled, cur_answered, final_set. rewrite hr, he, h1, h3, h6, h7. exact (fun H => H).
Qed.

Lemma Settled_in_flight s l h prep : attempts s = l ++ [mkAtt h true false prep] -> Settled s.
Proof. intros Ha. apply Settled_busy. left. eexists. rewrite Ha, in_app_iff. cbn. auto. Qed.

Lemma final_after_exception e s : final_set (set_final_exception g e s) = true.
Proof. exact (final_set_final g (OExc e) s). Qed.

Lemma final_after_result v s : final_set (set_final_result g v s) = true.
Proof. exact (final_set_final g (ORes v) s). Qed.

Lemma final_after_rows v more s : final_set (set_final_rows g v more s) = true.
Proof. exact (final_set_final g (ORows v more) s). Qed.

Lemma Settled_frameQ s s1 : frameQ s s1 -> attempts s1 = attempts s -> Settled s -> Settled s1.
Proof.
  intros (q1 & _ & q4 & q5 & qc & qr) Ha. unfold Settled, cur_answered, final_set. rewrite Ha, q1, qc, qr, q4, q5. exact (fun H => H).
Qed.

Lemma on_timeout_cases n s :
  (cur_conn s = None /\ (n < 3)%nat /\ on_timeout g n s = new_timer (TTimeout (S n)) (now s + 10) s)
  \/ final_set (on_timeout g n s) = true.
Proof.
  unfold on_timeout. destruct (cur_conn s).
  - right. destruct (cur_req s); [destruct (req_open_on _ _ _)|]; apply final_after_exception.
  - destruct (n <? 3)%nat eqn:E; [|right; apply final_after_exception].
    left. apply Nat.ltb_lt in E. repeat split. exact E.
Qed.

Lemma on_timeout_final n s : cur_conn s <> None -> final_set (on_timeout g n s) = true.
Proof. intros Hc. destruct (on_timeout_cases n s) as [(E & _)|Hf]; [contradiction|exact Hf]. Qed.

(* Settled is what a call can break, by taking away the last outstanding item.  Each helper that handles such an item
   ends with an outcome or with new outstanding work: a task, a request in flight, a refresh, a keyspace propagation.
   _on_timeout and send_request do so when a connection is known (and send_request reports an exhausted plan);
   otherwise they may leave everything as it was. *)
Lemma Settled_on_timeout n s : Settled s \/ cur_conn s <> None -> Settled (on_timeout g n s).
Proof.
  intros H. destruct (on_timeout_cases n s) as [(Ec & _ & ->)|Hf]; [|apply Settled_final, Hf].
  destruct H as [H|H]; [exact H|contradiction].
Qed.

Lemma Settled_send_loop err : forall pl s,
  Settled s \/ (err = true /\ cur_conn s <> None) -> Settled (send_loop g err pl s).
Proof.
  induction pl as [|h rest IH]; intros s H; cbn [send_loop].
  - destruct err; [apply Settled_final, final_after_exception|]. destruct H as [H|(E & _)]; [exact H|discriminate E].
  - pose proof (query_gen_shape false h s) as Hq. fold (query h s) in Hq. destruct (query h s) as [s1 r].
    destruct Hq as (F & q6 & q7). destruct r.
    + destruct q7 as (q7 & _). exact (Settled_in_flight (set_plan rest s1) _ _ _ q7).
    + assert (H1 : Settled s1 \/ (err = true /\ cur_conn s1 <> None)).
      { destruct H as [H|(E & Hc)]; [left; exact (Settled_frameQ _ _ F q7 H)|right; split; [exact E|apply q6, Hc]]. }
      destruct (timed_out_now s1); [|apply IH, H1].
      apply Settled_on_timeout. destruct H1 as [H1|(_ & H1)]; [left; exact H1|right; exact H1].
Qed.

Lemma Settled_on_spec s : Settled s -> Settled (on_spec g s).
Proof.
  intros H. unfold on_spec. set (s0 := set_cur_timer None s).
  change (event s0) with (event s). change (attempts s0) with (attempts s).
  destruct (event s); [exact H|]. destruct (attempts s); [exact H|].
  fold (expired s0). destruct (expired s0); [apply Settled_on_timeout; left; exact H|].
  apply (Settled_calm _ _ (calm_start_timer _)), Settled_send_loop. left. exact H.
Qed.

Lemma Settled_send_request s : cur_conn s <> None -> Settled (send_request g true s).
Proof. intros Hc. apply Settled_send_loop. right. split; [reflexivity|exact Hc]. Qed.

Lemma Settled_query_then_send prep h s : cur_conn s <> None -> Settled (query_then_send g prep h s).
Proof.
  intros Hc. unfold query_then_send. pose proof (query_gen_shape prep h s) as Hq. destruct (query_gen prep h s) as [s1 r]. destruct Hq as (_ & q6 & q7).
  destruct r; [destruct q7 as (q7 & _); exact (Settled_in_flight s1 _ _ _ q7)|apply Settled_send_request, q6, Hc].
Qed.

Lemma Settled_fexc s : is_some (fexc s) = true -> Settled s.
Proof. intros E. apply Settled_final. unfold final_set. rewrite E. apply orb_true_r. Qed.

Lemma Settled_run_task t s : cur_conn s <> None -> Settled (run_task g t s).
Proof.
  intros Hc. pose proof (Settled_fexc s) as Hfexc.
  destruct t as [reuse h|h|h a pk]; cbn [run_task].
  - unfold retry_task. destruct (is_some (fexc s)); [exact (Hfexc eq_refl)|].
    destruct reuse; [apply (Settled_query_then_send false)|apply Settled_send_request]; exact Hc.
  - apply (Settled_query_then_send true), Hc.
  - unfold after_prepare. destruct (is_some (fexc s)); [exact (Hfexc eq_refl)|].
    destruct pk; [apply (Settled_query_then_send false), Hc| | |apply Settled_send_request, Hc|]; apply Settled_final, final_after_exception.
Qed.

Lemma Settled_submit t s : Settled (submit_task g t s).
Proof.
  unfold submit_task. destruct (shut s); [apply Settled_final, final_after_exception|].
  apply Settled_busy. right. left. apply app_one_nonnil.
Qed.

Lemma Settled_retry reuse h s : Settled (retry g reuse h s).
Proof.
  unfold retry. set (s2 := set_retries (retries s + 1) s). change (fexc s2) with (fexc s).
  destruct (is_some (fexc s)) eqn:Ee; [|apply Settled_submit].
  exact (Settled_fexc s2 Ee).
Qed.

Lemma Settled_set_result a h k s : Settled (set_result g a h k s).
Proof.
  destruct k as [more| |d| | | | |]; [| |destruct d| | | | |]; cbn [set_result].
  - apply Settled_final, final_after_rows.
  - apply Settled_final, final_after_result.
  - apply Settled_retry.
  - apply Settled_retry.
  - apply Settled_final, final_after_exception.
  - apply Settled_final, final_after_result.
  - apply Settled_final, final_after_exception.
  - apply Settled_submit.
  - unfold start_refresh. destruct (shut s); [apply Settled_final, final_after_result|]. apply Settled_busy.
    right. right. right. discriminate.
  - unfold start_chain. destruct (ks_hosts (pools s)); [apply Settled_final, final_after_result|]. apply Settled_busy.
    right. right. left. eexists. cbn [chains set_chains]. rewrite in_app_iff. cbn. split; [auto|discriminate].
  - apply Settled_final, final_after_exception.
Qed.

(* the answer to a request of an earlier page fetch was not outstanding *)
Lemma Settled_answered_stale a at_ s : nth_error (attempts s) a = Some at_ -> astale at_ = true -> Settled s -> Settled (answered a s).
Proof.
  intros En Est. unfold Settled, cur_answered. cbn [attempts queue chains refreshes answered set_attempts clear_req set_cur_req].
  rewrite (forallb_upd_nth _ close _ _ _ En) by (cbn; rewrite Est, orb_true_r; reflexivity).
  destruct (attempts s); [destruct a; discriminate|]. destruct a; exact (fun H => H).
Qed.

Lemma Settled_ks_report c h err s : Settled s -> Settled (ks_report g c h err s).
Proof.
  intros H. unfold ks_report. destruct (nth_error (chains s) c) as [[hs e]|] eqn:En; [|assumption].
  destruct (mem_z h hs); [|assumption].
  destruct (remove_z h hs) as [|x0 l0].
  - destruct (e || err); apply Settled_final; [apply final_after_exception|apply final_after_result].
  - apply Settled_busy. right. right. left. exists (x0 :: l0, e || err). split; [|discriminate].
    eapply nth_error_In. cbn. rewrite nth_error_update_at, Nat.eqb_refl, En. reflexivity.
Qed.

(* AInv and Timely do not look at the clock, at fired marks or at registered callbacks *)
Lemma AInv_Timely_step pf s o : AInv s /\ Timely s -> AInv (step g pf s o) /\ Timely (step g pf s o).
Proof.
  intros H. destruct (step_Op g pf s o) as [o s' E|d|k t _|pl Ep|]; try exact H.
  - destruct H as (HA & HT). exact (conj (eff_AInv _ _ E HA) (eff_Timely _ _ E HT)).
  - destruct H as (HA & HT). pose proof (eff_handler g t (timer_fired k s)) as E. exact (conj (eff_AInv _ _ E HA) (eff_Timely _ _ E HT)).
  - (* every request so far becomes stale, none is forgotten *)
    destruct H as ((A1 & A2 & A3) & _). destruct (page_start_keeps pf pl s) as (ha & hc & _ & hq & hp & ht).
    set (s3 := start_timer _) in *. pose proof (eff_send_request g true s3) as E.
    split; [apply (eff_AInv _ _ E)|apply (eff_Timely _ _ E); unfold Timely; rewrite ht; discriminate].
    unfold AInv. rewrite ha, hc, hq, hp. destruct (attempts s); [tauto|]. repeat split; auto; discriminate.
Qed.

Lemma Settled_step pf s o : AInv s -> Settled s -> Settled (step g pf s o).
Proof.
  intros (A1 & A2 & A3) H.   (* SetPools, Tick, AddCb, Foreign and Shutdown write nothing Settled reads *)
  destruct o as [|ps|d|a k|k|k|pl| | |c h err|a pk|fh| |k]; cbn [step]; try exact H.
  - (* Send *) apply Settled_send_loop. left. exact H.
  - (* Resp *) destruct (nth_error (attempts s) a) as [at_|] eqn:En; [|assumption]. destruct (aopen at_ && negb (aprep at_)); [|assumption].
    destruct (astale at_) eqn:Est; [exact (Settled_answered_stale a at_ s En Est H)|apply Settled_set_result].
  - destruct (nth_error (timers s) k) as [t|]; [|assumption]. destruct (live t && (due t <=? now s)); [|assumption].
    destruct (tk t); [apply Settled_on_spec|apply Settled_on_timeout; left]; exact H.
  - destruct (nth_error (queue s) k) as [t|] eqn:En; [|assumption].
    apply Settled_run_task, A1, A2, (nth_error_nonnil _ _ _ En).
  - destruct (paging s); [|assumption]. apply Settled_send_request.
    destruct (page_start_keeps pf pl s) as (_ & -> & _). exact (A1 (A3 eq_refl)).
  - destruct (result_call s); exact H.
  - apply Settled_ks_report, H.
  - (* PResp *) destruct (nth_error (attempts s) a) as [at_|]; [|assumption]. destruct (aopen at_ && aprep at_); [|assumption].
    apply Settled_submit.
  - destruct (refreshes s) as [|n]; [assumption|]. destruct (k <=? n)%nat; [|assumption].
    apply Settled_final, final_after_result.
Qed.

Lemma LInv_step pf s o : LInv s -> LInv (step g pf s o).
Proof.
  intros (HA & HT & HS). destruct (AInv_Timely_step pf s o (conj HA HT)) as (HA' & HT'). exact (conj HA' (conj HT' (Settled_step pf s o HA HS))).
Qed.

Lemma LInv_init c : LInv (init c).
Proof.
  rewrite init_eq. pose proof (calm_start_timer (init0 c)) as Hc.
  destruct Hc as (_ & _ & (h1 & h2 & h3 & h4 & h5 & _) & _).
  split; [unfold AInv; rewrite h1, h2, h3, h4; cbn; repeat split; intros; congruence|].
  split; [unfold Timely; rewrite h5; discriminate|apply (Settled_calm _ _ (calm_start_timer _)); discriminate].
Qed.

Lemma LInv_run pf h s : LInv s -> LInv (run g pf s h).
Proof. exact (fold_left_inv _ _ (LInv_step pf) h s). Qed.

End Live.

(* the body of C14_statement (Props/C14.v) at one state *)
Definition C14_at (s : state) : Prop :=
  (forall p, In p (pairs s) ->
     (length (cbs p) + length (ebs p) <= 1)%nat
     /\ (forall v, In v (cbs p) -> result_call s = Some (0, v))
     /\ (forall e, In e (ebs p) -> result_call s = Some (1, e)))
  /\ (all_answered s = true \/ tfired s = true ->
      event s = true /\ final_set s = true
      /\ forall p, In p (pairs s) -> (length (cbs p) + length (ebs p) = 1)%nat).

Lemma all_answered_cur s : all_answered s = true -> cur_answered s = true.
Proof.
  unfold all_answered, cur_answered.
  destruct (forallb (fun a => negb (aopen a)) (attempts s)) eqn:E; [|rewrite andb_false_r; discriminate].
  replace (forallb (fun a => negb (aopen a) || astale a) (attempts s)) with true; [exact (fun H => H)|].
  symmetry. apply forallb_forall. intros a Ha. rewrite forallb_forall in E. rewrite (E a Ha). reflexivity.
Qed.

Lemma C14_from_invariants s : SInv s -> LInv s -> C14_at s.
Proof.
  intros (He & Hx & Hp) (_ & HT & HS). rewrite Forall_forall in Hp. split.
  - intros p Hin. destruct (Hp p Hin). unfold result_call, fresh_pair. rewrite He. unfold final_set.
    destruct (fres s), (fexc s); try discriminate Hx; cbn; repeat split; try lia; intros x [<-|[]]; reflexivity.
  - intros Hq. assert (Hf : final_set s = true) by (destruct Hq as [Hq|Hq]; [apply HS, all_answered_cur, Hq|apply HT, Hq]).
    rewrite He. repeat split; try exact Hf. intros p Hin. destruct (Hp p Hin). unfold final_set, fresh_pair in *.
    destruct (fres s), (fexc s); try discriminate; reflexivity.
Qed.

Lemma C14_guarded pf c h : C14_at (run true pf (init c) h).
Proof.
  apply C14_from_invariants; [apply SInv_run, SInv_init|apply LInv_run, LInv_init].
Qed.

Lemma c14_ok_complete s : C14_at s -> c14_ok s = true.
Proof.
  unfold c14_ok. rewrite andb_true_iff, forallb_forall. intros (H1 & H2). split.
  - intros p Hin. destruct (H1 p Hin) as (Hle & Hc & He). unfold pair_once, pair_reports. rewrite !andb_true_iff, !forallb_forall.
    split; [apply Nat.leb_le, Hle|]. split; intros x Hx; [rewrite (Hc x Hx)|rewrite (He x Hx)]; apply Z.eqb_refl.
  - destruct (all_answered s || tfired s) eqn:E; [|reflexivity]. apply orb_true_iff in E. destruct (H2 E) as (h1 & h2 & h3).
    unfold delivered. rewrite h1, h2. apply forallb_forall. intros p Hin. apply Nat.eqb_eq, h3, Hin.
Qed.

(* Lemmas and step relations over the fields the invariants read; no proof needs them. *)
Lemma sv_new_timer k d s : same_view s (new_timer k d s).
Proof. repeat split. Qed.

Definition AStep (s s' : state) : Prop :=
  (attempts s <> [] -> attempts s' <> []) /\ (cur_conn s <> None -> cur_conn s' <> None) /\
  (attempts s' <> [] -> attempts s = [] -> cur_conn s' <> None) /\ queue s' = queue s /\ paging s' = paging s.

Lemma AStep_refl s : AStep s s.
Proof. unfold AStep. intuition. Qed.

Definition BStep (s s' : state) : Prop :=
  final_set s' = true
  \/ (tfired s' = tfired s /\ final_set s' = final_set s /\ queue s' = queue s /\ chains s' = chains s /\ refreshes s' = refreshes s
      /\ exists ext, attempts s' = attempts s ++ ext /\ forallb (fun a => aopen a && negb (astale a)) ext = true).

Lemma BStep_refl s : BStep s s.
Proof. right. repeat split. exists []. rewrite app_nil_r. split; reflexivity. Qed.

(* the _callback_lock protocol (Model/FutureCbLock.v): with run_now decided inside the lock region, the invocations made
   or committed to are exactly one once the outcome exists and the callback is registered, and none before. *)
Local Open Scope nat_scope.

Definition LkInv (s : lstate) : Prop :=
  ltotal s = (if lfinal s && lreg s then 1 else 0)
  /\ lreg s = match lpc s with AIdle => false | _ => true end
  /\ lpc s <> AUndecided.

Lemma LkInv_init : LkInv linit.
Proof. repeat split. discriminate. Qed.

Lemma LkInv_step s o : LkInv s -> LkInv (lstep true s o).
Proof.
  destruct s as [f r p pc n]. unfold LkInv, ltotal. cbn [lfinal lreg lpend lpc lruns]. intros (Ht & Hr & Hu).
  destruct o; cbn [lstep lfinal lreg lpend lpc lruns].
  - (* Claim: the snapshot holds the callback iff it is registered *)
    destruct f; [auto|]. cbn [lfinal lreg lpend lpc lruns andb] in *. split; [destruct r; lia|auto].
  - (* RunSnap: an invocation committed to becomes one made *)
    destruct p as [|p]; [auto|]. cbn [lfinal lreg lpend lpc lruns]. split; [lia|auto].
  - (* AddLocked: the callback was not registered, so nothing was committed; run_now commits to one iff the outcome exists *)
    destruct pc; auto. subst r. rewrite andb_false_r in Ht. cbn [lfinal lreg lpend lpc lruns].
    split; [destruct f; cbn [andb]; lia|]. split; [reflexivity|discriminate].
  - (* AddFinish: the commitment is honoured *)
    destruct pc as [|[|]| |]; auto; cbn [lfinal lreg lpend lpc lruns].
    + (* ADecided true *) split; [lia|]. split; [exact Hr|discriminate].
    + (* ADecided false *) split; [lia|]. split; [exact Hr|discriminate].
    + destruct Hu. reflexivity.
Qed.

Lemma LkInv_run : forall h s, LkInv s -> LkInv (fold_left (lstep true) h s).
Proof. exact (fold_left_inv _ _ LkInv_step). Qed.

Lemma LkInv_reads s : LkInv s ->
  lruns s <= 1 /\ (lfinal s = true -> lpc s = ADone -> lpend s = 0 -> lruns s = 1) /\ (lfinal s = false -> lruns s = 0).
Proof.
  intros (Ht & Hr & _). unfold ltotal in Ht. repeat split.
  - destruct (lfinal s && lreg s); lia.
  - intros Hf Hpc Hp. rewrite Hr, Hf, Hpc, Hp in Ht. cbn in Ht. lia.
  - intros Hf. rewrite Hf in Ht. cbn in Ht. lia.
Qed.
