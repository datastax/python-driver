(* C40: GraphSON round trips.  The concrete codecs (base64, the duration text, WKT geometry) are proved; Python's own formatters
   enter as assumed laws, used by `scalar_rt` alone; the dispatch that leads writer and reader to a leaf's codec is a finite
   table; GraphSON 2 and GraphSON 3 are two formats, and the containers of each go by structural induction over the value. *)
From Coq Require Import ZArith List Bool Lia.
From Verif Require Import GraphSON.
Import ListNotations.
Local Open Scope Z_scope.

Definition is_byte (b : Z) : Prop := 0 <= b < 256.

(* 61 is '=', the padding *)
Lemma b64_char_spec : forall n, 0 <= n < 64 -> b64_val (b64_char n) = Some n /\ (b64_char n =? 61) = false.
Proof.
  intros n H.
  assert (Hall : forallb (fun n => match b64_val (b64_char n) with Some m => (m =? n) && negb (b64_char n =? 61) | None => false end)
                         (map Z.of_nat (seq 0 64)) = true) by (vm_compute; reflexivity).
  assert (Hin : In n (map Z.of_nat (seq 0 64))) by (replace n with (Z.of_nat (Z.to_nat n)) by lia; apply in_map, in_seq; lia).
  rewrite forallb_forall in Hall. apply Hall in Hin.
  destruct (b64_val (b64_char n)) as [m|]; [|discriminate]. apply andb_prop in Hin. destruct Hin as [E1 E2].
  split; [f_equal; lia | apply negb_true_iff, E2].
Qed.

Lemma sextets : forall a b c, is_byte a -> is_byte b -> is_byte c ->
  (0 <= a / 4 < 64 /\ 0 <= a mod 4 * 16 + b / 16 < 64 /\ 0 <= b mod 16 * 4 + c / 64 < 64 /\ 0 <= c mod 64 < 64) /\
  a / 4 * 4 + (a mod 4 * 16 + b / 16) / 16 = a /\
  (a mod 4 * 16 + b / 16) mod 16 * 16 + (b mod 16 * 4 + c / 64) / 4 = b /\
  (b mod 16 * 4 + c / 64) mod 4 * 64 + c mod 64 = c.
Proof. unfold is_byte. intros. Z.to_euclidean_division_equations. lia. Qed.

(* a short last group is a full one with zero bytes *)
Lemma b64_roundtrip_fuel : forall fuel bs, Forall is_byte bs -> (length (b64_encode bs) <= fuel)%nat ->
  b64_decode_fuel fuel (b64_encode bs) = Some bs.
Proof.
  assert (Z0 : is_byte 0) by (unfold is_byte; lia).
  induction fuel as [|fuel IH]; intros bs HF Hfuel; destruct bs as [|a [|b [|c rest]]];
    cbn [b64_encode length] in Hfuel; try lia; try reflexivity; cbn [b64_encode b64_decode_fuel].
  - apply Forall_cons_iff in HF. destruct HF as [Ha _].
    destruct (sextets a 0 0 Ha Z0 Z0) as ((B1 & B2 & _) & E1 & _).
    change (0 / 16) with 0 in B2, E1. rewrite Z.add_0_r in B2, E1.
    apply b64_char_spec in B1, B2. destruct B1 as [-> _], B2 as [-> _]. rewrite E1. reflexivity.
  - apply Forall_cons_iff in HF. destruct HF as [Ha HF]. apply Forall_cons_iff in HF. destruct HF as [Hb _].
    destruct (sextets a b 0 Ha Hb Z0) as ((B1 & B2 & B3 & _) & E1 & E2 & _).
    change (0 / 64) with 0 in B3, E2. rewrite Z.add_0_r in B3, E2.
    apply b64_char_spec in B1, B2, B3. destruct B1 as [-> _], B2 as [-> _], B3 as [-> ->]. rewrite E1, E2. reflexivity.
  - apply Forall_cons_iff in HF. destruct HF as [Ha HF]. apply Forall_cons_iff in HF. destruct HF as [Hb HF].
    apply Forall_cons_iff in HF. destruct HF as [Hc HFr].
    destruct (sextets a b c Ha Hb Hc) as ((B1 & B2 & B3 & B4) & E1 & E2 & E3).
    apply b64_char_spec in B1, B2, B3, B4. destruct B1 as [-> _], B2 as [-> _], B3 as [-> ->], B4 as [-> ->].
    rewrite IH, E1, E2, E3; [reflexivity | exact HFr | lia].
Qed.

Lemma b64_roundtrip : forall bs, Forall is_byte bs -> b64_decode (b64_encode bs) = Some bs.
Proof. intros bs HF. apply b64_roundtrip_fuel; [exact HF | lia]. Qed.

(* days, hours, minutes, seconds and microseconds are the digits of |us| in the mixed radix 1000000, 60, 60, 24 *)
Lemma duration_roundtrip : forall us, duration_deserialize (duration_serialize us) = Some us.
Proof.
  intros us. unfold duration_deserialize, duration_regex_ok, duration_serialize.
  cbn [d_neg d_days d_hours d_minutes d_sec d_us d_sci].
  set (a := Z.abs us). set (t := a / 1000000). set (t1 := t mod 86400). set (t2 := t1 mod 3600).
  assert (H : (0 <= t / 86400 /\ 0 <= t1 / 3600 /\ 0 <= t2 / 60 /\ 0 <= t2 mod 60) /\
              ((t / 86400 * 24 + t1 / 3600) * 60 + t2 / 60) * 60000000 + t2 mod 60 * 1000000 + a mod 1000000 = a)
    by (subst a t t1 t2; Z.to_euclidean_division_equations; lia).
  destruct H as ((H1 & H2 & H3 & H4) & ->).
  apply Z.leb_le in H1, H2, H3, H4. rewrite H1, H2, H3, H4. cbn [andb negb]. f_equal. subst a. destruct (us <? 0) eqn:Hs; lia.
Qed.

(* a polygon without exterior ring prints as POLYGON EMPTY: it must not have interior rings *)
Definition geom_ok (g : geom) : Prop := match g with GeoPoly [] (_ :: _) => False | _ => True end.

Lemma geom_roundtrip : forall g, geom_ok g -> from_wkt (geom_kind g) (geom_wkt g) = Some g.
Proof.
  intros g H. destruct g as [p | l | ext ints].
  - reflexivity.
  - destruct l; reflexivity.
  - destruct ext as [|e ext].
    + destruct ints; [reflexivity | contradiction].
    + destruct ints; reflexivity.
Qed.

Section Laws.
  Variables D Dt Tm Dtm U : Type.
  Variable dec_str : D -> list Z.
  Variable dec_parse : list Z -> option D.
  Variable uuid_str : U -> list Z.
  Variable uuid_parse : list Z -> option U.
  Variable date_iso : Dt -> list Z.
  Variable strptime_date : list Z -> option Dt.
  Variable time_fmt : Tm -> list Z.
  Variable strptime_hm strptime_hms strptime_hmsf : list Z -> option Tm.
  Variable dtm_iso : Dtm -> list Z.
  Variable strptime_frac strptime_nofrac : list Z -> option Dtm.
  Variable geqb : gval D Dt Tm Dtm U -> gval D Dt Tm Dtm U -> bool.

  Definition leaf_laws : Prop :=
    (forall d, dec_parse (dec_str d) = Some d) /\
    (forall u, uuid_parse (uuid_str u) = Some u) /\
    (forall d, strptime_date (date_iso d) = Some d) /\
    (forall t, strptime_hm (time_fmt t) = None /\ strptime_hms (time_fmt t) = None /\ strptime_hmsf (time_fmt t) = Some t) /\
    (forall x, strptime_frac (dtm_iso x ++ [90]) = Some x \/
               (strptime_frac (dtm_iso x ++ [90]) = None /\ strptime_nofrac (dtm_iso x ++ [90]) = Some x)).

  Notation gv := (gval D Dt Tm Dtm U).
  Notation ser23 := (serialize23 D Dt Tm Dtm U dec_str uuid_str date_iso time_fmt dtm_iso).
  Notation ser1 := (serialize1 D Dt Tm Dtm U dec_str uuid_str date_iso time_fmt dtm_iso).
  Notation deser23 := (deserialize23 D Dt Tm Dtm U dec_parse uuid_parse strptime_date strptime_hm strptime_hms strptime_hmsf
                                     strptime_frac strptime_nofrac geqb).
  Notation deser1 := (deserialize1 D Dt Tm Dtm U dec_parse uuid_parse strptime_date strptime_hm strptime_hms strptime_hmsf
                                   strptime_frac strptime_nofrac).
  Notation sof := (serializer_of D Dt Tm Dtm U).
  Notation nrm := (norm D Dt Tm Dtm U).
  Notation sbuild := (set_build D Dt Tm Dtm U geqb).
  Notation dbuild := (dict_build D Dt Tm Dtm U geqb).

  Notation tser := (tio_serialize D Dt Tm Dtm U dec_str uuid_str date_iso time_fmt dtm_iso).
  Notation tdeser := (tio_deserialize_scalar D Dt Tm Dtm U dec_parse uuid_parse strptime_date strptime_hm strptime_hms strptime_hmsf
                                             strptime_frac strptime_nofrac).

  Definition is_leaf (v : gv) : bool :=
    match v with GList _ _ _ _ _ _ | GSet _ _ _ _ _ _ | GTuple _ _ _ _ _ _ | GDict _ _ _ _ _ _ => false | _ => true end.

  Definition str_key (v : gv) : bool := match v with GStr _ _ _ _ _ k => negb (is_type_key k) | _ => false end.

  Fixpoint supported (ver : version) (v : gv) {struct v} : Prop :=
    let all := fix go (l : list gv) : Prop := match l with [] => True | x :: l' => supported ver x /\ go l' end in
    match v with
    | GBlob _ _ _ _ _ _ bs => Forall is_byte bs
    | GGeom _ _ _ _ _ g => geom_ok g
    | GDuration _ _ _ _ _ _ _ _ => ver = V3
    | GList _ _ _ _ _ l => ver = V3 /\ all l
    | GTuple _ _ _ _ _ l => ver = V3 /\ all l
    | GSet _ _ _ _ _ l => ver = V3 /\ all l /\ sbuild (map nrm l) = Some (GSet _ _ _ _ _ (map nrm l))
    | GDict _ _ _ _ _ l =>
        (fix go (l : list (gv * gv)) : Prop :=
           match l with
           | [] => True
           | (k, x) :: l' => (match ver with V1 => False | V2 => str_key k = true | V3 => supported ver k end) /\
                             supported ver x /\ go l'
           end) l /\
        dbuild (map (fun kv => (nrm (fst kv), nrm (snd kv))) l) = Some (GDict _ _ _ _ _ (map (fun kv => (nrm (fst kv), nrm (snd kv))) l))
    | _ => True
    end.

  (* GraphSON1: scalars, the caller supplies the type (the serializer chosen for the value) *)
  Definition supported1 (v : gv) : Prop :=
    match v with
    | GBlob _ _ _ _ _ _ bs => Forall is_byte bs
    | GGeom _ _ _ _ _ g => geom_ok g
    | GDuration _ _ _ _ _ _ _ _ | GList _ _ _ _ _ _ | GSet _ _ _ _ _ _ | GTuple _ _ _ _ _ _ | GDict _ _ _ _ _ _ => False
    | _ => True
    end.

  Definition rt (ver : version) (v : gv) : Prop := exists j, ser23 ver v = Some j /\ deser23 ver j = Some (nrm v).

  Hypothesis laws : leaf_laws.

  (* the TypeIO that carries a leaf in every version (text, booleans, ints and cassandra.util.Duration go other ways) *)
  Definition leaf_tio (v : gv) : option tio :=
    match v with
    | GFloat _ _ _ _ _ _ _ => Some TFloat
    | GBlob _ _ _ _ _ _ _ => Some TByteBuffer
    | GDecimal _ _ _ _ _ _ => Some TBigDecimal
    | GDate _ _ _ _ _ _ => Some TLocalDate
    | GTime _ _ _ _ _ _ => Some TLocalTime
    | GDatetime _ _ _ _ _ _ _ | GDatetimeAware _ _ _ _ _ _ _ => Some TInstant
    | GTimedelta _ _ _ _ _ _ => Some TDurationIO
    | GUuid _ _ _ _ _ _ => Some TUUID
    | GGeom _ _ _ _ _ g => Some match geom_kind g with GPolygon => TPolygon | GPoint => TPoint | GLineString => TLineString end
    | _ => None
    end.

  Lemma scalar_rt : forall v io, leaf_tio v = Some io -> supported1 v ->
    exists j, tser io v = Some j /\ tdeser io j = Some (nrm v).
  Proof.
    intros v io Ht Hs. destruct laws as (Ldec & Luuid & Ldate & Ltime & Ldtm).
    destruct v; try discriminate Ht; injection Ht as <-.
    1-9: (eexists; split; [reflexivity|]; cbn [tio_deserialize_scalar]).
    - (* GFloat *) reflexivity.
    - rewrite (b64_roundtrip bs Hs). reflexivity.
    - rewrite Ldec. reflexivity.
    - rewrite Ldate. reflexivity.
    - destruct (Ltime t) as (-> & -> & ->). reflexivity.
    - destruct (Ldtm x) as [-> | [-> ->]]; reflexivity.
    - destruct (Ldtm utc) as [-> | [-> ->]]; reflexivity.
    - rewrite duration_roundtrip. reflexivity.
    - rewrite Luuid. reflexivity.
    - pose proof (geom_roundtrip g Hs) as Lg.
      destruct g; (eexists; split; [reflexivity|]); cbn [geom_kind tio_deserialize_scalar] in *; rewrite Lg; reflexivity.
  Qed.

  Lemma leaf_supported1 : forall ver v io, leaf_tio v = Some io -> supported ver v -> supported1 v.
  Proof. intros ver v io H Hs. destruct v; try discriminate H; exact Hs. Qed.

  Lemma leaf_dispatch1 : forall v io, leaf_tio v = Some io ->
    ser1 v = tser io v /\ forall j, deser1 (sof V1 v) j = tdeser io j.
  Proof.
    intros v io Ht.
    (* the pattern names the blob kind k, the subclass flag sub and the geometry g, each in its own branch only *)
    destruct v as [ | | | |k ?| | | |? sub| | | |g| | | | | ]; try discriminate Ht;
      try destruct k; try destruct sub; try destruct g; injection Ht as <-; split; reflexivity.
  Qed.

  Lemma leaf_dispatch23 : forall ver v io, ver <> V1 -> leaf_tio v = Some io ->
    exists g, ser23 ver v = option_map (JTyped g) (tser io v) /\ forall j, deser23 ver (JTyped g j) = tdeser io j.
  Proof.
    intros ver v io Hver Ht.
    destruct v as [ | | | |k ?| | | |? sub| | | |g| | | | | ]; try discriminate Ht;
      try destruct k; try destruct sub; try destruct g; injection Ht as <-;
      (destruct ver; [congruence| |]); eexists; split; reflexivity.
  Qed.

  Lemma leaf_rt : forall ver v, ver <> V1 -> is_leaf v = true -> supported ver v -> rt ver v.
  Proof.
    intros ver v Hver Hl Hs. destruct (leaf_tio v) as [io|] eqn:Ht.
    - destruct (scalar_rt v io Ht (leaf_supported1 ver v io Ht Hs)) as (j & E & R).
      destruct (leaf_dispatch23 ver v io Hver Ht) as (g & Hser & Hdeser).
      exists (JTyped g j). rewrite Hser, E, Hdeser. split; [reflexivity | exact R].
    - destruct v; try discriminate Ht; try discriminate Hl; cbn [supported] in Hs.
      + (* GStr *) destruct ver; [congruence| |]; eexists; split; reflexivity.
      + (* GBool *) destruct ver; [congruence| |]; eexists; split; reflexivity.
      + (* GInt *)
        destruct ver; [congruence| |]; unfold rt; cbn; destruct (_ || _); eexists; split; reflexivity.
      + (* GDuration *) subst ver. eexists; split; reflexivity.
  Qed.

  Theorem roundtrip1 : forall v, supported1 v ->
    exists j, ser1 v = Some j /\ deser1 (sof V1 v) j = Some (nrm v).
  Proof.
    intros v Hs. destruct (leaf_tio v) as [io|] eqn:Ht.
    - destruct (scalar_rt v io Ht Hs) as (j & E & R), (leaf_dispatch1 v io Ht) as [Hser Hdeser].
      exists j. rewrite Hser, Hdeser. split; assumption.
    - destruct v; try discriminate Ht; try contradiction; eexists; split; reflexivity.
  Qed.

  (* cbn must leave gs_mapM f l folded, so that the equations about it rewrite *)
  Local Arguments gs_mapM : simpl never.

  Lemma gs_mapM_rt : forall (A B C : Type) (f : A -> option B) (g : B -> option C) (h : A -> C) l,
    Forall (fun x => exists y, f x = Some y /\ g y = Some (h x)) l ->
    exists ys, gs_mapM f l = Some ys /\ gs_mapM g ys = Some (map h l).
  Proof.
    induction 1 as [|x l (y & F1 & F2) _ (ys & E1 & E2)].
    - exists []. split; reflexivity.
    - exists (y :: ys). unfold gs_mapM in *. rewrite F1, E1, F2, E2. split; reflexivity.
  Qed.

  Lemma items_rt_v3 : forall l, Forall (fun kv => rt V3 (fst kv) /\ rt V3 (snd kv)) l ->
    exists js,
      gs_mapM (fun kv : gv * gv => match kv with
                                   | (k, x) => match ser23 V3 k, ser23 V3 x with Some a, Some b => Some (a, b) | _, _ => None end
                                   end) l = Some js /\
      gs_mapM (fun kv : json * json => match kv with
                                       | (a, b) => match deser23 V3 a, deser23 V3 b with Some x, Some y => Some (x, y) | _, _ => None end
                                       end) js = Some (map (fun kv => (nrm (fst kv), nrm (snd kv))) l).
  Proof.
    intros l Hrt. apply gs_mapM_rt. refine (Forall_impl _ _ Hrt). intros [k x] [(a & A1 & A2) (b & B1 & B2)].
    exists (a, b). cbn [fst snd] in *. rewrite A1, B1, A2, B2. split; reflexivity.
  Qed.

  (* a GraphSON2 dict is a JSON object: its keys are the strings themselves, none of them "@type" *)
  Lemma items_rt_v2 : forall l, Forall (fun kv => str_key (fst kv) = true /\ rt V2 (snd kv)) l ->
    exists js,
      gs_mapM (fun kv : gv * gv => match kv with
                                   | (GStr _ _ _ _ _ k, x) => option_map (pair k) (ser23 V2 x)
                                   | _ => None end) l = Some js /\
      gs_mapM (fun kv : list Z * json => match kv with (k, x) => option_map (pair (GStr _ _ _ _ _ k)) (deser23 V2 x) end) js
        = Some (map (fun kv => (nrm (fst kv), nrm (snd kv))) l) /\
      existsb (fun kv : list Z * json => is_type_key (fst kv)) js = false.
  Proof.
    induction 1 as [|[k x] l [Sk (b & B1 & B2)] _ (js & E1 & E2 & E3)]; [exists []; repeat split; reflexivity|].
    destruct k; try discriminate Sk. apply negb_true_iff in Sk.
    exists ((s, b) :: js). unfold gs_mapM in *. cbn [fst snd existsb] in *. rewrite B1, E1. cbn [option_map]. rewrite B2, E2, E3, Sk.
    repeat split; reflexivity.
  Qed.

  (* The only container of GraphSON 2 is the JSON object with string keys; GraphSON 3 has four typed ones.  Each proof is a
     `fix` over v whose recursive calls are on the members of the list inside v, reached by `induction l`; Qed's guard
     check reduces the proof term first and then finds each member a subterm of v. *)
  Lemma roundtrip2 : forall v, supported V2 v -> rt V2 v.
  Proof.
    fix IH 1. intros v Hs.
    destruct v; try (apply leaf_rt; [discriminate | reflexivity | exact Hs]); cbn [supported] in Hs.
    - (* GList *) destruct Hs as [[=] _].
    - (* GSet *) destruct Hs as [[=] _].
    - (* GTuple *) destruct Hs as [[=] _].
    - (* GDict *) destruct Hs as [Hall Hdb]. destruct (items_rt_v2 l) as (js & E1 & E2 & E3).
      + clear Hdb. induction l as [|[k x] l IHl]; constructor; [split; [apply Hall | apply IH, Hall] | apply IHl, Hall].
      + exists (JObj js). split; cbn; [rewrite E1; reflexivity | rewrite E3, E2; exact Hdb].
  Qed.

  Lemma roundtrip3 : forall v, supported V3 v -> rt V3 v.
  Proof.
    fix IH 1.
    (* l is abstract here; `members` is used at the l of `destruct v` only *)
    assert (members : forall l, (fix go (l : list gv) : Prop := match l with [] => True | x :: l' => supported V3 x /\ go l' end) l ->
              exists js, gs_mapM (ser23 V3) l = Some js /\ gs_mapM (deser23 V3) js = Some (map nrm l)).
    { intros l Hall. apply gs_mapM_rt. induction l as [|x l IHl]; constructor; [apply IH, Hall | apply IHl, Hall]. }
    intros v Hs. destruct v; try (apply leaf_rt; [discriminate | reflexivity | exact Hs]); cbn [supported] in Hs.
    - destruct (members l (proj2 Hs)) as (js & E1 & E2).
      exists (JTyped GListT (JList js)). split; cbn; [rewrite E1 | rewrite E2]; reflexivity.
    - destruct Hs as (_ & Hall & Hsb). destruct (members l Hall) as (js & E1 & E2).
      exists (JTyped GSetT (JList js)). split; cbn; [rewrite E1; reflexivity | rewrite E2; exact Hsb].
    - destruct (members l (proj2 Hs)) as (js & E1 & E2).
      exists (JTyped DseTuple (JTuple js)). split; cbn; [rewrite E1 | rewrite E2]; reflexivity.
    - destruct Hs as [Hall Hdb]. destruct (items_rt_v3 l) as (js & E1 & E2).
      + clear Hdb. induction l as [|[k x] l IHl]; constructor; [split; apply IH, Hall | apply IHl, Hall].
      + exists (JTyped GMapT (JPairs js)). split; cbn; [rewrite E1; reflexivity | rewrite E2; exact Hdb].
  Qed.

  Theorem roundtrip23 : forall ver v, ver <> V1 -> supported ver v -> rt ver v.
  Proof. intros [] v Hver; [congruence | apply roundtrip2 | apply roundtrip3]. Qed.

  (* the assumed law that makes the pre-repair dispatch visible: a datetime's isoformat is not a '%Y-%m-%d' date *)
  Lemma legacy_localdate_of_datetime : (forall x, strptime_date (dtm_iso x) = None) -> forall x sub,
    match tio_serialize D Dt Tm Dtm U dec_str uuid_str date_iso time_fmt dtm_iso TLocalDate (GDatetime _ _ _ _ _ x sub) with
    | Some j => tio_deserialize_scalar D Dt Tm Dtm U dec_parse uuid_parse strptime_date strptime_hm strptime_hms strptime_hmsf
                                       strptime_frac strptime_nofrac TLocalDate j
    | None => None
    end = Some (GStr _ _ _ _ _ (dtm_iso x)).
  Proof. intros Hn x sub. cbn. rewrite Hn. reflexivity. Qed.
End Laws.
