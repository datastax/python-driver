(* C02: the model's scalar encoders against the independent specification (CassandraSpecInt.v / CassandraSpec.v). *)
From Coq Require Import ZArith List Bool Lia ZifyBool.
From Verif Require Import MarshalModel Utf8Model CqlType CqlCodec CassandraSpecInt CassandraSpec
  Marshal_proofs C01_proofs.
From Verif Require VIntCoding Marshal_vint Marshal_vints MarshalBridge.
Import ListNotations.
Local Open Scope Z_scope.

(* Every statement of C02 has the shape "the encoder returns these bytes exactly when the value is in range, and raises
   otherwise" (spec_result is of that shape); two such encoders in sequence are one such encoder. *)
Definition guard (c : bool) (s : list Z) : option (list Z) := if c then Some s else None.

Lemma guard_app : forall c1 s1 c2 s2,
  (a <- guard c1 s1 ;; b <- guard c2 s2 ;; Some (a ++ b)) = guard (c1 && c2) (s1 ++ s2).
Proof. intros [] ? [] ?; reflexivity. Qed.

Lemma in_z_iff : forall lo hi z, in_z lo hi z = true <-> lo <= z < hi.
Proof. intros. unfold in_z. rewrite andb_true_iff, Z.leb_le, Z.ltb_lt. tauto. Qed.

Definition int_range (n : nat) (signed : bool) (z : Z) : bool :=
  let bits := 8 * Z.of_nat n in
  if signed then in_z (- 2 ^ (bits - 1)) (2 ^ (bits - 1)) z else in_z 0 (2 ^ bits) z.

Lemma pack_int_exact : forall n s z, pack_int n s z = guard (int_range n s z) (spec_be n z).
Proof.
  intros. unfold pack_int, int_range, in_z. rewrite be_bytes_java. destruct s; reflexivity.
Qed.

Lemma utf8_enc1_defined : forall c, is_some (utf8_enc1 c) = scalar_cp c.
Proof.
  intros c. unfold scalar_cp, utf8_enc1, is_surrogate, in_z.
  destruct (c <? 0) eqn:E0; [cbn; lia|]. destruct (c <? 128) eqn:E1; [cbn; lia|]. destruct (c <? 2048) eqn:E2; [cbn; lia|].
  destruct (c <? 65536) eqn:E3.
  - destruct ((55296 <=? c) && (c <=? 57343)) eqn:S; cbn [is_some negb]; lia.
  - destruct (c <? 1114112) eqn:E4; cbn [is_some]; lia.
Qed.

Lemma utf8_encode_defined : forall cps, is_some (utf8_encode cps) = forallb scalar_cp cps.
Proof.
  induction cps as [|c r IH]; [reflexivity|]. cbn [forallb utf8_encode].
  rewrite <- (utf8_enc1_defined c), <- IH. destruct (utf8_enc1 c), (utf8_encode r); reflexivity.
Qed.

Lemma utf8_encode_exact : forall cps, utf8_encode cps = guard (forallb scalar_cp cps) (spec_utf8 cps).
Proof.
  intros cps. rewrite <- (utf8_encode_defined cps). unfold spec_utf8. destruct (utf8_encode cps); reflexivity.
Qed.

(* only the statement of Props/C02.C02_scalar_exact_partial mentions it, as a hypothesis that is not used *)
Definition proved_scalar (s : scalar) : bool :=
  match s with SVarint | SDecimal | SDuration => false | _ => true end.

Lemma uvint_pack_exact : forall v, uvint_pack v = guard ((0 <=? v) && (v <? 2 ^ 64)) (spec_uvint v).
Proof.
  intros v. rewrite MarshalBridge.model_uvint_pack_spec. unfold VIntCoding.uvint_encode.
  destruct ((0 <=? v) && (v <? 2 ^ 64)) eqn:E; [|reflexivity].
  rewrite MarshalBridge.spec_uvint_uvint_bytes by exact (proj1 (in_z_iff 0 (2 ^ 64) v) E). reflexivity.
Qed.

Lemma vint_bytes_spec : forall x, int64 x -> VIntCoding.vint_bytes x = spec_vint x.
Proof.
  intros x Hx. unfold VIntCoding.vint_bytes, spec_vint.
  destruct (Marshal_vint.zigzag_roundtrip_spec x Hx) as (Henc & Hu & _).
  (* both speak of the generated encode_zig_zag: read it as the model's, then as spec_zigzag *)
  rewrite MarshalBridge.bridge_encode_zig_zag, (encode_zig_zag_spec x Hx) in Henc, Hu.
  rewrite <- Henc. symmetry. apply MarshalBridge.spec_uvint_uvint_bytes. exact Hu.
Qed.

Lemma vints_pack_exact : forall vs,
  vints_pack vs = guard (forallb (in_z (- 2 ^ 63) (2 ^ 63)) vs) (flat_map spec_vint vs).
Proof.
  intros vs. rewrite MarshalBridge.model_vints_pack_spec, Marshal_vints.vints_encode_concat.
  (* in_int64b is in_z at these bounds spelled out *)
  change VIntCoding.in_int64b with (in_z (- 2 ^ 63) (2 ^ 63)).
  destruct (forallb _ vs) eqn:E; [|reflexivity]. rewrite flat_map_concat_map. cbn [guard]. do 2 f_equal.
  apply map_ext_in. intros x Hx. apply vint_bytes_spec, in_z_iff. exact (proj1 (forallb_forall _ vs) E x Hx).
Qed.

(* no hypothesis on v: a value of another kind, or null, is refused by the model and out of range for the specification *)
Lemma scalar_exact_all : forall s v, ser_scalar s v = guard (range_scalar s v) (spec_scalar s v).
Proof.
  intros s v.
  destruct s; destruct v; cbn [ser_scalar range_scalar spec_scalar]; try reflexivity; try (rewrite pack_int_exact; reflexivity).
  - (* SDate *) rewrite pack_int_exact.
    replace (int_range 4 false (z + 2147483648)) with (in_z (- 2 ^ 31) (2 ^ 31) z); [reflexivity|].
    unfold int_range, in_z. lia.
  - (* SDecimal *) rewrite pack_int_exact. unfold int_range. change (2 ^ (8 * Z.of_nat 4 - 1)) with (2 ^ 31).
    destruct (in_z (- 2 ^ 31) (2 ^ 31) scale); cbn [obind]; [|reflexivity].
    rewrite MarshalBridge.model_varint_pack_spec. reflexivity.
  - (* SText *) apply utf8_encode_exact.
  - (* STime: a time of day is well inside int64 *) unfold in_z. destruct ((0 <=? z) && (z <? DAY_NANOS)) eqn:A; [|reflexivity].
    rewrite pack_int_exact. replace (int_range 8 true z) with true; [reflexivity|].
    unfold int_range, in_z, DAY_NANOS in *. lia.
  - (* SVarint *) rewrite MarshalBridge.model_varint_pack_spec. reflexivity.
  - (* SDuration *) rewrite vints_pack_exact. cbn [forallb flat_map]. rewrite andb_true_r, app_nil_r, andb_assoc. reflexivity.
Qed.

(* the calendar day of an instant (util.Date of a datetime) *)
Lemma date_of_instant : forall d tod, 0 <= tod < 86400 -> date_days_of_seconds (86400 * d + tod) = d.
Proof. intros d tod H. unfold date_days_of_seconds. symmetry. apply Z.div_unique with (r := tod); lia. Qed.
