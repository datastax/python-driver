(* C38 (Model/CompositeMapper.v): the metaclass loop keeps `inv` (key indexes dense, primary_keys in step with columns);
   with dense indexes the index map sends the db name of each key column to its position, so partition_key_values lists
   the values bound to the key columns. *)
From Coq Require Import ZArith List Bool Lia.
From Verif Require Import CompositeSpec CompositeMapper ListFacts Composite_proofs.
Import ListNotations.
Local Open Scope Z_scope.

Section MapperProofs.
  Variable T : Type.
  Notation pcol := (pcol T).
  Notation cdef := (cdef T).
  Notation mstate := (mstate T).

  Lemma lookup_upd : forall {A} n m (v : A) l, lookup m (upd n v l) = if n =? m then Some v else lookup m l.
  Proof.
    intros A n m v l. induction l as [|[k x] l IH]; cbn [upd lookup]; [reflexivity|].
    destruct (Z.eqb_spec k n) as [->|Hkn]; cbn [lookup].
    - destruct (n =? m); reflexivity.
    - rewrite IH. destruct (Z.eqb_spec k m), (Z.eqb_spec n m); congruence.
  Qed.

  Lemma lookup_upd_same : forall {A} n (v : A) l, lookup n (upd n v l) = Some v.
  Proof. intros A n v l. rewrite lookup_upd, Z.eqb_refl. reflexivity. Qed.

  Lemma lookup_upd_other : forall {A} n m (v : A) l, m <> n -> lookup m (upd n v l) = lookup m l.
  Proof. intros A n m v l Hne. rewrite lookup_upd. destruct (Z.eqb_spec n m); [congruence|reflexivity]. Qed.

  Lemma upd_absent : forall {A} n (v : A) l, lookup n l = None -> upd n v l = l ++ [(n, v)].
  Proof.
    intros A n v l. induction l as [|[k x] l IH]; intros H; cbn [upd lookup] in *; [reflexivity|].
    destruct (Z.eqb_spec k n); [discriminate|]. rewrite IH by assumption. reflexivity.
  Qed.

  Lemma upd_present_proj : forall {A B} (P : A -> bool) (f : A -> B) n v p (l : list (Z * A)), lookup n l = Some p ->
    P v = P p -> f v = f p -> map f (filter P (map snd (upd n v l))) = map f (filter P (map snd l)).
  Proof.
    intros A B P f n v p l. induction l as [|[k x] l IH]; intros H Hp Hi; cbn [upd lookup] in *; [discriminate|].
    destruct (Z.eqb_spec k n).
    - injection H as ->. cbn [map snd filter]. rewrite Hp. destruct (P p); cbn [map]; congruence.
    - cbn [map snd filter]. destruct (P x); cbn [map]; rewrite IH by assumption; reflexivity.
  Qed.

  Lemma upd_absent_proj : forall {A B} (P : A -> bool) (f : A -> B) n v (l : list (Z * A)), lookup n l = None ->
    map f (filter P (map snd (upd n v l))) = map f (filter P (map snd l)) ++ (if P v then [f v] else []).
  Proof.
    intros A B P f n v l H. rewrite upd_absent by exact H. rewrite map_app, filter_app, map_app. cbn [map snd filter].
    destruct (P v); reflexivity.
  Qed.

  Definition dense (s : mstate) : Prop := map (p_pidx T) (partition_keys T s) = seq 0 (s_counter T s).

  (* primary_keys against columns, name by name: an overriding column copies flag and index from columns, while
     density is about primary_keys *)
  Definition pks_agree (s : mstate) (n : Z) : Prop :=
    match lookup n (s_pks T s), lookup n (s_cols T s) with
    | Some p, Some o => p_part T o = p_part T p /\ p_pidx T o = p_pidx T p
    | Some _, None => False
    | None, Some o => p_part T o = false
    | None, None => True
    end.

  Definition inv (s : mstate) : Prop := dense s /\ forall n, pks_agree s n.

  Lemma inv_init : forall defs, inv (init_state T defs).
  Proof. intros defs. split; [reflexivity|]. intros n. exact I. Qed.

  Lemma process_def_fields : forall s d, exists c,
    s_cols T (process_def T s d) = upd (d_name T d) c (s_cols T s) /\
    s_pks T (process_def T s d) = (if d_prim T d then upd (d_name T d) c (s_pks T s) else s_pks T s) /\
    match lookup (d_name T d) (s_cols T s) with
    | Some o => p_part T c = p_part T o /\ p_pidx T c = p_pidx T o /\ s_counter T (process_def T s d) = s_counter T s
    | None => p_pidx T c = s_counter T s /\ (d_prim T d = false -> p_part T c = false) /\
              s_counter T (process_def T s d) = if p_part T c then S (s_counter T s) else s_counter T s
    end.
  Proof.
    intros s d. unfold process_def. destruct (lookup (d_name T d) (s_cols T s)) as [o|]; eexists; repeat split.
    (* left, for a new column: d_prim d = false -> p_part c = false *)
    intros H. rewrite H, andb_false_r, orb_false_r. apply orb_false_elim in H. apply H.
  Qed.

  Lemma inv_step : forall s d, inv s -> inv (process_def T s d).
  Proof.
    intros s d [Hd Ha]. destruct (process_def_fields s d) as [c [Ec [Ep Hc]]]. set (n := d_name T d) in *.
    pose proof (Ha n) as Hn. unfold pks_agree in Hn. split.
    - unfold dense, partition_keys in *. rewrite Ep.
      destruct (lookup n (s_pks T s)) as [p|] eqn:Epk, (lookup n (s_cols T s)) as [o|]; try contradiction.
      + (* overriding a column of primary_keys: replaced in place, same flag and index *)
        destruct Hn as [Hp Hi], Hc as [Hcp [Hci ->]].
        destruct (d_prim T d); [rewrite (upd_present_proj _ _ n c p) by congruence|]; exact Hd.
      + (* overriding a column outside primary_keys: no partition key column *)
        destruct Hc as [Hcp [_ ->]]. destruct (d_prim T d); [|exact Hd].
        rewrite upd_absent_proj, Hcp, Hn, app_nil_r by exact Epk. exact Hd.
      + (* a new column: it takes the counter, which advances if it is a partition key column *)
        destruct Hc as [Hci [Hprim ->]]. destruct (d_prim T d).
        * rewrite upd_absent_proj, Hd by exact Epk.
          destruct (p_part T c); [rewrite Hci, seq_S; reflexivity|apply app_nil_r].
        * rewrite (Hprim eq_refl). exact Hd.
    - intros m. unfold pks_agree. rewrite Ec, Ep. destruct (Z.eq_dec m n) as [->|Hne].
      + (* the name just written: entry and column are both c, or the old entry against c *)
        rewrite lookup_upd_same. destruct (d_prim T d); [rewrite lookup_upd_same; auto|].
        destruct (lookup n (s_pks T s)) as [p|], (lookup n (s_cols T s)) as [o|]; try contradiction.
        * destruct Hn as [Hp Hi], Hc as [Hcp [Hci _]]. split; congruence.
        * destruct Hc as [-> _]. exact Hn.
        * destruct Hc as [_ [Hprim _]]. exact (Hprim eq_refl).
      + rewrite lookup_upd_other by exact Hne. destruct (d_prim T d); [rewrite lookup_upd_other by exact Hne|]; exact (Ha m).
  Qed.

  Lemma inv_fold : forall defs s, inv s -> inv (fold_left (process_def T) defs s).
  Proof. exact (fold_left_inv (process_def T) inv inv_step). Qed.

  Lemma index_dense : forall defs,
    let pks := partition_keys T (run_meta_with T (process_def T) defs) in
    map (p_pidx T) pks = seq 0 (length pks).
  Proof.
    intros defs pks. destruct (inv_fold defs _ (inv_init defs)) as [Hd _].
    change (map (p_pidx T) pks = seq 0 (s_counter T (run_meta_with T (process_def T) defs))) in Hd.
    rewrite Hd. f_equal. rewrite <- (map_length (p_pidx T)), Hd, seq_length. reflexivity.
  Qed.

  Lemma lookup_none_notin : forall {A} n (l : list (Z * A)), lookup n l = None <-> ~ In n (map fst l).
  Proof.
    intros A n l. induction l as [|[k x] l IH]; cbn [lookup map fst In]; [tauto|].
    destruct (Z.eqb_spec k n); [split; [discriminate|intros H; exfalso; apply H; left; assumption]|].
    rewrite IH. tauto.
  Qed.

  Lemma lookup_In : forall {A} n (v : A) l, NoDup (map fst l) -> (lookup n l = Some v <-> In (n, v) l).
  Proof.
    intros A n v l. induction l as [|[k x] l IH]; intros Hnd; cbn [lookup In]; [split; [discriminate|tauto]|].
    cbn [map fst] in Hnd. apply NoDup_cons_iff in Hnd. destruct Hnd as [Hk Hnd].
    destruct (Z.eqb_spec k n) as [->|Hne].
    - split; [intros [= ->]; left; reflexivity|]. intros [[= ->]|Hin]; [reflexivity|].
      exfalso. apply Hk. exact (in_map fst _ _ Hin).
    - rewrite (IH Hnd). split; [tauto|]. intros [[= Hkn _]|Hin]; [contradiction|exact Hin].
  Qed.

  Definition entry (c : pcol) : Z * nat := (p_dbf T c, p_pidx T c).

  Lemma index_map_eq : forall pks, NoDup (map (p_dbf T) pks) -> pk_index_map T pks = map entry pks.
  Proof.
    intros pks H. refine (fold_set_fresh upd entry _ pks [] H).
    intros k v d Hk. apply upd_absent, lookup_none_notin, Hk.
  Qed.

  Lemma dense_nth : forall {A} (f : A -> nat) l j c, map f l = seq 0 (length l) -> nth_error l j = Some c -> f c = j.
  Proof.
    intros A f l j c Hseq Hj. assert (j < length l)%nat as Hlt by (apply nth_error_Some; congruence).
    apply (map_nth_error f) in Hj. rewrite Hseq in Hj.
    apply (nth_error_nth _ _ 0%nat) in Hj. rewrite seq_nth in Hj by exact Hlt. symmetry. exact Hj.
  Qed.

  Lemma index_map_lookup : forall pks f j, NoDup (map (p_dbf T) pks) -> map (p_pidx T) pks = seq 0 (length pks) ->
    (lookup f (pk_index_map T pks) = Some j <-> nth_error (map (p_dbf T) pks) j = Some f).
  Proof.
    intros pks f j Hnd Hseq. rewrite index_map_eq by exact Hnd.
    rewrite lookup_In by (rewrite map_map; exact Hnd). rewrite in_map_iff, nth_error_map. split.
    - intros [c [[= Hf Hi] Hin]]. apply In_nth_error in Hin. destruct Hin as [k Hk].
      rewrite <- Hi, (dense_nth _ _ _ _ Hseq Hk), Hk. cbn. congruence.
    - destruct (nth_error pks j) as [c|] eqn:Hj; [|discriminate]. intros [= Hf]. exists c. split; [|exact (nth_error_In _ _ Hj)].
      unfold entry. rewrite Hf, (dense_nth _ _ _ _ Hseq Hj). reflexivity.
  Qed.

  Variable V : Type.
  Variable ser : T -> V -> option (list Z).
  Notation clause := (clause V).

  Fixpoint last_value (P : clause -> bool) (cs : list clause) (cur : option V) : option V :=
    match cs with
    | [] => cur
    | c :: r => last_value P r (if P c then c_value V c else cur)
    end.

  (* the value the statement fixes for a column: its last equality clause / assignment *)
  Definition bound_value (cs : list clause) (f : Z) : option V := last_value (fun c => c_field V c =? f) cs None.

  Lemma set_nth_spec : forall {A} (l : list A) i v, (i < length l)%nat ->
    exists l', set_nth i v l = Some l' /\ nth_error l' i = Some v /\
               forall j, j <> i -> nth_error l' j = nth_error l j.
  Proof.
    intros A l. induction l as [|x l IH]; intros i v Hi; [cbn in Hi; lia|].
    destruct i as [|i]; cbn [set_nth].
    - exists (v :: l). repeat split. intros [|j] Hj; [congruence|reflexivity].
    - destruct (IH i v ltac:(cbn in Hi; lia)) as [l' [Hs [Hn Ho]]]. rewrite Hs. exists (x :: l').
      repeat split; cbn; auto. intros [|j] Hj; [reflexivity|]. apply Ho. congruence.
  Qed.

  (* parts[i] = v, on a list read off distinct fields: the field at position i takes v *)
  Lemma set_nth_map : forall {A} (g : Z -> A) fs i f0 v, NoDup fs -> nth_error fs i = Some f0 ->
    set_nth i v (map g fs) = Some (map (fun f => if f0 =? f then v else g f) fs).
  Proof.
    intros A g fs i f0 v Hnd Hi.
    destruct (set_nth_spec (map g fs) i v) as [l' [-> [Hn Ho]]]. { rewrite map_length. apply nth_error_Some. congruence. }
    f_equal. apply nth_error_ext. intros j. rewrite nth_error_map. destruct (Nat.eq_dec j i) as [->|Hne].
    - rewrite Hn, Hi. cbn. rewrite Z.eqb_refl. reflexivity.
    - rewrite (Ho j Hne), nth_error_map. destruct (nth_error fs j) as [f|] eqn:Hj; [|reflexivity]. cbn.
      destruct (Z.eqb_spec f0 f) as [<-|]; [|reflexivity].
      (* f0 at j as well as at i *)
      elim Hne. apply (proj1 (NoDup_nth_error fs) Hnd); [apply nth_error_Some|]; congruence.
  Qed.

  (* m sends the fields fs, and no other, to their positions.  Then the parts are at every moment a list read off fs,
     and a clause does to all of them at once what it does to the accumulator of last_value *)
  Lemma update_parts_fields : forall m fs, NoDup fs -> (forall f i, lookup f m = Some i <-> nth_error fs i = Some f) ->
    forall cs g, update_parts V m cs (map g fs) = Some (map (fun f => last_value (fun c => c_field V c =? f) cs (g f)) fs).
  Proof.
    intros m fs Hnd Hm. induction cs as [|c cs IH]; intros g; cbn [update_parts last_value]; [reflexivity|].
    destruct (lookup (c_field V c) m) as [i|] eqn:El.
    - apply Hm in El. rewrite (set_nth_map g fs i _ (c_value V c) Hnd El), IH. reflexivity.
    - rewrite IH. f_equal. apply map_ext_in. intros f Hf. destruct (Z.eqb_spec (c_field V c) f) as [<-|]; [|reflexivity].
      apply In_nth_error in Hf. destruct Hf as [i Hi]. apply Hm in Hi. congruence.
  Qed.

  Lemma repeat_map : forall {A B} (x : B) (l : list A), repeat x (length l) = map (fun _ => x) l.
  Proof. intros A B x l. induction l as [|a l IH]; cbn; congruence. Qed.

  Lemma partition_key_values_spec : forall pks wheres assigns,
    NoDup (map (p_dbf T) pks) -> map (p_pidx T) pks = seq 0 (length pks) ->
    partition_key_values V (pk_index_map T pks) wheres assigns =
    Some (map (fun c => bound_value (filter (c_eq V) wheres ++ assigns) (p_dbf T c)) pks).
  Proof.
    intros pks wheres assigns Hnd Hseq. unfold partition_key_values.
    replace (length (pk_index_map T pks)) with (length (map (p_dbf T) pks)) by (rewrite index_map_eq, !map_length; auto).
    rewrite repeat_map, (update_parts_fields _ _ Hnd (fun f i => index_map_lookup pks f i Hnd Hseq)), map_map. reflexivity.
  Qed.

  Lemma zip_ser_spec : forall ts vs bs, Forall2 (fun tv b => ser (fst tv) (snd tv) = Some b) (combine ts vs) bs ->
    zip_ser T V ser ts (map Some vs) = Some bs.
  Proof.
    induction ts as [|t ts IH]; intros [|v vs] bs H; cbn [combine] in H; inversion H as [|? b ? bs' Hb Hr]; subst; try reflexivity.
    cbn [map zip_ser]. cbn [fst snd] in Hb. rewrite Hb, (IH vs bs' Hr). reflexivity.
  Qed.

  Lemma pack_all_spec : forall bs, forallb component_ok bs = true ->
    pack_all bs = Some (concat (map composite_component bs)).
  Proof.
    induction bs as [|b bs IH]; intros H; [reflexivity|]. cbn [forallb] in H. apply andb_prop in H. destruct H as [Hb Hr].
    cbn [pack_all map concat]. unfold pack_part. rewrite packed_component, Hb, IH by assumption. reflexivity.
  Qed.

  Lemma set_routing_key_spec : forall bs, forallb component_ok bs = true \/ length bs = 1%nat ->
    set_routing_key bs = RBytes (composite_spec bs).
  Proof.
    intros [|a [|b r]] Hok; [reflexivity|reflexivity|]. destruct Hok as [Hok|Hok]; [|cbn in Hok; lia].
    unfold set_routing_key. rewrite pack_all_spec by assumption. reflexivity.
  Qed.

  Lemma routing : forall defs wheres assigns vs bs,
    let s := run_meta_with T (process_def T) defs in
    let pks := partition_keys T s in
    let cs := filter (c_eq V) wheres ++ assigns in
    pks <> [] -> NoDup (map (p_dbf T) pks) ->
    Forall2 (fun c v => bound_value cs (p_dbf T c) = Some v) pks vs ->
    Forall2 (fun tv b => ser (fst tv) (snd tv) = Some b) (combine (map (p_type T) pks) vs) bs ->
    forallb component_ok bs = true \/ length pks = 1%nat ->
    execute T V ser s wheres assigns = RBytes (composite_spec bs).
  Proof.
    intros defs wheres assigns vs bs s pks cs Hne Hnd Hbound Hser Hok.
    assert (length bs = length pks) as Hlb.
    { apply Forall2_length in Hser, Hbound. rewrite combine_length, map_length, <- Hbound, Nat.min_id in Hser. congruence. }
    unfold execute. fold pks.
    assert (pk_index_map T pks <> []) as Hm by (rewrite index_map_eq by exact Hnd; destruct pks; [congruence|discriminate]).
    destruct (pk_index_map T pks) as [|e m] eqn:Em; [congruence|]. rewrite <- Em.
    rewrite (partition_key_values_spec pks wheres assigns Hnd (index_dense defs)). fold cs.
    rewrite (Forall2_map_eq _ _ _ _ Hbound).
    assert (existsb (fun p : option V => match p with None => true | Some _ => false end) (map Some vs) = false) as ->
      by (clear; induction vs as [|v vs IH]; [reflexivity|exact IH]).
    rewrite (zip_ser_spec _ _ _ Hser).
    apply set_routing_key_spec. rewrite Hlb. exact Hok.
  Qed.
End MapperProofs.
