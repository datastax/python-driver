(* Every round trip is a [lexeme]: what the driver writes, before any continuation that stops it, is read back as the value
   and the continuation is left.  The schema-export texts are read lexeme by lexeme in the same way ([reads_as]). *)
From Coq Require Import String Ascii.
From Coq Require Import ZArith List Bool Lia ZifyBool.
From Verif Require Import CqlKeywords CqlLex ListFacts.
Import ListNotations.
Local Open Scope Z_scope.

Definition stops (p : Z -> bool) (rest : str) : Prop :=
  match rest with c :: _ => p c = false | [] => True end.

Definition lexeme {A} (rd : str -> option (A * str)) (stop : str -> Prop) (x : str) (a : A) : Prop :=
  forall rest, stop rest -> rd (x ++ rest) = Some (a, rest).

Lemma lexeme_alone : forall {A} {rd : str -> option (A * str)} {stop : str -> Prop} {x a},
  lexeme rd stop x a -> stop [] -> rd x = Some (a, []).
Proof. intros A rd stop x a H Hs. rewrite <- (app_nil_r x). exact (H [] Hs). Qed.

Lemma span_app : forall p l rest, forallb p l = true -> stops p rest -> span p (l ++ rest) = (l, rest).
Proof.
  intros p l rest; induction l as [|a l IH]; intros Hall Hst.
  - destruct rest as [|c r]; [reflexivity|]. cbn in *. rewrite Hst. reflexivity.
  - cbn in Hall. apply andb_true_iff in Hall. destruct Hall as [Ha Hl].
    cbn [app span]. rewrite Ha, (IH Hl Hst). reflexivity.
Qed.

(* str_eqb is ListFacts.eq_listb at Z.eqb (the same fix) *)
Lemma str_eqb_refl : forall a, str_eqb a a = true.
Proof. intros a. apply (eq_listb_spec Z.eqb Z.eqb_eq). reflexivity. Qed.

Lemma lex_quoted_body_esc : forall q n, lexeme (lex_quoted_body q) (stops (Z.eqb q)) (double_q q n ++ [q]) n.
Proof.
  intros q n rest Hst. rewrite <- app_assoc. cbn [app]. induction n as [|a n IH].
  - cbn. rewrite Z.eqb_refl. destruct rest as [|c r]; [reflexivity|].
    cbn in Hst. rewrite Z.eqb_sym, Hst. reflexivity.
  - unfold double_q in *. cbn [flat_map]. destruct (a =? q) eqn:Haq.
    + apply Z.eqb_eq in Haq. subst a. cbn [app lex_quoted_body]. rewrite Z.eqb_refl. rewrite IH. reflexivity.
    + cbn [app lex_quoted_body]. rewrite Haq, IH. reflexivity.
Qed.

Lemma ident_quoted : forall n, lexeme lex_ident (stops (Z.eqb DQ)) (escape_name n) n.
Proof.
  intros n rest H. change (lex_quoted_body DQ ((double_q DQ n ++ [DQ]) ++ rest) = Some (n, rest)).
  exact (lex_quoted_body_esc DQ n rest H).
Qed.

Lemma string_quoted : forall s, lexeme lex_string (stops (Z.eqb SQ)) (cql_quote s) s.
Proof.
  intros s rest H. change (lex_quoted_body SQ ((double_q SQ s ++ [SQ]) ++ rest) = Some (s, rest)).
  exact (lex_quoted_body_esc SQ s rest H).
Qed.

Lemma double_q_length : forall q n, (length n <= length (double_q q n))%nat.
Proof.
  intros q n; induction n as [|a n IH]; [cbn; lia|].
  unfold double_q in *. cbn [flat_map]. rewrite app_length. destruct (a =? q); cbn; lia.
Qed.

Lemma double_q_id : forall q text, forallb (fun c => negb (c =? q)) text = true -> double_q q text = text.
Proof.
  intros q text. unfold double_q. induction text as [|c t IH]; [reflexivity|]. cbn. intros H. apply andb_true_iff in H.
  destruct H as [Hc Ht]. apply negb_true_iff in Hc. rewrite Hc, (IH Ht). reflexivity.
Qed.

Lemma escape_name_neq : forall n, escape_name n <> n.
Proof.
  intros n H. apply (f_equal (@length Z)) in H. unfold escape_name in H. cbn in H.
  rewrite app_length in H. cbn in H. pose proof (double_q_length DQ n). lia.
Qed.

(* the character classes of valid_cql3_word_re are regenerated from the source: the next two lemmas break if the regex
   accepts anything CQL would not read back unchanged *)
Lemma word_first_ok : forall c, in_ranges word_re_first c = true ->
  is_letter c = true /\ is_ident_char c = true /\ is_upper c = false.
Proof. intros c. unfold in_ranges, is_ident_char, is_letter, is_upper, is_lower. cbn. lia. Qed.

Lemma word_rest_ok : forall l, forallb (in_ranges word_re_rest) l = true -> forallb is_ident_char l = true /\ map to_lower l = l.
Proof.
  induction l as [|c l IH]; [split; reflexivity|]. cbn [forallb map]. intros H. apply andb_true_iff in H. destruct H as [Hc Hl].
  assert (is_ident_char c = true /\ is_upper c = false) as [A B]
    by (revert Hc; unfold in_ranges, is_ident_char, is_letter, is_upper, is_lower, is_digit; cbn; lia).
  destruct (IH Hl) as [C D]. unfold to_lower at 1. rewrite A, B, C, D. split; reflexivity.
Qed.

Lemma span_snd_nil : forall p s, snd (span p s) = [] -> forallb p s = true.
Proof.
  intros p s; induction s as [|c s IH]; [reflexivity|]. cbn. destruct (p c); [|discriminate].
  destruct (span p s) as [a b]. exact IH.
Qed.

Lemma letter_facts : forall c, is_letter c = true -> is_space c = false /\ (c =? SQ) = false /\ (c =? DQ) = false.
Proof. intros c. unfold is_letter, is_upper, is_lower, is_space, SQ, DQ. lia. Qed.

Lemma re_end_no_dollar : forall r, re_end_ok false r = true -> r = [].
Proof. intros [|x [|y r]] H; [reflexivity|discriminate H|discriminate H]. Qed.

Lemma word_shape_no_dollar : forall n, word_re_match_d false n = true ->
  exists c n', n = c :: n' /\ is_letter c = true /\ forallb is_ident_char n = true /\ map to_lower n = n.
Proof.
  intros [|c n'] H; [discriminate|]. apply andb_true_iff in H. destruct H as [Hc Hr].
  apply word_first_ok in Hc. destruct Hc as (Hlet & Hid & Hup).
  apply re_end_no_dollar, span_snd_nil, word_rest_ok in Hr. destruct Hr as [Hall Hlow].
  exists c, n'. cbn [forallb map]. unfold to_lower at 1. rewrite Hid, Hup, Hall, Hlow. repeat split. exact Hlet.
Qed.

(* breaks when the source drops a core reserved word from the driver's table *)
Lemma core_in_driver : forallb (fun w => mem_str w driver_reserved_words) core_reserved_words = true.
Proof. vm_compute. reflexivity. Qed.

Lemma reserved_driver : forall w, reserved w = driver_reserved w.
Proof.
  intros w. unfold reserved. destruct (mem_str w core_reserved_words) eqn:E; [|apply orb_false_r].
  apply (existsb_In _ (eq_listb_spec Z.eqb Z.eqb_eq)) in E.
  pose proof core_in_driver as Hc. rewrite forallb_forall in Hc. unfold driver_reserved. rewrite (Hc w E). reflexivity.
Qed.

Lemma ident_bare : forall n, is_valid_name_d false n = true ->
  reserved n = false /\ lexeme lex_ident (stops is_ident_char) n n.
Proof.
  intros n Hv. unfold is_valid_name_d in Hv. destruct (driver_reserved (py_lower n)) eqn:Hres; [discriminate|].
  apply word_shape_no_dollar in Hv. destruct Hv as (c & n' & -> & Hlet & Hall & Hlow).
  unfold py_lower in Hres. rewrite Hlow, <- reserved_driver in Hres.
  split; [exact Hres|]. intros rest Hst. destruct (letter_facts c Hlet) as (_ & _ & Hdq).
  unfold lex_ident. cbn [app]. rewrite Hdq, Hlet. change (c :: n' ++ rest) with ((c :: n') ++ rest).
  rewrite (span_app _ _ _ Hall Hst), Hlow, Hres. reflexivity.
Qed.

Definition name_stop (r : str) : Prop := stops (Z.eqb DQ) r /\ stops is_ident_char r.

(* `change word_re_dollar with false` (here and in C27_unquoted_ok) and `change use_escapes with true` (C27_use_keyspace)
   stop compiling if the regenerated regex regains the `$` slack or the USE statement loses its escaping *)
Lemma ident_protect : forall n, lexeme lex_ident name_stop (protect_name n) n.
Proof.
  unfold protect_name, maybe_escape_name, maybe_escape_name_d. change word_re_dollar with false. intros n rest [Hdq Hid].
  destruct (is_valid_name_d false n) eqn:Hv; [apply (ident_bare n Hv), Hid|apply ident_quoted, Hdq].
Qed.

Definition numeral (ds : str) : Prop := forallb is_digit ds = true /\ ds <> [].

Lemma digits_value_snoc : forall ds c, digits_value (ds ++ [c]) = digits_value ds * 10 + (c - 48).
Proof. intros. unfold digits_value. rewrite fold_left_app. reflexivity. Qed.

Lemma le_digits_numeral : forall f n, 0 <= n < 2 ^ Z.of_nat (S f) ->
  numeral (map (fun d => 48 + d) (rev (le_digits (S f) n))) /\
  digits_value (map (fun d => 48 + d) (rev (le_digits (S f) n))) = n.
Proof.
  induction f as [|f IH]; intros n Hn; pose proof (Z.mod_pos_bound n 10 eq_refl) as Hm; pose proof (Z.div_mod n 10) as Hd;
    (* one step of le_digits, mod and div left folded *)
    change (le_digits (S ?g) n) with (n mod 10 :: if n <? 10 then [] else le_digits g (n / 10)).
  - destruct (n <? 10) eqn:Hlt; [|cbn in Hn; lia].
    unfold numeral, digits_value, is_digit. cbn [rev app map forallb fold_left]. repeat split; [lia|discriminate|lia].
  - destruct (n <? 10) eqn:Hlt.
    { unfold numeral, digits_value, is_digit. cbn [rev app map forallb fold_left]. repeat split; [lia|discriminate|lia]. }
    destruct (IH (n / 10)) as [[Hds Hne] Hv].
    { rewrite Nat2Z.inj_succ, Z.pow_succ_r in Hn by lia. split; [apply Z.div_pos; lia|apply Z.div_lt_upper_bound; lia]. }
    cbn [rev]. rewrite map_app. cbn [map]. rewrite digits_value_snoc, Hv. unfold numeral. rewrite forallb_app, Hds.
    cbn [forallb andb]. unfold is_digit. repeat split; [lia| |lia]. intros H. apply app_eq_nil in H. destruct H as [_ H]. discriminate H.
Qed.

Lemma log2_fuel : forall n, 0 <= n -> 0 <= n < 2 ^ Z.of_nat (S (Z.to_nat (Z.log2 n))).
Proof.
  intros n Hn. split; [assumption|]. rewrite Nat2Z.inj_succ, Z2Nat.id by apply Z.log2_nonneg.
  destruct (Z.eq_dec n 0) as [->|Hz]; [cbn; lia|]. apply Z.log2_spec. lia.
Qed.

Lemma str_int_shape : forall z, exists ds, numeral ds /\ digits_value ds = Z.abs z /\
  str_int z = if z <? 0 then 45 :: ds else ds.
Proof.
  intros z. exists (str_nat (Z.abs z)). destruct (le_digits_numeral _ _ (log2_fuel _ (Z.abs_nonneg z))) as [Hn Hv].
  split; [exact Hn|]. split; [exact Hv|]. unfold str_int.
  destruct (z <? 0) eqn:E; [rewrite <- Z.abs_neq by lia|rewrite Z.abs_eq by lia]; reflexivity.
Qed.

Lemma lex_integer_numeral : forall ds, numeral ds ->
  lexeme lex_integer (stops is_digit) ds (digits_value ds) /\ lexeme lex_integer (stops is_digit) (45 :: ds) (- digits_value ds).
Proof.
  intros [|c ds] [Hd Hne]; [contradiction|].
  assert (H45 : (c =? 45) = false) by (cbn in Hd; unfold is_digit in Hd; lia).
  split; intros rest Hst; pose proof (span_app _ _ _ Hd Hst) as Hsp; unfold lex_integer; cbn [app] in *.
  - rewrite H45, Hsp. reflexivity.
  - rewrite Hsp. reflexivity.
Qed.

Lemma integer_printed : forall z, lexeme lex_integer (stops is_digit) (str_int z) z.
Proof.
  intros z rest Hst. destruct (str_int_shape z) as (ds & Hn & Hv & ->). destruct (lex_integer_numeral ds Hn) as [A B].
  destruct (z <? 0) eqn:E; [rewrite (B rest Hst)|rewrite (A rest Hst)]; rewrite Hv; do 2 f_equal; lia.
Qed.

Lemma use_keyspace_escaped : forall ks, lex_use (use_keyspace_e true ks) = Some ks.
Proof.
  intros ks. unfold use_keyspace_e, lex_use, lex_word.
  change (codes "USE " ++ escape_name ks) with (codes "USE" ++ 32 :: escape_name ks).
  rewrite (span_app is_ident_char (codes "USE") (32 :: escape_name ks)) by reflexivity.
  change (skip_spaces (32 :: escape_name ks)) with (escape_name ks). rewrite (lexeme_alone (ident_quoted ks) (I : stops _ [])). reflexivity.
Qed.

(* every fuel above the length of the text: each token or blank uses one unit and at least one character *)
Definition reads_as (s : str) (l : list tok) : Prop :=
  forall fuel, (length s < fuel)%nat -> tokenize fuel s = Some l.

Lemma reads_enough : forall s l, reads_as s l -> exists K, forall fuel, (K <= fuel)%nat -> tokenize fuel s = Some l.
Proof. intros s l H. exists (S (length s)). intros fuel Hle. apply H. lia. Qed.

Lemma reads_nil : reads_as [] [].
Proof. intros [|f] H; [inversion H|reflexivity]. Qed.

Lemma reads_step : forall s t r l, (length r < length s)%nat -> (forall f, tokenize (S f) s = pre t (tokenize f r)) ->
  reads_as r l -> reads_as s (t :: l).
Proof. intros s t r l Hlen Hs H [|f] Hf; [lia|]. rewrite Hs, H by lia. reflexivity. Qed.

Lemma reads_blank : forall r l, reads_as r l -> reads_as (32 :: r) l.
Proof. intros r l H [|f] Hf; [inversion Hf|]. apply (H f). cbn in Hf. lia. Qed.

(* the punctuation the schema export writes: ( ) , : { } *)
Definition is_punct (c : Z) : bool := existsb (Z.eqb c) [40; 41; 44; 58; 123; 125].

Lemma reads_punct : forall c r l, is_punct c = true -> reads_as r l -> reads_as (c :: r) (TP c :: l).
Proof.
  intros c r l Hc. apply reads_step; [cbn; lia|]. intros f. apply existsb_exists in Hc. destruct Hc as (k & Hk & E).
  apply Z.eqb_eq in E. subst k. simpl in Hk.
  repeat (destruct Hk as [<-|Hk]; [reflexivity|]). contradiction.
Qed.

Lemma tokenize_ident : forall s n r f, lex_ident s = Some (n, r) -> tokenize (S f) s = pre (TId n) (tokenize f r).
Proof.
  intros [|c s] n r f H; [discriminate|]. cbn [lex_ident tokenize] in *. destruct (c =? DQ) eqn:Hd.
  - apply Z.eqb_eq in Hd. subst c. rewrite H. reflexivity.
  - destruct (is_letter c) eqn:Hl; [|discriminate]. destruct (letter_facts c Hl) as (-> & -> & _).
    destruct (span is_ident_char (c :: s)) as [w r']. destruct (reserved (map to_lower w)); [discriminate|].
    injection H as <- <-. reflexivity.
Qed.

Lemma tokenize_string : forall s v r f, lex_string s = Some (v, r) -> tokenize (S f) s = pre (TStrLit v) (tokenize f r).
Proof.
  intros [|c s] v r f H; [discriminate|]. cbn [lex_string tokenize] in *. destruct (c =? SQ) eqn:Hq; [|discriminate].
  apply Z.eqb_eq in Hq. subst c. rewrite H. reflexivity.
Qed.

Lemma reads_lexeme : forall x t r l, x <> [] -> (forall f, tokenize (S f) (x ++ r) = pre t (tokenize f r)) ->
  reads_as r l -> reads_as (x ++ r) (t :: l).
Proof. intros x t r l Hx. apply reads_step. rewrite app_length. destruct x; [contradiction|cbn; lia]. Qed.

Lemma reads_string : forall s r l, stops (Z.eqb SQ) r -> reads_as r l -> reads_as (cql_quote s ++ r) (TStrLit s :: l).
Proof. intros s r l Hs. apply reads_lexeme; [discriminate|]. intros f. apply tokenize_string, string_quoted, Hs. Qed.

Lemma reads_name : forall n r l, name_stop r -> reads_as r l -> reads_as (protect_name n ++ r) (TId n :: l).
Proof.
  intros n r l Hs. apply reads_lexeme; [|intros f; apply tokenize_ident, ident_protect, Hs].
  (* the empty name is not left bare *)
  unfold protect_name, maybe_escape_name, maybe_escape_name_d.
  destruct (is_valid_name_d word_re_dollar n) eqn:E; [|discriminate]. intros ->. discriminate E.
Qed.

Lemma name_stop_punct : forall c r, is_punct c = true -> name_stop (c :: r).
Proof. intros c r H. unfold is_punct in H. cbn in H. unfold name_stop, stops, is_ident_char, is_letter, is_upper, is_lower, is_digit, DQ. lia. Qed.

Definition word_head (w : str) : bool := match w with c :: _ => is_letter c | [] => false end.

Lemma reads_kw : forall w r l, word_head w = true -> forallb is_ident_char w = true -> reserved (map to_lower w) = true ->
  stops is_ident_char r -> reads_as r l -> reads_as (w ++ r) (TKw (map to_lower w) :: l).
Proof.
  intros [|c w] r l Hc Hw Hres Hst; [discriminate|]. change (is_letter c = true) in Hc.
  apply reads_lexeme; [discriminate|]. intros f. destruct (letter_facts c Hc) as (Hs & Hq & Hd).
  cbn [app tokenize]. rewrite Hs, Hq, Hd, Hc. change (c :: w ++ r) with ((c :: w) ++ r).
  rewrite (span_app _ _ _ Hw Hst). cbv zeta. rewrite Hres. reflexivity.
Qed.

Definition names_tokens (ns : list str) : list tok :=
  match ns with [] => [] | a :: l => TId a :: flat_map (fun y => [TP 44; TId y]) l end.

Lemma reads_join : forall (A : Type) (txt : A -> str) (tk : A -> list tok) (stop : str -> Prop),
  (forall r, stop (44 :: r)) ->
  (forall a r l, stop r -> reads_as r l -> reads_as (txt a ++ r) (tk a ++ l)) ->
  forall items r l, stop r -> reads_as r l ->
  reads_as (join [44; 32] (map txt items) ++ r)
           (match items with [] => [] | a :: items' => tk a ++ flat_map (fun b => TP 44 :: tk b) items' end ++ l).
Proof.
  intros A txt tk stop Hstop Hitem [|a items] r l Hs Hr; [exact Hr|]. cbn [map join]. rewrite <- !app_assoc.
  revert a. induction items as [|b items IH]; intros a; [apply Hitem; assumption|].
  cbn [map flat_map app]. rewrite <- !app_assoc. apply Hitem; [apply Hstop|].
  apply reads_punct; [reflexivity|]. apply reads_blank, IH.
Qed.

Lemma reads_names : forall ns r l, name_stop r -> reads_as r l -> reads_as (names_joined ns ++ r) (names_tokens ns ++ l).
Proof.
  intros ns. unfold names_joined, names_tokens.
  exact (reads_join str protect_name (fun n => [TId n]) name_stop (fun r => name_stop_punct 44 r eq_refl) reads_name ns).
Qed.

Definition edge_tokens (kw : tok) (label : str) (pks ccs : list str) : list tok :=
  kw :: TId label :: TP 40 ::
  (match pks with [k] => [TId k] | _ => TP 40 :: names_tokens pks ++ [TP 41] end) ++
  (match ccs with [] => [] | _ => TP 44 :: names_tokens ccs end) ++ [TP 41].

Lemma reads_export_edge : forall (kwtext : str) (kw : tok) label pks ccs,
  (forall r l, stops is_ident_char r -> reads_as r l -> reads_as (kwtext ++ r) (kw :: l)) ->
  reads_as (export_edge kwtext label pks ccs) (edge_tokens kw label pks ccs).
Proof.
  intros kwtext kw label pks ccs Hkw. unfold export_edge, edge_tokens.
  set (ctext := (match ccs with [] => [] | _ => 44 :: 32 :: names_joined ccs end) ++ [41]).
  set (ctoks := (match ccs with [] => [] | _ => TP 44 :: names_tokens ccs end) ++ [TP 41]).
  assert (Hc : name_stop ctext /\ reads_as ctext ctoks).
  { assert (H41 : reads_as [41] [TP 41]) by (apply reads_punct; [reflexivity|apply reads_nil]).
    unfold ctext, ctoks. destruct ccs as [|c ccs]; [split; [apply name_stop_punct; reflexivity|exact H41]|].
    rewrite <- !app_comm_cons. split; [apply name_stop_punct; reflexivity|].
    apply reads_punct; [reflexivity|]. apply reads_blank, reads_names; [apply name_stop_punct; reflexivity|exact H41]. }
  destruct Hc as [Hcs Hcr].
  apply reads_blank, Hkw; [reflexivity|]. apply reads_blank, reads_name; [apply name_stop_punct; reflexivity|]. apply reads_punct; [reflexivity|].
  destruct pks as [|k [|k2 pks']].
  - apply reads_punct; [reflexivity|]. apply reads_punct; [reflexivity|]. exact Hcr.
  - apply reads_name; assumption.
  - rewrite <- !app_comm_cons, <- !app_assoc. apply reads_punct; [reflexivity|]. cbn [app].
    apply reads_names; [apply name_stop_punct; reflexivity|]. apply reads_punct; [reflexivity|]. exact Hcr.
Qed.

Fixpoint map_tail_tokens (l : list (str * str)) : list tok :=
  match l with [] => [] | kv :: l' => TP 44 :: TStrLit (fst kv) :: TP 58 :: TStrLit (snd kv) :: map_tail_tokens l' end.
Definition map_tokens (kvs : list (str * str)) : list tok :=
  TP 123 :: (match kvs with [] => [] | kv :: l => TStrLit (fst kv) :: TP 58 :: TStrLit (snd kv) :: map_tail_tokens l end) ++ [TP 125].

Lemma reads_entry : forall kv r l, stops (Z.eqb SQ) r -> reads_as r l ->
  reads_as ((cql_quote (fst kv) ++ 58 :: 32 :: cql_quote (snd kv)) ++ r) (TStrLit (fst kv) :: TP 58 :: TStrLit (snd kv) :: l).
Proof.
  intros kv r l Hs Hr. rewrite <- app_assoc. apply reads_string; [reflexivity|]. cbn [app].
  apply reads_punct; [reflexivity|]. apply reads_blank, reads_string; assumption.
Qed.

Lemma reads_string_map : forall kvs, reads_as (string_map kvs) (map_tokens kvs).
Proof.
  intros kvs. unfold string_map, map_tokens. apply reads_punct; [reflexivity|].
  (* map_tail_tokens is the flat_map of reads_join (the same fix, up to the appends of its body) *)
  apply (reads_join _ (fun kv => cql_quote (fst kv) ++ 58 :: 32 :: cql_quote (snd kv))
           (fun kv => [TStrLit (fst kv); TP 58; TStrLit (snd kv)]) (stops (Z.eqb SQ)) (fun _ => eq_refl) reads_entry);
    [reflexivity|]. apply reads_punct; [reflexivity|apply reads_nil].
Qed.

(* fuel counts for the same texts and an option-cons over token lists; no proof uses them *)
Fixpoint fuel3 (l : list str) (f : nat) : nat := match l with [] => f | _ :: l' => S (S (S (fuel3 l' f))) end.
Fixpoint pre_list (ts : list tok) (o : option (list tok)) : option (list tok) :=
  match ts with [] => o | t :: ts' => pre t (pre_list ts' o) end.

Lemma pre_list_app : forall a b o, pre_list (a ++ b) o = pre_list a (pre_list b o).
Proof. induction a as [|t a IH]; intros; [reflexivity|]. cbn. rewrite IH. reflexivity. Qed.

Definition names_fuel (ns : list str) (f : nat) : nat := match ns with [] => f | _ :: l => S (fuel3 l f) end.
Definition edge_fuel (pks ccs : list str) : nat :=
  S (S (S (S (match pks with [_] => 1 | _ => S (names_fuel pks 1) end +
              match ccs with [] => 0 | _ => S (S (names_fuel ccs 0)) end + 2))))%nat.
