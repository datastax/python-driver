(* A literal is a text that parse_term reads as one term before anything that ends a token ([literal]; [elements] and
   [entries] for the inside of brackets), with one lemma per way of building one; parse_enc builds the encoder's output so. *)
From Coq Require Import String Ascii.
From Coq Require Import ZArith List Bool Lia ZifyBool.
From Verif Require Import CqlKeywords CqlLex EncoderTable Encoder ListFacts C27_proofs.
Import ListNotations.
Local Open Scope Z_scope.

Lemma is_hex_ranges : forall c, is_hex c = is_digit c || (97 <=? c) && (c <=? 102) || (65 <=? c) && (c <=? 70).
Proof.
  intros c. unfold is_hex, unhex. destruct (is_digit c), ((97 <=? c) && (c <=? 102)), ((65 <=? c) && (c <=? 70)); reflexivity.
Qed.

(* ends_ok as the stop predicate of the lexemes below; `rewrite Hr` with [Hr : ends rest] rewrites [ends_ok rest] *)
Definition ends (r : str) : Prop := ends_ok r = true.

(* used through `apply (ends_stops _ H)`, which picks the conjunct the goal names *)
Lemma ends_stops : forall r, ends r -> stops is_digit r /\ stops is_ident_char r /\ stops is_hex r /\ stops (Z.eqb SQ) r.
Proof.
  intros [|c r]; [repeat split|]. unfold ends, ends_ok, stops. rewrite is_hex_ranges.
  unfold is_delim, is_ident_char, is_letter, is_upper, is_lower, is_digit, SQ. lia.
Qed.

Lemma delim_not_number : forall c, is_delim c = true -> (c =? 45) = false /\ (c =? 46) = false /\ (c =? 101) || (c =? 69) = false.
Proof. intros c. unfold is_delim. lia. Qed.

(* what may start a literal (float_head, decimal_head of Props/C29.v): not a blank, a closing bracket or a separator *)
Definition head_ok (s : str) : bool :=
  match s with
  | c :: _ => negb (is_space c) && negb (c =? 93) && negb (c =? 41) && negb (c =? 125) && negb (c =? 44) && negb (c =? 58)
  | [] => false
  end.
Definition scalar_head (s : str) : bool :=
  match s with
  | c :: _ => negb (c =? 91) && negb (c =? 40) && negb (c =? 123)
  | [] => false
  end.

Lemma hex_heads : forall c r, is_hex c = true -> scalar_head (c :: r) = true /\ head_ok (c :: r) = true /\ (c =? SQ) = false.
Proof. intros c r. rewrite is_hex_ranges. unfold is_digit, scalar_head, head_ok, is_space, SQ. lia. Qed.

Lemma digit_facts : forall c, is_digit c = true -> is_hex c = true /\ (c =? 45) = false /\ is_letter c = false.
Proof. intros c. rewrite is_hex_ranges. unfold is_digit, is_letter, is_upper, is_lower. lia. Qed.

Lemma unhex_hexd : forall x, 0 <= x < 16 -> unhex (hexd x) = Some x.
Proof.
  intros x H.
  assert (x = 0 \/ x = 1 \/ x = 2 \/ x = 3 \/ x = 4 \/ x = 5 \/ x = 6 \/ x = 7 \/ x = 8 \/ x = 9 \/ x = 10 \/ x = 11 \/
          x = 12 \/ x = 13 \/ x = 14 \/ x = 15) as Hx by lia.
  repeat (destruct Hx as [-> |Hx]; [reflexivity|]). subst; reflexivity.
Qed.

Lemma byte_nibbles : forall b, is_byte b = true -> 0 <= b / 16 < 16 /\ 0 <= b mod 16 < 16 /\ 16 * (b / 16) + b mod 16 = b.
Proof.
  intros b H. unfold is_byte in H. apply andb_true_iff in H. destruct H as [H1 H2]. apply Z.leb_le in H1. apply Z.ltb_lt in H2.
  pose proof (Z.div_mod b 16). pose proof (Z.mod_pos_bound b 16).
  assert (0 <= b / 16) by (apply Z.div_pos; lia). assert (b / 16 < 16) by (apply Z.div_lt_upper_bound; lia). lia.
Qed.

Lemma unhex_hexlify : forall bs, forallb is_byte bs = true ->
  unhex_pairs (hexlify bs) = Some bs /\ forallb is_hex (hexlify bs) = true.
Proof.
  induction bs as [|b bs IH]; intros H; [split; reflexivity|]. cbn in H. apply andb_true_iff in H. destruct H as [Hb Hbs].
  destruct (byte_nibbles b Hb) as (H1 & H2 & H3). destruct (IH Hbs) as [IH1 IH2].
  change (hexlify (b :: bs)) with (hexd (b / 16) :: hexd (b mod 16) :: hexlify bs). unfold is_hex in *. cbn [unhex_pairs forallb].
  rewrite (unhex_hexd _ H1), (unhex_hexd _ H2), IH1, IH2, H3. split; reflexivity.
Qed.

Definition eats (k : nat) (rd : str -> option str) : Prop :=
  forall s r, rd s = Some r -> length s = (k + length r)%nat /\ forall rest, rd (s ++ rest) = Some (r ++ rest).

Lemma eats_hex : forall n, eats n (all_hex_n n).
Proof.
  induction n as [|n IH]; intros s r H; cbn in *.
  - injection H as ->. split; reflexivity.
  - destruct s as [|c s]; [discriminate|]. cbn. destruct (is_hex c); [|discriminate].
    destruct (IH _ _ H) as [L E]. rewrite L. split; [reflexivity|exact E].
Qed.

Lemma eats_dash : forall k rd, eats k rd -> eats (k + 1) (fun s => dash (rd s)).
Proof.
  intros k rd Hk s r H. destruct (rd s) as [[|c s']|] eqn:E; try discriminate. cbn in H.
  destruct (c =? 45) eqn:Hc; [|discriminate]. injection H as ->. destruct (Hk _ _ E) as [L A].
  split; [rewrite L; cbn; lia|]. intros rest. rewrite A. cbn. rewrite Hc. reflexivity.
Qed.

Lemma eats_bind : forall a b f g, eats a f -> eats b g -> eats (a + b) (fun s => obind (f s) g).
Proof.
  intros a b f g Hf Hg s r H. destruct (f s) as [s1|] eqn:E; [|discriminate]. cbn in H.
  destruct (Hf _ _ E) as [L1 A1], (Hg _ _ H) as [L2 A2]. split; [lia|]. intros rest. rewrite A1. cbn. apply A2.
Qed.

Lemma uuid_eats : eats 36 uuid_split.
Proof.
  exact (eats_bind _ _ _ _ (eats_dash _ _ (eats_hex 8)) (eats_bind _ _ _ _ (eats_dash _ _ (eats_hex 4))
         (eats_bind _ _ _ _ (eats_dash _ _ (eats_hex 4)) (eats_bind _ _ _ _ (eats_dash _ _ (eats_hex 4)) (eats_hex 12))))).
Qed.

Lemma uuid_head : forall text, uuid_shape text = true -> exists c r, text = c :: r /\ is_hex c = true.
Proof.
  intros text H. unfold uuid_shape, uuid_split, obind in H. destruct text as [|c r]; [discriminate|].
  exists c, r. split; [reflexivity|]. cbn in H. destruct (is_hex c); [reflexivity|discriminate].
Qed.

(* for every n (the induction needs all, 8 is used): the run of hex digits ends inside the digits or at the delimiter, and
   neither is a dash *)
Lemma no_group_in_digits : forall n l rest, forallb is_digit l = true -> ends rest ->
  dash (all_hex_n n (l ++ rest)) = None.
Proof.
  induction n as [|n IH]; intros l rest Hl Hr.
  - destruct l as [|d l]; cbn.
    + destruct rest as [|c r]; [reflexivity|]. destruct (delim_not_number c Hr) as (-> & _). reflexivity.
    + cbn in Hl. apply andb_true_iff in Hl. destruct (digit_facts d (proj1 Hl)) as (_ & -> & _). reflexivity.
  - destruct l as [|a l].
    + cbn. destruct rest as [|c r]; [reflexivity|]. apply ends_stops in Hr. cbn in Hr.
      destruct Hr as (_ & _ & Hh & _). rewrite Hh. reflexivity.
    + cbn in Hl. apply andb_true_iff in Hl. destruct Hl as [Ha Hl]. cbn [app all_hex_n].
      destruct (digit_facts a Ha) as (-> & _). apply IH; assumption.
Qed.

Lemma uuid_split_digits : forall l rest, forallb is_digit l = true -> ends rest -> uuid_split (l ++ rest) = None.
Proof. intros l rest Hl Hr. unfold uuid_split. rewrite (no_group_in_digits 8 l rest Hl Hr). reflexivity. Qed.

Lemma str_int_heads : forall z, scalar_head (str_int z) = true /\ head_ok (str_int z) = true.
Proof.
  intros z. destruct (str_int_shape z) as ([|c ds] & [Hd Hne] & _ & ->); [contradiction|]. destruct (z <? 0); [split; reflexivity|].
  cbn in Hd. apply andb_true_iff in Hd. destruct (hex_heads c ds (proj1 (digit_facts c (proj1 Hd)))) as (A & B & _). split; assumption.
Qed.

Lemma lex_number_digits : forall ds rest, numeral ds -> ends rest ->
  lex_number (ds ++ rest) = Some (false, ds, rest) /\ lex_number (45 :: ds ++ rest) = Some (false, 45 :: ds, rest).
Proof.
  intros ds rest [Hd Hne] Hr. pose proof (span_app _ _ _ Hd ltac:(apply (ends_stops _ Hr))) as Hsp.
  destruct ds as [|c ds]; [contradiction|].
  assert (H45 : (c =? 45) = false) by (cbn in Hd; apply andb_true_iff in Hd; apply digit_facts, Hd).
  assert (Ht : match rest with x :: _ => (x =? 46) = false /\ ((x =? 101) || (x =? 69)) = false | [] => True end).
  { destruct rest as [|x rest]; [exact I|]. apply (delim_not_number x Hr). }
  unfold lex_number. cbn [app]. rewrite H45. change (45 =? 45) with true. cbv iota.
  change (c :: ds ++ rest) with ((c :: ds) ++ rest). rewrite Hsp.
  destruct rest as [|x rest].
  - cbn [is_nil andb negb app]. rewrite !app_nil_r. split; reflexivity.
  - destruct Ht as [Hdot Hexp]. rewrite Hdot, Hexp. cbn [is_nil andb negb app]. rewrite !app_nil_r. split; reflexivity.
Qed.

Lemma parse_scalar_int : forall z, lexeme parse_scalar ends (str_int z) (TInt z).
Proof.
  intros z rest Hr. pose proof (integer_printed z rest ltac:(apply (ends_stops _ Hr))) as Hi.
  destruct (str_int_shape z) as (ds & Hn & _ & E). destruct (lex_number_digits ds rest Hn Hr) as [N1 N2]. destruct Hn as [Hd Hne].
  pose proof (uuid_split_digits ds rest Hd Hr) as Hu.
  destruct ds as [|c ds]; [contradiction|]. cbn in Hd. apply andb_true_iff in Hd. destruct Hd as [Hc _].
  destruct (digit_facts c Hc) as (Hx & H45 & Hlet). destruct (hex_heads c ds Hx) as (_ & _ & Hsq).
  (* down the branches of parse_scalar: not a quote, not a UUID, not a word, not a sign before a word; the number token, the
     delimiter after it, lex_integer *)
  unfold parse_scalar. rewrite E in *. destruct (z <? 0); cbn [app] in *.
  - rewrite Hlet, N2, Hr, Hi. reflexivity.
  - rewrite Hsq, Hu, Hlet, H45, N1, Hr, Hi. reflexivity.
Qed.

Lemma parse_scalar_word : forall w rest, word_head w = true ->
  forallb is_ident_char w = true -> ends rest -> uuid_split (w ++ rest) = None ->
  parse_scalar (w ++ rest) =
  let lw := map to_lower w in
  if str_eqb lw (codes "null") then Some (TNull, rest)
  else if str_eqb lw (codes "true") then Some (TBool true, rest)
  else if str_eqb lw (codes "false") then Some (TBool false, rest)
  else if str_eqb lw (codes "nan") then Some (TNan, rest)
  else if str_eqb lw (codes "infinity") then Some (TInf false, rest)
  else None.
Proof.
  intros [|c w] rest Hc Hw Hr Hu; [discriminate|]. change (is_letter c = true) in Hc. destruct (letter_facts c Hc) as (_ & Hsq & _).
  cbn [app] in *. unfold parse_scalar, lex_word. rewrite Hsq, Hu, Hc.
  change (c :: w ++ rest) with ((c :: w) ++ rest). rewrite (span_app _ _ _ Hw) by apply (ends_stops _ Hr). reflexivity.
Qed.

(* used through `apply parse_scalar_const`, which picks the conjunct of the goal's text *)
Lemma parse_scalar_const :
  lexeme parse_scalar ends (codes "NULL") TNull /\ lexeme parse_scalar ends (codes "True") (TBool true) /\
  lexeme parse_scalar ends (codes "False") (TBool false) /\ lexeme parse_scalar ends (codes "NaN") TNan /\
  lexeme parse_scalar ends (codes "Infinity") (TInf false) /\ lexeme parse_scalar ends (codes "-Infinity") (TInf true).
Proof.
  repeat split; intros rest Hr.
  - exact (parse_scalar_word (codes "NULL") rest eq_refl eq_refl Hr eq_refl).
  - exact (parse_scalar_word (codes "True") rest eq_refl eq_refl Hr eq_refl).
  - exact (parse_scalar_word (codes "False") rest eq_refl eq_refl Hr eq_refl).
  - exact (parse_scalar_word (codes "NaN") rest eq_refl eq_refl Hr eq_refl).
  - exact (parse_scalar_word (codes "Infinity") rest eq_refl eq_refl Hr eq_refl).
  - (* by conversion on the concrete prefix, down to the branch of a sign before a letter *)
    change (parse_scalar (codes "-Infinity" ++ rest)) with
    (let '(w, r) := lex_word (codes "Infinity" ++ rest) in
     if str_eqb w (codes "nan") then Some (TNan, r) else if str_eqb w (codes "infinity") then Some (TInf true, r) else None).
    unfold lex_word. rewrite (span_app is_ident_char (codes "Infinity") rest eq_refl) by apply (ends_stops _ Hr). reflexivity.
Qed.

Lemma parse_scalar_str : forall s, lexeme parse_scalar ends (cql_quote s) (TStr s).
Proof.
  intros s rest Hr. pose proof (string_quoted s rest ltac:(apply (ends_stops _ Hr))) as H.
  unfold cql_quote, lex_string in *. cbn [app] in *. unfold parse_scalar. rewrite Z.eqb_refl in *. rewrite H. reflexivity.
Qed.

Lemma parse_scalar_quoted : forall text, no_quote text = true -> lexeme parse_scalar ends (quoted_raw text) (TStr text).
Proof.
  intros text Hn rest Hr. rewrite <- (parse_scalar_str text rest Hr). unfold cql_quote. rewrite (double_q_id SQ text Hn). reflexivity.
Qed.

Lemma parse_scalar_blob : forall bs, forallb is_byte bs = true -> lexeme parse_scalar ends (hex_blob bs) (THex bs).
Proof.
  intros bs Hb rest Hr. destruct (unhex_hexlify bs Hb) as [Hu Hh].
  (* "0x": not a UUID, the INTEGER 0 is not followed by a delimiter, so the hex digits after the x are read *)
  change (parse_scalar (hex_blob bs ++ rest)) with
    (let '(h, r') := span is_hex (hexlify bs ++ rest) in match unhex_pairs h with Some b => Some (THex b, r') | None => None end).
  rewrite (span_app _ _ _ Hh), Hu by apply (ends_stops _ Hr). reflexivity.
Qed.

Lemma parse_scalar_uuid : forall text, uuid_shape text = true -> lexeme parse_scalar ends text (TUuid text).
Proof.
  intros text H rest _. (* a token of fixed width: whatever follows *) destruct (uuid_head text H) as (c & r & Et & Hc). destruct (hex_heads c r Hc) as (_ & _ & Hsq).
  unfold uuid_shape in H. destruct (uuid_split text) as [[|x y]|] eqn:E; try discriminate.
  destruct (uuid_eats text [] E) as [Hl Hs]. specialize (Hs rest). cbn in Hl.
  pose proof (firstn_exact 36 text rest Hl) as Hf.
  rewrite Et in *. cbn [app] in *. unfold parse_scalar. rewrite Hsq, Hs, Hf. reflexivity.
Qed.

Lemma head_ok_app : forall s r, head_ok s = true -> head_ok (s ++ r) = true.
Proof. intros [|c s] r H; [discriminate|exact H]. Qed.

Lemma skip_head : forall s, head_ok s = true -> skip_spaces s = s.
Proof.
  intros [|c s] H; [discriminate|]. unfold skip_spaces. cbn in *.
  destruct (is_space c); [discriminate|reflexivity].
Qed.

Lemma expect_hit : forall c r, is_space c = false -> expect c (c :: r) = Some r.
Proof. intros c r H. unfold expect, skip_spaces. cbn. rewrite H. cbn. rewrite Z.eqb_refl. reflexivity. Qed.

Lemma expect_other : forall c x r, is_space x = false -> (x =? c) = false -> expect c (x :: r) = None.
Proof. intros c x r H E. unfold expect, skip_spaces. cbn. rewrite H. cbn. rewrite E. reflexivity. Qed.

Definition closer (c : Z) : bool := existsb (Z.eqb c) [93; 41; 125].
Definition at_closer (rest : str) : Prop := match rest with c :: _ => closer c = true | [] => False end.

Lemma expect_miss : forall c s, head_ok s = true -> closer c = true -> expect c s = None.
Proof. intros c [|x s] H Hc; [discriminate|]. unfold closer in Hc. cbn in H, Hc. apply expect_other; lia. Qed.

Lemma at_closer_facts : forall rest, at_closer rest -> ends rest /\ expect 44 rest = None /\ expect 58 rest = None.
Proof.
  intros [|c r] H; [destruct H|]. unfold at_closer, closer in H. cbn in H. unfold ends.
  repeat split; [|apply expect_other..]; unfold ends_ok, is_delim, is_space; lia.
Qed.

(* [k] is fuel that suffices, and no more than the length of [x], the fuel parse_one gives. The bounds in the constructor
   lemmas are written as Encoder.need / needs / needm compute them (hence [Nat.max a 0] for a last element), so that
   parse_enc matches them by conversion. *)
Definition literal (k : nat) (x : str) (t : term) : Prop :=
  head_ok x = true /\ (k <= length x)%nat /\
  forall fuel rest, (k <= fuel)%nat -> ends rest -> parse_term fuel (x ++ rest) = Some (t, rest).

(* a set literal is told from a map literal by parse_entries failing on it: the second conjunct *)
Definition elements (k : nat) (x : str) (ts : terms) : Prop :=
  head_ok x = true /\ (k <= S (length x))%nat /\
  forall fuel rest, (k <= fuel)%nat -> at_closer rest ->
  parse_elems fuel (x ++ rest) = Some (ts, rest) /\ parse_entries fuel (x ++ rest) = None.

Definition entries (k : nat) (x : str) (m : tmap) : Prop :=
  head_ok x = true /\ (k <= S (length x))%nat /\
  forall fuel rest, (k <= fuel)%nat -> at_closer rest -> parse_entries fuel (x ++ rest) = Some (m, rest).

(* the shape of the assumed laws of Python's printing *)
Lemma literal_any : forall x t, head_ok x = true ->
  (forall fuel rest, ends rest -> parse_term (S fuel) (x ++ rest) = Some (t, rest)) -> literal 1 x t.
Proof.
  intros x t Hh H. split; [exact Hh|]. split; [destruct x; [discriminate Hh|cbn; lia]|].
  intros [|fuel] rest Hf Hr; [inversion Hf|apply H, Hr].
Qed.

Lemma literal_scalar : forall s t, scalar_head s = true -> head_ok s = true -> lexeme parse_scalar ends s t -> literal 1 s t.
Proof.
  intros s t Hs Hh H. apply literal_any; [exact Hh|]. intros fuel rest Hr. specialize (H rest Hr).
  destruct s as [|c s]; [discriminate|]. cbn [app] in *. cbn in Hs.
  apply andb_true_iff in Hs. destruct Hs as [Hs H123]. apply andb_true_iff in Hs. destruct Hs as [H91 H40].
  apply negb_true_iff in H91, H40, H123. cbn [parse_term]. rewrite H91, H40, H123, H, Hr. reflexivity.
Qed.

Lemma literal_int : forall z, literal 1 (str_int z) (TInt z).
Proof. intros z. destruct (str_int_heads z). apply literal_scalar; [assumption|assumption|apply parse_scalar_int]. Qed.

Lemma literal_sep : forall k x t c X fuel, literal k x t -> c = 44 \/ c = 58 -> head_ok X = true -> (k <= fuel)%nat ->
  parse_term fuel (x ++ c :: 32 :: X) = Some (t, c :: 32 :: X) /\
  expect c (c :: 32 :: X) = Some (32 :: X) /\ skip_spaces (32 :: X) = X.
Proof.
  intros k x t c X fuel Lx Hc HX Hf. repeat split.
  - apply (proj2 (proj2 Lx)); [exact Hf|]. destruct Hc as [-> | ->]; reflexivity.
  - destruct Hc as [-> | ->]; reflexivity.
  - rewrite <- (skip_head X HX) at 2. unfold skip_spaces. cbn [span]. change (is_space 32) with true. cbv iota.
    destruct (span is_space X). reflexivity.
Qed.

Lemma elements_one : forall a x t, literal a x t -> elements (S (Nat.max a 0)) x (TCons t TNil).
Proof.
  intros a x t (Hh & Hk & Hx). split; [exact Hh|]. split; [lia|]. intros [|fuel] rest Hf Hc; [inversion Hf|].
  destruct (at_closer_facts _ Hc) as (Hr & H44 & H58).
  cbn [parse_elems parse_entries]. rewrite (Hx fuel rest), H44, H58 by (assumption || lia). split; reflexivity.
Qed.

Lemma elements_cons : forall a b x t y ts, literal a x t -> elements b y ts ->
  elements (S (Nat.max a b)) (x ++ sep ++ y) (TCons t ts).
Proof.
  intros a b x t y ts Lx Ly. split; [apply head_ok_app, Lx|].
  split; [rewrite !app_length; cbn [sep kvsep length]; pose proof (proj1 (proj2 Lx)); pose proof (proj1 (proj2 Ly)); lia|].
  intros [|fuel] rest Hf Hc; [inversion Hf|].
  destruct (proj2 (proj2 Ly) fuel rest ltac:(lia) Hc) as [Ey _].
  destruct (literal_sep a x t 44 (y ++ rest) fuel Lx) as (Ex & E1 & E2); [auto|apply head_ok_app, Ly|lia|].
  rewrite <- !app_assoc. cbn [parse_elems parse_entries]. cbn [sep app].
  rewrite Ex, E1, E2, Ey, (expect_other 58 44) by reflexivity. split; reflexivity.
Qed.

Lemma entries_one : forall a b x k y v, literal a x k -> literal b y v ->
  entries (S (Nat.max a (Nat.max b 0))) (x ++ kvsep ++ y) (TMCons k v TMNil).
Proof.
  intros a b x k y v Lx Ly. split; [apply head_ok_app, Lx|].
  split; [rewrite !app_length; cbn [sep kvsep length]; pose proof (proj1 (proj2 Lx)); pose proof (proj1 (proj2 Ly)); lia|].
  intros [|fuel] rest Hf Hc; [inversion Hf|].
  destruct (at_closer_facts _ Hc) as (Hr & H44 & _). pose proof (proj2 (proj2 Ly) fuel rest ltac:(lia) Hr) as Ey.
  destruct (literal_sep a x k 58 (y ++ rest) fuel Lx) as (Ex & E1 & E2); [auto|apply head_ok_app, Ly|lia|].
  rewrite <- !app_assoc. cbn [parse_entries]. cbn [kvsep app]. rewrite Ex, E1, E2, Ey, H44. reflexivity.
Qed.

Lemma entries_cons : forall a b c x k y v z m, literal a x k -> literal b y v -> entries c z m ->
  entries (S (Nat.max a (Nat.max b c))) (x ++ kvsep ++ y ++ sep ++ z) (TMCons k v m).
Proof.
  intros a b c x k y v z m Lx Ly Lz. split; [apply head_ok_app, Lx|].
  split; [rewrite !app_length; cbn [sep kvsep length]; pose proof (proj1 (proj2 Lx)); pose proof (proj1 (proj2 Ly)); pose proof (proj1 (proj2 Lz)); lia|].
  intros [|fuel] rest Hf Hc; [inversion Hf|].
  pose proof (proj2 (proj2 Lz) fuel rest ltac:(lia) Hc) as Ez.
  destruct (literal_sep b y v 44 (z ++ rest) fuel Ly) as (Ey & E3 & E4); [auto|apply head_ok_app, Lz|lia|].
  destruct (literal_sep a x k 58 (y ++ 44 :: 32 :: z ++ rest) fuel Lx) as (Ex & E1 & E2); [auto|apply head_ok_app, Ly|lia|].
  rewrite <- !app_assoc. cbn [parse_entries]. cbn [kvsep sep app]. rewrite Ex, E1, E2, Ey, E3, E4, Ez. reflexivity.
Qed.

Lemma literal_empty : literal 1 [91; 93] (TList TNil) /\ literal 1 [40; 41] (TTuple TNil) /\ literal 1 [123; 125] (TBraces TNil).
Proof. split; [|split]; (apply literal_any; [reflexivity|intros fuel rest Hr; reflexivity]). Qed.

Lemma literal_elements : forall k x ts, elements k x ts ->
  literal (S k) (91 :: x ++ [93]) (TList ts) /\ literal (S k) (40 :: x ++ [41]) (TTuple ts) /\
  literal (S k) (123 :: x ++ [125]) (TBraces ts).
Proof.
  intros k x ts (Hh & Hk & Hx).
  split; [|split]; (split; [reflexivity|split; [cbn [length]; rewrite app_length; cbn [length]; lia|]]);
    (intros [|f] rest Hf Hr; [inversion Hf|]); apply le_S_n in Hf;
    rewrite <- app_comm_cons, <- app_assoc; cbn [app parse_term Z.eqb Pos.eqb];
    rewrite expect_miss, skip_head by (reflexivity || apply head_ok_app, Hh).
  - destruct (Hx f (93 :: rest)) as [-> _]; [exact Hf|reflexivity|]. rewrite expect_hit by reflexivity. reflexivity.
  - destruct (Hx f (41 :: rest)) as [-> _]; [exact Hf|reflexivity|]. rewrite expect_hit by reflexivity. reflexivity.
  - destruct (Hx f (125 :: rest)) as [-> ->]; [exact Hf|reflexivity|]. rewrite expect_hit by reflexivity. reflexivity.
Qed.

Lemma literal_entries : forall k x m, entries k x m -> literal (S k) (123 :: x ++ [125]) (TMap m).
Proof.
  intros k x m (Hh & Hk & Hx). split; [reflexivity|]. split; [cbn [length]; rewrite app_length; cbn [length]; lia|].
  intros [|f] rest Hf Hr; [inversion Hf|]. apply le_S_n in Hf.
  rewrite <- app_comm_cons, <- app_assoc. cbn [app parse_term Z.eqb Pos.eqb].
  rewrite expect_miss, skip_head by (reflexivity || apply head_ok_app, Hh).
  rewrite (Hx f (125 :: rest) Hf) by reflexivity. rewrite expect_hit by reflexivity. reflexivity.
Qed.

Scheme pv_ind' := Induction for Encoder.pv Sort Prop
  with pvs_ind' := Induction for Encoder.pvs Sort Prop
  with pvm_ind' := Induction for Encoder.pvm Sort Prop.
Combined Scheme pv_mutind from pv_ind', pvs_ind', pvm_ind'.

(* the equations of the nested fixpoints, stated with the constants (cbn would expose the inner mutual fix) *)
Section Equations.
Variable F : Type.
Variable repr_float : F -> str.
Variable str_decimal : bool -> Z -> Z -> str.
Variable dec_to_float : bool -> Z -> Z -> fval F.
Variables exact via_float : bool.
Notation enc := (encode F repr_float str_decimal dec_to_float exact via_float).
Notation enc_elems := (encode_elems F repr_float str_decimal dec_to_float exact via_float).
Notation enc_entries := (encode_entries F repr_float str_decimal dec_to_float exact via_float).

Lemma enc_seq : forall sub k l, enc (VSeq sub k l) =
  if exact && sub then codes "<python repr>"
  else match k with SValueSeq => 40 :: enc_elems l ++ [41] | _ => 91 :: enc_elems l ++ [93] end.
Proof. reflexivity. Qed.
Lemma enc_set : forall sub l, enc (VSet sub l) = if exact && sub then codes "<python repr>" else 123 :: enc_elems l ++ [125].
Proof. reflexivity. Qed.
Lemma enc_map : forall sub l, enc (VMap sub l) = if exact && sub then codes "<python repr>" else 123 :: enc_entries l ++ [125].
Proof. reflexivity. Qed.
Lemma enc_elems_cons : forall v l, enc_elems (PCons v l) =
  match l with PNil => enc v | PCons _ _ => enc v ++ sep ++ enc_elems l end.
Proof. reflexivity. Qed.
Lemma enc_entries_cons : forall k v l, enc_entries (MCons k v l) =
  match l with MNil => enc k ++ kvsep ++ enc v | MCons _ _ _ => enc k ++ kvsep ++ enc v ++ sep ++ enc_entries l end.
Proof. reflexivity. Qed.
End Equations.

Section Enc.
Variable F : Type.
Variable repr_float : F -> str.
Variable read_float : str -> option F.
Variable str_decimal : bool -> Z -> Z -> str.
Variable dec_to_float : bool -> Z -> Z -> fval F.

(* the assumed laws of Python's printing, word for word as in Props/C29.v ([ends_ok rest = true] is [ends rest]) *)
Hypothesis float_parses : forall f fuel rest, ends_ok rest = true ->
  parse_term (S fuel) (repr_float f ++ rest) = Some (TFloat (repr_float f), rest).
Hypothesis float_reads : forall f, read_float (repr_float f) = Some f.
Hypothesis float_head : forall f, head_ok (repr_float f) = true.
Hypothesis decimal_parses : forall neg c e fuel rest, 0 <= c -> ends_ok rest = true ->
  parse_term (S fuel) (str_decimal neg c e ++ rest) =
  Some (if e =? 0 then TInt (if neg then - c else c) else TFloat (str_decimal neg c e), rest).
Hypothesis decimal_reads : forall neg c e, 0 <= c -> e <> 0 ->
  read_decimal (str_decimal neg c e) = Some (if neg then - c else c, - e).
Hypothesis decimal_head : forall neg c e, 0 <= c -> head_ok (str_decimal neg c e) = true.

Notation pv := (pv F).
Notation pvs := (pvs F).
Notation pvm := (pvm F).
Notation enc := (encode F repr_float str_decimal dec_to_float false false).
Notation enc_elems := (encode_elems F repr_float str_decimal dec_to_float false false).
Notation enc_entries := (encode_entries F repr_float str_decimal dec_to_float false false).
Notation tm := (term_of F repr_float str_decimal).
Notation tms := (terms_of F repr_float str_decimal).
Notation tmm := (tmap_of F repr_float str_decimal).

Definition scalar (v : pv) : bool := match v with VSeq _ _ _ | VSet _ _ | VMap _ _ => false | _ => true end.

Lemma enc_scalar : forall v, scalar v = true -> supported F v = true -> literal 1 (enc v) (tm v).
Proof.
  intros v Hv Hs.
  destruct v as [|b|sub z|sub f|sub neg c e|sub s|sub bs|sub text|sub k text|sub ms|d|sub k l|sub l|sub l];
    try discriminate Hv; cbn [encode term_of andb orb negb];
    try apply literal_int. (* VInt, VTimestamp, VDateExt *)
  - (* VNone *) apply literal_scalar; [reflexivity|reflexivity|apply parse_scalar_const].
  - destruct b; (apply literal_scalar; [reflexivity|reflexivity|apply parse_scalar_const]).
  - destruct f as [|[|]|f]; cbn [encode_float];
      try (apply literal_scalar; [reflexivity|reflexivity|apply parse_scalar_const]).
    apply literal_any; [apply float_head|intros; apply float_parses; assumption].
  - apply Z.leb_le in Hs. apply literal_any; [apply decimal_head, Hs|intros; apply decimal_parses; assumption].
  - apply literal_scalar; [reflexivity|reflexivity|apply parse_scalar_str].
  - apply literal_scalar; [reflexivity|reflexivity|apply parse_scalar_blob, Hs].
  - destruct (uuid_head text Hs) as (c & r & E & Hc). destruct (hex_heads c r Hc) as (A & B & _). rewrite <- E in A, B.
    apply literal_scalar; [exact A|exact B|apply parse_scalar_uuid, Hs].
  - apply literal_scalar; [reflexivity|reflexivity|apply parse_scalar_quoted, Hs].
Qed.

Lemma parse_enc :
  (forall v, supported F v = true -> literal (need F v) (enc v) (tm v)) /\
  (forall l, supporteds F l = true -> l <> PNil -> elements (needs F l) (enc_elems l) (tms l)) /\
  (forall l, supportedm F l = true -> l <> MNil -> entries (needm F l) (enc_entries l) (tmm l)).
Proof.
  apply pv_mutind.
  (* the eleven constructors of scalars first *)
  1-11: intros; apply enc_scalar; auto.
  - intros sub k l IH Hs. rewrite enc_seq. destruct l as [|v l]; [destruct k; apply literal_empty|].
    destruct (literal_elements _ _ _ (IH Hs ltac:(discriminate))) as (A & B & _). destruct k; assumption.
  - intros sub l IH Hs. rewrite enc_set. destruct l as [|v l]; [apply literal_empty|].
    apply (literal_elements _ _ _ (IH Hs ltac:(discriminate))).
  - intros sub l IH Hs. rewrite enc_map. destruct l as [|k v l]; [apply literal_empty|].
    apply literal_entries, (IH Hs). discriminate.
  - (* PNil *) intros _ H. contradiction.
  - intros v IHv l IHl Hs _. cbn in Hs. apply andb_true_iff in Hs. destruct Hs as [Hv Hl]. rewrite enc_elems_cons.
    destruct l as [|v2 l2]; [apply elements_one, IHv, Hv|apply elements_cons; [apply IHv, Hv|apply IHl; [exact Hl|discriminate]]].
  - (* MNil *) intros _ H. contradiction.
  - intros k IHk v IHv l IHl Hs _. cbn in Hs. apply andb_true_iff in Hs. destruct Hs as [Hs Hl].
    apply andb_true_iff in Hs. destruct Hs as [Hk Hv]. rewrite enc_entries_cons.
    destruct l as [|k2 v2 l2]; [apply entries_one; auto|apply entries_cons; [auto|auto|apply IHl; [exact Hl|discriminate]]].
Qed.

Lemma need_le_len : forall v, supported F v = true -> (need F v <= length (enc v))%nat.
Proof. intros v Hs. exact (proj1 (proj2 (proj1 parse_enc v Hs))). Qed.

Lemma parse_literal : forall v rest, supported F v = true -> ends rest ->
  parse_term (S (length (enc v))) (enc v ++ rest) = Some (tm v, rest).
Proof.
  intros v rest Hs Hr. destruct (proj1 parse_enc v Hs) as (_ & Hk & Hx). apply Hx; [exact (le_S _ _ Hk)|exact Hr].
Qed.

Notation den := (denote F read_float).
Notation den_list := (denote_list F read_float).
Notation den_map := (denote_map F read_float).

(* in the collection cases both sides are convertible to a match on the denotations of the components *)
Lemma denote_term_of :
  (forall v : pv, supported F v = true -> den (kind_of F v) (tm v) = Some (prepared F v)) /\
  (forall l : pvs, supporteds F l = true -> den_list (kinds_of F l) (tms l) = Some (prepared_list F l)) /\
  (forall l : pvm, supportedm F l = true -> den_map (kmap_of F l) (tmm l) = Some (prepared_map F l)).
Proof.
  apply pv_mutind; try (intros; reflexivity). (* the other scalars, PNil and MNil compute *)
  - intros sub [|n|f] _; try reflexivity. cbn. rewrite float_reads. reflexivity.
  - intros sub neg c e Hs. cbn in Hs. apply Z.leb_le in Hs. cbn [kind_of term_of prepared].
    destruct (e =? 0) eqn:E.
    + apply Z.eqb_eq in E. subst e. reflexivity.
    + apply Z.eqb_neq in E. cbn [denote]. rewrite (decimal_reads neg c e Hs E). reflexivity.
  - intros sub k l IH Hs. specialize (IH Hs).
    destruct k; [exact (f_equal (option_map (@CList F)) IH)|exact (f_equal (option_map (@CList F)) IH)|exact (f_equal (option_map (@CTuple F)) IH)].
  - intros sub l IH Hs. exact (f_equal (option_map (@CSet F)) (IH Hs)).
  - intros sub l IH Hs. destruct l as [|k v l']; [reflexivity|]. exact (f_equal (option_map (@CMap F)) (IH Hs)).
  - intros v IHv l IHl Hs. cbn in Hs. apply andb_true_iff in Hs. destruct Hs as [Hv Hl].
    change (match den (kind_of F v) (tm v), den_list (kinds_of F l) (tms l) with Some c, Some l0 => Some (c :: l0) | _, _ => None end
            = Some (prepared F v :: prepared_list F l)).
    rewrite (IHv Hv), (IHl Hl). reflexivity.
  - intros k IHk v IHv l IHl Hs. cbn in Hs. apply andb_true_iff in Hs. destruct Hs as [Hs Hl].
    apply andb_true_iff in Hs. destruct Hs as [Hk Hv].
    change (match den (kind_of F k) (tm k), den (kind_of F v) (tm v), den_map (kmap_of F l) (tmm l) with
            | Some a, Some b, Some l0 => Some ((a, b) :: l0) | _, _, _ => None end = Some ((prepared F k, prepared F v) :: prepared_map F l)).
    rewrite (IHk Hk), (IHv Hv), (IHl Hl). reflexivity.
Qed.

Notation encode_with := (encode F repr_float str_decimal dec_to_float).
Notation elems_with := (encode_elems F repr_float str_decimal dec_to_float).
Notation entries_with := (encode_entries F repr_float str_decimal dec_to_float).

Lemma exact_same : forall vf,
  (forall v, no_sub F v = true -> encode_with true vf v = encode_with false vf v) /\
  (forall l, no_subs F l = true -> elems_with true vf l = elems_with false vf l) /\
  (forall l, no_subm F l = true -> entries_with true vf l = entries_with false vf l).
Proof.
  intros vf. apply pv_mutind; try (intros; reflexivity). (* VNone, VBool, VInt, VUuid, VDateExt, PNil, MNil *)
  (* VFloat, VDecimal, VStr, VBytes, VQuoted, VTimestamp: sub is false *)
  1-6: intros * H; cbn in H; apply negb_true_iff in H; subst; reflexivity.
  - intros sub k l IH H. cbn in H. apply andb_true_iff in H. destruct H as [H Hl]. apply negb_true_iff in H. subst.
    rewrite !enc_seq, (IH Hl). reflexivity.
  - intros sub l IH H. cbn in H. apply andb_true_iff in H. destruct H as [H Hl]. apply negb_true_iff in H. subst.
    rewrite !enc_set, (IH Hl). reflexivity.
  - intros sub l IH H. cbn in H. apply andb_true_iff in H. destruct H as [H Hl]. apply negb_true_iff in H. subst.
    rewrite !enc_map, (IH Hl). reflexivity.
  - intros v IHv l IHl H. cbn in H. apply andb_true_iff in H. destruct H as [Hv Hl].
    rewrite !enc_elems_cons, (IHv Hv), (IHl Hl). reflexivity.
  - intros k IHk v IHv l IHl H. cbn in H. apply andb_true_iff in H. destruct H as [H Hl]. apply andb_true_iff in H. destruct H as [Hk Hv].
    rewrite !enc_entries_cons, (IHk Hk), (IHv Hv), (IHl Hl). reflexivity.
Qed.
End Enc.
