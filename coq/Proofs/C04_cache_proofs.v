(* With the subtypes test on, a hit in the UDT class cache (UserType._cache) equals the class asked for, so intern returns its
   argument whatever the cache holds; intern_rmsg also recomputes column_types, to what rd_rows had put there (rmsg_consistent). *)
From Coq Require Import ZArith List Bool.
From Verif Require Import Response ResponseSpec C04_proofs.
Import ListNotations.
Local Open Scope Z_scope.

Section cqlt_induction.
  Variable Q : cqlt -> Prop.
  Hypothesis Hcustom : forall s, Q (TCustom s).
  Hypothesis Hprim : forall c, Q (TPrim c).
  Hypothesis Hlist : forall t, Q t -> Q (TList t).
  Hypothesis Hset : forall t, Q t -> Q (TSet t).
  Hypothesis Hmap : forall k v, Q k -> Q v -> Q (TMap k v).
  Hypothesis Hudt : forall ks nm fs, Forall (fun p => Q (snd p)) fs -> Q (TUdt ks nm fs).
  Hypothesis Htuple : forall ts, Forall Q ts -> Q (TTuple ts).

  Fixpoint cqlt_ind' (t : cqlt) : Q t :=
    match t with
    | TCustom s => Hcustom s
    | TPrim c => Hprim c
    | TList e => Hlist e (cqlt_ind' e)
    | TSet e => Hset e (cqlt_ind' e)
    | TMap k v => Hmap k v (cqlt_ind' k) (cqlt_ind' v)
    | TUdt ks nm fs =>
      Hudt ks nm fs ((fix go (l : list (str * cqlt)) : Forall (fun p => Q (snd p)) l :=
                        match l with
                        | [] => Forall_nil _
                        | p :: r => Forall_cons p (cqlt_ind' (snd p)) (go r)
                        end) fs)
    | TTuple ts =>
      Htuple ts ((fix go (l : list cqlt) : Forall Q l :=
                    match l with
                    | [] => Forall_nil _
                    | x :: r => Forall_cons x (cqlt_ind' x) (go r)
                    end) ts)
    end.
End cqlt_induction.

Lemma lst_eqb_eq : forall {A} (e : A -> A -> bool) (a b : list A),
  Forall (fun x => forall y, e x y = true -> x = y) a -> lst_eqb e a b = true -> a = b.
Proof.
  intros A e a b H. revert b. induction H as [|x a Hx _ IH]; intros [|y b] E; cbn in E; try discriminate; [reflexivity|].
  apply andb_prop in E. destruct E as [E1 E2]. f_equal; auto.
Qed.

Lemma cqlt_eqb_eq : forall a b, cqlt_eqb a b = true -> a = b.
Proof.
  induction a using cqlt_ind'; intros [] E; cbn [cqlt_eqb] in E; try discriminate.
  - apply list_eqb_eq in E. subst. reflexivity.
  - apply Z.eqb_eq in E. subst. reflexivity.
  - f_equal. auto.
  - f_equal. auto.
  - apply andb_prop in E. destruct E. f_equal; auto.
  - apply andb_prop in E. destruct E as [E E3]. apply andb_prop in E. destruct E as [E1 E2].
    apply list_eqb_eq in E1. apply list_eqb_eq in E2. subst. f_equal.
    refine (lst_eqb_eq _ _ _ (Forall_impl _ _ H) E3). intros [n t] IHt [n' t'] Q. cbn [fst snd] in *.
    apply andb_prop in Q. destruct Q as [Q1 Q2]. apply list_eqb_eq in Q1. subst. f_equal. auto.
  - f_equal. exact (lst_eqb_eq _ _ _ H E).
Qed.

Lemma map_fst_snd_eq : forall {A B} (a b : list (A * B)), map fst a = map fst b -> map snd a = map snd b -> a = b.
Proof.
  induction a as [|[x y] a IH]; intros [|[x' y'] b] F S; cbn in *; try discriminate; [reflexivity|].
  inversion F. inversion S. f_equal. auto.
Qed.

Lemma make_udt_class_exact : forall c ks nm fs, exists c', make_udt_class true c ks nm fs = (TUdt ks nm fs, c').
Proof.
  intros. unfold make_udt_class. destruct (cache_get c ks nm) as [inst|]; [|eauto].
  destruct (lst_eqb list_eqb (map fst inst) (map fst fs) && (negb true || lst_eqb cqlt_eqb (map snd inst) (map snd fs))) eqn:E;
    [|eauto].
  apply andb_prop in E. destruct E as [E1 E2]. cbn [negb orb] in E2. exists c. do 2 f_equal.
  apply map_fst_snd_eq.
  - refine (lst_eqb_eq _ _ _ _ E1). apply Forall_forall. intros x _. apply list_eqb_eq.
  - refine (lst_eqb_eq _ _ _ _ E2). apply Forall_forall. intros x _. apply cqlt_eqb_eq.
Qed.

Lemma map_st_id : forall {A S} (f : S -> A -> A * S) l,
  Forall (fun x => forall s, exists s', f s x = (x, s')) l -> forall s, exists s', map_st f s l = (l, s').
Proof.
  intros A S f l H. induction H as [|x l Hx _ IH]; intros s; [eexists; reflexivity|].
  change (map_st f s (x :: l)) with (let (y, s1) := f s x in let (r', s2) := map_st f s1 l in (y :: r', s2)).
  destruct (Hx s) as [s1 ->]. destruct (IH s1) as [s2 ->]. eauto.
Qed.

Lemma intern_id : forall t c, exists c', intern true c t = (t, c').
Proof.
  induction t using cqlt_ind'; intros c0; cbn [intern]; eauto.
  - destruct (IHt c0) as [c1 ->]. eauto.
  - destruct (IHt c0) as [c1 ->]. eauto.
  - destruct (IHt1 c0) as [c1 ->]. destruct (IHt2 c1) as [c2 ->]. eauto.
  - destruct (map_st_id (fun c p => let (t', c1) := intern true c (snd p) in ((fst p, t'), c1)) fs) with (s := c0) as [c1 ->].
    + refine (Forall_impl _ _ H). intros [n t] IHt s. destruct (IHt s) as [s' ->]. eauto.
    + apply make_udt_class_exact.
  - destruct (map_st_id _ _ H c0) as [c1 ->]. eauto.
Qed.

Lemma intern_cols_id : forall l c, exists c', intern_cols true c l = (l, c').
Proof.
  intros l. apply map_st_id, Forall_forall. intros [k t n ty] _ s. cbn [c_type].
  destruct (intern_id ty s) as [s' ->]. eauto.
Qed.

Lemma intern_ocols_id : forall o c, exists c', intern_ocols true c o = (o, c').
Proof. intros [l|] c; cbn [intern_ocols]; [destruct (intern_cols_id l c) as [c' ->]|]; eauto. Qed.

(* the one case in which intern_rmsg recomputes column_types: it must find what it would put *)
Definition rmsg_consistent (r : rmsg) : Prop :=
  match r_coltypes r, r_colmeta r with Some ts, Some (x :: l) => ts = map c_type (x :: l) | _, _ => True end.

Lemma intern_rmsg_id : forall r c, rmsg_consistent r -> exists c', intern_rmsg true c r = (r, c').
Proof.
  intros r c K. unfold intern_rmsg.
  destruct (intern_ocols_id (r_bind r) c) as [c1 ->]. destruct (intern_ocols_id (r_colmeta r) c1) as [c2 ->].
  exists c2. unfold rmsg_consistent in K. destruct r. cbn in *.
  destruct r_coltypes as [ts|]; [|reflexivity]. destruct r_colmeta as [[|x l]|]; try reflexivity. subst ts. reflexivity.
Qed.

Lemma pbind_inv : forall {A B} (p : P A) (f : A -> P B) l r,
  pbind p f l = Some r -> exists a l', p l = Some (a, l') /\ f a l' = Some r.
Proof. intros A B p f l r H. unfold pbind in H. destruct (p l) as [[a l']|]; [eauto|discriminate]. Qed.

Ltac unbind H := repeat (apply pbind_inv in H; destruct H as (? & ? & ? & H)).

(* whatever bytes it is given, recv_results_rows sets column_types from the column_metadata it has just set *)
Lemma rd_rows_consistent : forall rm l r l', rd_rows rm l = Some (r, l') -> rmsg_consistent r.
Proof.
  intros rm l r l' H. unfold rd_rows in H. unbind H. cbv zeta in H. unbind H.
  (* column_metadata empty or absent: the columns are rm's and rmsg_consistent asks nothing; c :: cs: column_types is its map *)
  match type of H with context [mo_cols ?mo] => destruct (mo_cols mo) as [[|c cs]|] end.
  - destruct rm as [cols|]; [|discriminate H]. unbind H. injection H as <- _. exact I.
  - unbind H. injection H as <- _. reflexivity.
  - destruct rm as [cols|]; [|discriminate H]. unbind H. injection H as <- _. exact I.
Qed.

(* the other kinds of result leave column_types unset *)
Lemma rd_result_consistent : forall pv rm l r l', rd_result pv rm l = Some (r, l') -> rmsg_consistent r.
Proof.
  intros pv rm l r l' H. unfold rd_result in H. apply pbind_inv in H. destruct H as (kind & l1 & _ & H).
  destruct (kind =? 1); [injection H as <- _; exact I|].
  destruct (kind =? 2); [exact (rd_rows_consistent _ _ _ _ H)|].
  destruct (kind =? 3); [unbind H; injection H as <- _; exact I|].
  destruct (kind =? 4); [unfold rd_prepared in H; unbind H; injection H as <- _; exact I|].
  destruct (kind =? 5); [unbind H; injection H as <- _; exact I|discriminate H].
Qed.

Lemma rd_body_consistent : forall pv rm op l r l', rd_body pv rm op l = Some (BResult r, l') -> rmsg_consistent r.
Proof.
  intros pv rm op l r l' H. unfold rd_body in H.
  repeat match type of H with (if ?c then _ else _) _ = _ => destruct c end; unbind H.
  5: { injection H as <- _. eapply rd_result_consistent; eassumption. }
  all: try destruct (dict_pop _ _) as [[? ?]|]; discriminate H.
Qed.

Lemma decode_st_any : forall c pv rm stream flags opcode body,
  fst (decode_message_st true c pv rm stream flags opcode body) = decode_message pv rm stream flags opcode body.
Proof.
  intros. unfold decode_message_st. destruct (decode_message pv rm stream flags opcode body) as [m|] eqn:D; [|reflexivity].
  destruct (m_body m) as [| | | |r| | |] eqn:B; try reflexivity.
  assert (K : rmsg_consistent r).
  { unfold decode_message in D. destruct (_ && _); [discriminate|].
    match type of D with match ?p body with _ => _ end = _ => destruct (p body) as [[m' l]|] eqn:E; [|discriminate] end.
    injection D as ->. unbind E. injection E as <- _. cbn [m_body] in B. subst. eapply rd_body_consistent; eassumption. }
  destruct (intern_rmsg_id r c K) as [c' ->]. destruct m as [s t w p b]. cbn [m_body] in B. subst b. reflexivity.
Qed.

Definition frame_of (pv : Z) (rm : option (list colspec)) (stream : Z) (r : response) : frame :=
  mkframe pv rm stream (spec_flags r) (spec_opcode r) (spec_body pv r).

Lemma history_any : forall fs c,
  decode_history true c fs
  = map (fun f => decode_message (f_pv f) (f_rm f) (f_stream f) (f_flags f) (f_opcode f) (f_body f)) fs.
Proof.
  induction fs as [|f fs IH]; intros c; [reflexivity|]. cbn [decode_history map].
  pose proof (decode_st_any c (f_pv f) (f_rm f) (f_stream f) (f_flags f) (f_opcode f) (f_body f)) as D.
  destruct (decode_message_st true c _ _ _ _ _ _) as [m c']. cbn [fst] in D. subst m. f_equal. apply IH.
Qed.
