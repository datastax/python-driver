From Coq Require Import ZArith List.
From Verif Require Import FutB ListFacts FutB_lemmas FutB_steps FutB_origin.
Import ListNotations.
Local Open Scope Z_scope.

Section Moves.
Variables (K : host -> Prop) (Q : task -> Prop) (E : event -> Prop) (F : list host -> Prop).

Lemma reach_plan_move s s' ev : reach K Q E nothing s s' ev -> plan_move s s' ev.
Proof.
  revert s s' ev. apply reach_rel.
  - intros s. apply plan_move_id; reflexivity.
  - exact plan_move_trans.
  - intros s s' ev P.
    destruct P as [h rest p e Pl|h rest p Pl| | |h m cz Nc _ _| | | | | | | | | | |pl Fp];
      try (apply plan_move_id; reflexivity).
    + (* P_skip *) apply (Build_plan_move _ _ _ [h]); [reflexivity|exact Pl|apply subseq_nil_l].
    + (* P_plan_sent *) apply (Build_plan_move _ _ _ [h]); [reflexivity|exact Pl|apply subseq_refl].
    + (* P_sent *) apply plan_move_id; try reflexivity. destruct cz; try reflexivity. congruence.
    + (* P_fresh *) destruct Fp.
Qed.

Definition known_consumed (s : state) : Prop := (forall h, K h -> In h (consumed s)) /\ all_consumed s.

(* a move mentions at most one new host: the one it takes from the plan, or a named one *)
Lemma known_one_more s s' h : known_consumed s ->
  (forall x, In x (hosts_of s' []) -> x = h \/ In x (hosts_of s [])) ->
  incl (consumed s) (consumed s') -> K h \/ In h (consumed s') -> known_consumed s'.
Proof.
  intros [Kc A] M C N. assert (Kc' : forall x, K x -> In x (consumed s')) by auto. split; [exact Kc'|].
  intros x Hx. destruct (M x Hx) as [->|G]; [destruct N as [N|N]; [exact (Kc' _ N)|exact N]|apply C, A, G].
Qed.

Lemma reach_known s s' ev : reach K Q E F s s' ev -> known_consumed s -> known_consumed s'.
Proof.
  apply reach_keeps. clear. intros s s' e P I.
  destruct P as [h rest p e Pl|h rest p Pl| |h e N|h m cz _ N _| | | |t Kt _| | | | |i a _ Ka|k t _ Kt|]; try exact I.
  - (* P_skip *)
    apply (known_one_more s _ h I); [exact (hosts_set_err _ h e [])|apply incl_appl, incl_refl|].
    right. apply in_elt.
  - (* P_plan_sent *)
    apply (known_one_more s _ h I); [exact (hosts_add_attempt _ h false [])|apply incl_appl, incl_refl|].
    right. apply in_elt.
  - (* P_err *) apply (known_one_more s _ h I); [exact (hosts_set_err s h e [])|apply incl_refl|left; exact N].
  - (* P_sent *) apply (known_one_more s _ h I); [exact (hosts_add_attempt s h _ [])|apply incl_refl|left; exact N].
  - (* P_push *) apply (known_one_more s _ (task_host t) I); [exact (hosts_push s t [])|apply incl_refl|left; exact Kt].
  - (* P_done *) unfold known_consumed, all_consumed, hosts_of. cbn [attempts set_attempts].
    rewrite map_mark_done. exact I.
  - (* P_deq *) apply (known_one_more s _ (task_host t) I); [|apply incl_refl|left; exact Kt].
    intros x Hx. right. apply hosts_of_in in Hx. apply hosts_of_in.
    destruct Hx as [Hx|[Hx|Hx]]; auto. right; left. apply in_map_iff in Hx. destruct Hx as (t0 & <- & Ht).
    apply in_map. exact (In_remove_at _ _ _ Ht).
Qed.

(* NoHostAvailable is set only with the plan run off, and the plan stays empty from then on *)
Lemma reach_nohost s s' ev : reach K Q E F s s' ev -> fin_exc s' = Some XNoHost -> fin_exc s = Some XNoHost \/ plan s' = [].
Proof.
  intros R.
  refine (reach_keeps (fun s1 => fin_exc s1 = Some XNoHost -> fin_exc s = Some XNoHost \/ plan s1 = []) _ _ _ _ R _);
    [|auto].
  clear. intros s1 s2 e P I X.
  destruct P as [h rest p e Pl|h rest p Pl| | | | |x C N| | | | | | | | |]; try exact (I X).
  - (* P_skip *) destruct (I X) as [G|G]; [left; exact G|congruence].
  - (* P_plan_sent *) destruct (I X) as [G|G]; [left; exact G|congruence].
  - (* P_exc *) right. apply N. cbn in X. congruence.
  - (* P_fresh *) discriminate X.
Qed.

Lemma reach_target h s s' ev : reach K Q E (eq [h]) s s' ev ->
  Forall (eq h) (consumed s ++ plan s) -> Forall (eq h) (consumed s' ++ plan s').
Proof.
  apply (reach_keeps (fun s => Forall (eq h) (consumed s ++ plan s))). clear. intros s s' e P T.
  destruct P as [h0 rest p e Pl|h0 rest p Pl| | | | | | | | | | | | | |pl <-]; try exact T.
  - (* P_skip *) cbn [consumed plan set_err touch take_host]. rewrite <- app_assoc. cbn [app]. rewrite <- Pl. exact T.
  - (* P_plan_sent *) cbn [consumed plan add_attempt touch take_host]. rewrite <- app_assoc. cbn [app]. rewrite <- Pl. exact T.
  - (* P_fresh *) apply Forall_app in T. apply Forall_app. split; [apply T|repeat constructor].
Qed.
End Moves.
Arguments reach_plan_move {K Q E s s' ev}.
Arguments reach_known {K Q E F s s' ev}.
Arguments reach_nohost {K Q E F s s' ev}.
Arguments reach_target {K Q E h s s' ev}.

Lemma step_plan_move c s o s' ev : is_next_page o = false -> step c s o = (s', ev) -> plan_move s s' ev.
Proof. intros NP H. exact (reach_plan_move (step_reach_no_page NP H)). Qed.

Lemma exec_plan_move c ops s s' evs : no_page ops = true -> exec c s ops = (s', evs) -> plan_move s s' evs.
Proof. intros N H. exact (reach_plan_move (exec_moves_no_page N H)). Qed.

Lemma step_mentions c s o s' ev : all_consumed s -> step c s o = (s', ev) -> all_consumed s'.
Proof.
  intros A H. refine (proj2 (reach_known (step_reach H) (conj _ A))).
  intros h Fh. apply A, hosts_of_in.
  destruct o; try contradiction; destruct Fh as (y & N & <-); [left|right; left]; apply in_map; eapply nth_error_In; eauto.
Qed.

Lemma mentions_sent {K Q E F s0 s ev} : reach K Q E F s0 s ev -> all_consumed s -> all_in (hosts_of s ev) (in_cons s).
Proof.
  intros R A x Hx. apply A, hosts_of_in. apply hosts_of_in in Hx.
  destruct Hx as [Hx|[Hx|[Hx|Hx]]]; auto. left. exact (proj2 (reach_sent R) x Hx).
Qed.

Lemma exec_mentions c ops s0 s evs : all_consumed s0 -> exec c s0 ops = (s, evs) ->
  all_in (hosts_of s evs) (in_cons s).
Proof.
  intros A H. apply (mentions_sent (exec_moves H)). revert A.
  refine (exec_rel c (fun _ => True) (fun s s' _ => all_consumed s -> all_consumed s') _ _ _ ops s0 s evs _ H); auto.
  - intros s1 o s2 e _ S A. exact (step_mentions c s1 o s2 e A S).
  - apply Forall_forall. auto.
Qed.

Section History.
Variables (c : config) (lb : list host) (target : option host) (pl : list (host * pstate)) (cl : option Z)
          (idem hasp : bool) (maxa : Z) (ks : option Z).
Let s0 := init lb target pl cl idem hasp maxa ks.

Lemma init_untouched : plan s0 = make_plan lb target /\ consumed s0 = [] /\ all_consumed s0.
Proof. unfold s0, init. edestruct start_timer_eq as (a & l & -> & _). repeat split. intros x []. Qed.

Lemma mentioned_consumed ops s evs x : exec c s0 ops = (s, evs) -> In x (hosts_of s evs) -> In x (consumed s).
Proof.
  intros H. revert x. apply (exec_mentions c ops s0 s evs); [apply init_untouched|exact H].
Qed.

End History.

Lemma exec_target c h ops s0 s evs : exec c s0 ops = (s, evs) -> tgt c = Some h -> Forall (eq h) (consumed s0 ++ plan s0) ->
  all_consumed s0 -> forall x, In x (hosts_of s evs) -> x = h.
Proof.
  intros H Tg F0 A0 x Hx.
  assert (R : reach anything anything anything (eq [h]) s0 s evs).
  { refine (exec_reach c _ ops _ _ _ _ H). apply Forall_forall. intros [] _ pl Pl; try contradiction. rewrite Pl, Tg. reflexivity. }
  pose proof (reach_target R F0) as F. rewrite Forall_forall in F. symmetry. apply F, in_app_iff. left. revert x Hx.
  exact (exec_mentions c ops s0 s evs A0 H).
Qed.

Lemma all_consumed_step c s o s' ev : all_consumed s -> step c s o = (s', ev) -> all_consumed s' /\
  all_in (hosts_of s' ev) (in_cons s').
Proof.
  intros A H. pose proof (step_mentions c s o s' ev A H) as M. split; [exact M|exact (mentions_sent (step_reach H) M)].
Qed.

Lemma subseq_prefix {A} (a e r : list A) : subseq a e -> subseq a (e ++ r).
Proof. apply subseq_app_r. Qed.
