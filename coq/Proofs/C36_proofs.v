(* C36: a column's to_database output is read three ways that must agree (`agree`).  The scalar columns are a table of admitted
   (column, Python form) pairs; through the containers `agree` is carried by mapM, pairs and the fields of a tuple / UDT. *)
From Coq Require Import ZArith List Bool Lia.
From Verif Require Import ListFacts DyFloat Columns.
Import ListNotations.
Local Open Scope Z_scope.

(* f = to_database, d = denote, p = prepared_value, e = encode_literal, r = lit_value, or what each does to a list, a pair, a field *)
Definition agree {A B L V : Type} (f : A -> option B) (d : B -> option V) (p : A -> option V)
                 (e : B -> option L) (r : L -> option V) (v : A) : Prop :=
  exists x a l, f v = Some x /\ d x = Some a /\ p v = Some a /\ e x = Some l /\ r l = Some a.

Definition agree_at (c : col) (v : pyval) : Prop :=
  agree (to_database c) (denote (cql_type c)) (prepared_value (cql_type c)) encode_literal (lit_value (cql_type c)) v.

Definition scalar_col (c : col) : bool :=
  match c with CList _ | CSet _ | CMap _ _ | CTuple _ | CUDT _ => false | _ => true end.

Section ColInd.
  Variable P : col -> Prop.
  Hypothesis Hscalar : forall c, scalar_col c = true -> P c.
  Hypothesis Hlist : forall c, P c -> P (CList c).
  Hypothesis Hset : forall c, P c -> P (CSet c).
  Hypothesis Hmap : forall k w, P k -> P w -> P (CMap k w).
  Hypothesis Htuple : forall cs, Forall P cs -> P (CTuple cs).
  Hypothesis Hudt : forall fs, Forall P fs -> P (CUDT fs).

  Fixpoint col_ind' (c : col) : P c :=
    let all := fix go (l : list col) : Forall P l :=
      match l with [] => Forall_nil P | x :: l' => Forall_cons x (col_ind' x) (go l') end in
    match c with
    | CList c1 => Hlist c1 (col_ind' c1)
    | CSet c1 => Hset c1 (col_ind' c1)
    | CMap k w => Hmap k w (col_ind' k) (col_ind' w)
    | CTuple cs => Htuple cs (all cs)
    | CUDT fs => Hudt fs (all fs)
    | c0 => Hscalar c0 eq_refl
    end.
End ColInd.

Lemma dt_date_midnight : forall d, datetime_to_db (d * US_DAY) None = d * 86400000.
Proof.
  intros d. unfold datetime_to_db, tz_off, US_DAY. replace (d * 86400000000 - 0) with (d * 86400000 * 1000) by lia.
  apply Z.quot_mul. lia.
Qed.

Lemma float_value32_some : forall m e, match round32 (m, e) with Some _ => true | None => false end = true ->
  exists a, float_value32 m e = Some a.
Proof.
  intros m e H. unfold float_value32. destruct (round32 (m, e)) as [[m' e']|]; [|discriminate H].
  destruct ((m' =? 0) && (m <? 0)); eauto.
Qed.

Lemma sign_abs : forall z, (if z <? 0 then - Z.abs z else Z.abs z) = z.
Proof. intros z. destruct (z <? 0) eqn:?; lia. Qed.

(* the literal of a Duration has one leading sign: right when no two components differ in sign *)
Lemma duration_one_sign : forall mo d ns,
  ((0 <=? mo) && (0 <=? d) && (0 <=? ns)) || ((mo <=? 0) && (d <=? 0) && (ns <=? 0)) = true ->
  let neg := (mo <? 0) || (d <? 0) || (ns <? 0) in
  VDuration (if neg then - Z.abs mo else Z.abs mo) (if neg then - Z.abs d else Z.abs d) (if neg then - Z.abs ns else Z.abs ns) =
  VDuration mo d ns.
Proof. intros mo d ns H neg. subst neg. destruct ((mo <? 0) || (d <? 0) || (ns <? 0)) eqn:N; f_equal; lia. Qed.

(* Once to_database has returned, its result is read three times; the guards of the readings are conjuncts of `valid`
   (facts in the context), and the day offset to_database adds to a Date is the one the readings take off. *)
Ltac readings :=
  do 3 eexists; repeat split;
  (cbn [encode_literal]; repeat match goal with H : ?g = _ |- context [?g] => rewrite H end; rewrite ?Z.add_simpl_r; reflexivity).

Lemma scalar_same_value : forall c v, scalar_col c = true -> valid c v = true -> agree_at c v.
Proof.
  intros c v Hc H. unfold agree_at, agree, denote, prepared_value.
  destruct c; try discriminate Hc; cbn [valid] in H; destruct v; try discriminate H; cbn [valid_scalar] in H;
    cbn [to_database float_validate cql_type cql_value scalar_value lit_value scalar_lit_value];
    repeat match goal with H : (_ && _) = true |- _ => apply andb_prop in H; destruct H end;
    try solve [readings].
  (* left: the forms where to_database changes the value other than by a constructor or an offset *)
  - (* Float, int *) revert H. destruct (f_of_int z) as [m e]. intros H. destruct (float_value32_some m e H) as [a E]. readings.
  - (* Float, float *) destruct (float_value32_some m e) as [a E]; [assumption|]. readings.
  - (* Double, int *) destruct (f_of_int z) as [m e]. readings.
  - (* Decimal, int *) pose proof (sign_abs z) as E. readings.
  - (* DateTime, date *) rewrite dt_date_midnight. readings.
  - (* DateTime, datetime *) unfold datetime_to_db. readings.
  - (* Duration *)
    do 3 eexists. repeat split. cbn. f_equal. apply duration_one_sign, H.
Qed.

Definition agree_col (c : col) : Prop := forall v, valid c v = true -> agree_at c v.

Lemma agree_mapM {A B L V : Type} {f : A -> option B} {d p} {e : B -> option L} {r : L -> option V} {l} :
  Forall (agree f d p e r) l -> agree (mapM f) (mapM d) (mapM p) (mapM e) (mapM r) l.
Proof.
  induction 1 as [|v l (x & a & y & F1 & F2 & F3 & F4 & F5) _ (xs & vs & ls & E1 & E2 & E3 & E4 & E5)].
  - exists [], [], []. repeat split; reflexivity.
  - exists (x :: xs), (a :: vs), (y :: ls). unfold mapM in *. rewrite F1, F2, F3, F4, F5, E1, E2, E3, E4, E5.
    repeat split; reflexivity.
Qed.

(* the item function the Map branches of to_database, cql_value, encode_literal and lit_value write inline *)
Definition pairM {A B C D : Type} (f : A -> option C) (g : B -> option D) (kv : A * B) : option (C * D) :=
  match f (fst kv), g (snd kv) with Some a, Some b => Some (a, b) | _, _ => None end.

Lemma agree_pair {A B L V A' B' L' V' : Type} {f : A -> option B} {d p} {e : B -> option L} {r : L -> option V}
                   {f' : A' -> option B'} {d' p'} {e' : B' -> option L'} {r' : L' -> option V'} kv :
  agree f d p e r (fst kv) -> agree f' d' p' e' r' (snd kv) ->
  agree (pairM f f') (pairM d d') (pairM p p') (pairM e e') (pairM r r') kv.
Proof.
  intros (x' & a & l & F1 & F2 & F3 & F4 & F5) (y' & b & m & G1 & G2 & G3 & G4 & G5).
  exists (x', y'), (a, b), (l, m). unfold pairM. cbn [fst snd]. rewrite F1, F2, F3, F4, F5, G1, G2, G3, G4, G5.
  repeat split; reflexivity.
Qed.

Lemma to_db_none : forall c, to_database c PNone = Some PNone.
Proof. intros c. destruct c; reflexivity. Qed.

Lemma cql_value_none : forall r t, cql_value r t PNone = None.
Proof. intros r t. destruct t; reflexivity. Qed.

Lemma opt_field_read : forall r t x a, cql_value r t x = Some a -> opt_field (cql_value r t) x = Some a.
Proof. intros r t x a H. destruct x; try exact H. rewrite cql_value_none in H. discriminate H. Qed.

Lemma enc_null : forall x, encode_literal x = Some LNull -> x = PNone.
Proof.
  intros x H. destruct x; try reflexivity; cbn in H; try discriminate H;
    match type of H with option_map _ ?m = _ => destruct m; discriminate H end.
Qed.

Lemma forall2b_len : forall (A B : Type) (p : A -> B -> bool) la lb, forall2b p la lb = true -> (length lb <= length la)%nat.
Proof.
  intros A B p la. induction la as [|a la IH]; intros [|b lb] H; cbn in *; try lia.
  apply andb_prop in H. destruct H as [_ H]. apply IH in H. lia.
Qed.

Lemma field_agrees : forall c x, agree_col c -> (if is_none x then true else valid c x) = true ->
  agree (to_database c) (opt_field (cql_value false (cql_type c))) (opt_field (cql_value true (cql_type c)))
        encode_literal (opt_lit (lit_value (cql_type c))) x.
Proof.
  intros c x HP Hx. destruct (is_none x) eqn:En.
  - destruct x; try discriminate En. exists PNone, VNull, LNull. rewrite to_db_none. repeat split; reflexivity.
  - destruct (HP x Hx) as (x' & a & l & F1 & F2 & F3 & F4 & F5). unfold denote, prepared_value in *.
    exists x', a, l. repeat split; [exact F1 | apply opt_field_read, F2 | apply opt_field_read, F3 | exact F4 |].
    destruct l; try exact F5.
    (* LNull: only None renders as NULL, and cql_value reads no None (F2) *)
    apply enc_null in F4. subst x'. rewrite cql_value_none in F2. discriminate F2.
Qed.

Lemma fields_agree : forall cs, Forall agree_col cs -> forall l,
  forall2b (fun c' x => if is_none x then true else valid c' x) cs l = true ->
  exists xs vs ls, zipM (map to_database cs) l = Some xs /\
    zipM (map (fun t' => opt_field (cql_value false t')) (map cql_type cs)) xs = Some vs /\
    zipM (map (fun t' => opt_field (cql_value true t')) (map cql_type cs)) l = Some vs /\
    mapM encode_literal xs = Some ls /\
    zipM (map (fun t' => opt_lit (lit_value t')) (map cql_type cs)) ls = Some vs /\
    length xs = length l /\ length ls = length l.
Proof.
  intros cs HF. induction HF as [|c cs Hc HF IH]; intros l H.
  - destruct l; [|discriminate H]. exists [], [], []. repeat split; reflexivity.
  - destruct l as [|x l].
    + exists [], [], []. repeat split; reflexivity.
    + apply andb_prop in H. destruct H as [Hx Hl].
      destruct (IH l Hl) as (xs & vs & ls & E1 & E2 & E3 & E4 & E5 & E6 & E7).
      destruct (field_agrees c x Hc Hx) as (x' & a & l' & F1 & F2 & F3 & F4 & F5).
      exists (x' :: xs), (a :: vs), (l' :: ls). cbn [map zipM]. unfold mapM in *.
      rewrite E1, E2, E3, E4, E5, F1, F2, F3, F4, F5. cbn [length]. rewrite E6, E7.
      repeat split; reflexivity.
Qed.

Lemma zipM_ext : forall (C A B : Type) (F G : C -> A -> option B) cs l,
  (forall c x, F c x = G c x) -> zipM (map F cs) l = zipM (map G cs) l.
Proof. intros C A B F G cs l H. revert l. induction cs; destruct l; cbn [map zipM]; auto. rewrite H, IHcs. reflexivity. Qed.

Theorem same_value_all : forall c, agree_col c.
Proof.
  induction c as [c Hc | c IHc | c IHc | c1 c2 IHc1 IHc2 | cs IHcs | fs IHfs] using col_ind'; intros v Hv.
  - apply scalar_same_value; assumption.
  - destruct v; try discriminate Hv.
    all: destruct (agree_mapM (Forall_impl _ IHc (forallb_Forall _ _ Hv))) as (xs & vs & ls & E1 & E2 & E3 & E4 & E5).
    all: exists (PList xs), (VList vs), (LList ls). all: unfold denote, prepared_value in *.
    all: cbn [to_database cql_type cql_value encode_literal lit_value].
    all: rewrite E1, E2, E3, E4. all: cbn [option_map]. all: rewrite E5. all: repeat split; reflexivity.
  - destruct v; try discriminate Hv.
    destruct (agree_mapM (Forall_impl _ IHc (forallb_Forall _ _ Hv))) as (xs & vs & ls & E1 & E2 & E3 & E4 & E5).
    exists (PSet xs), (VSet vs), (LSet ls). unfold denote, prepared_value in *. cbn [to_database cql_type cql_value encode_literal lit_value].
    rewrite E1, E2, E3, E4. cbn [option_map]. rewrite E5. repeat split; reflexivity.
  - destruct v; try discriminate Hv.
    destruct (agree_mapM (Forall_impl _ (fun kv H => agree_pair kv (IHc1 _ (proj1 (andb_prop _ _ H)))
                                                           (IHc2 _ (proj2 (andb_prop _ _ H)))) (forallb_Forall _ _ Hv)))
      as (xs & vs & ls & E1 & E2 & E3 & E4 & E5).
    exists (PDict xs), (VMap vs), (LMap ls). unfold denote, prepared_value, pairM in *. cbn [to_database cql_type cql_value encode_literal lit_value].
    rewrite E1, E2, E3, E4. cbn [option_map]. rewrite E5. repeat split; reflexivity.
  - destruct v; try discriminate Hv.
    all: destruct (fields_agree cs IHcs l Hv) as (xs & vs & ls & E1 & E2 & E3 & E4 & E5 & E6 & E7).
    all: pose proof (forall2b_len _ _ _ _ _ Hv) as Hlen.
    all: exists (PTuple xs), (VTuple vs), (LTuple ls). all: unfold denote, prepared_value.
    all: cbn [to_database cql_type cql_value encode_literal lit_value].
    all: rewrite E1. all: cbn [option_map]. all: rewrite E4. all: cbn [option_map].
    all: rewrite E6, E7, map_length, (proj2 (Nat.leb_le _ _) Hlen), E2, E3, E5. all: repeat split; reflexivity.
  - destruct v; try discriminate Hv. apply andb_prop in Hv. destruct Hv as [Hlen Hv].
    destruct (fields_agree fs IHfs l Hv) as (xs & vs & ls & E1 & E2 & E3 & E4 & E5 & E6 & E7).
    exists (PUdt xs), (VUdt vs), (LUdt ls). unfold denote, prepared_value. cbn [to_database cql_type cql_value encode_literal lit_value].
    (* a None field is converted only if its column is a container; the other columns would return None as well *)
    rewrite (zipM_ext _ _ _ _ to_database) by (intros c []; try reflexivity; destruct (is_container c); [reflexivity | symmetry; apply to_db_none]).
    rewrite Hlen, E1. cbn [option_map]. rewrite E4. cbn [option_map]. rewrite E6, E7, map_length, Hlen, E2, E3, E5. repeat split; reflexivity.
Qed.

Lemma send_history_repeat : forall c v n, send_history c v n = repeat (to_database c v) n.
Proof. induction n; simpl; [|unfold arg_after; rewrite IHn]; reflexivity. Qed.

Lemma quot1000_bracket : forall i,
  (0 <= i -> 1000 * (i ÷ 1000) <= i < 1000 * (i ÷ 1000) + 1000) /\ (i <= 0 -> 1000 * (i ÷ 1000) - 1000 < i <= 1000 * (i ÷ 1000)).
Proof. intros i. Z.to_euclidean_division_equations. lia. Qed.

Lemma datetime_exact : forall wall tz ms,
  wall - tz_off tz wall = 1000 * ms -> datetime_to_db wall tz = ms.
Proof. intros wall tz ms H. unfold datetime_to_db. rewrite H. rewrite Z.mul_comm. apply Z.quot_mul. lia. Qed.

Lemma mapM_length : forall (A B : Type) (f : A -> option B) l ys, mapM f l = Some ys -> length ys = length l.
Proof.
  intros A B f l. induction l as [|x l IH]; intros ys H; cbn in H.
  - injection H as <-. reflexivity.
  - destruct (f x); [|discriminate]. destruct (mapM f l) eqn:E; [|discriminate]. injection H as <-. cbn. f_equal. apply IH. reflexivity.
Qed.
