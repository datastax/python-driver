From Coq Require Import ZArith List Bool.
From Verif Require Import FutB.
Import ListNotations.
Local Open Scope Z_scope.

Definition reason (p : pstate) : option err :=
  match p with
  | PMissing => Some EDown | PShutdown => Some EShutdown | PNoConn => Some ENoConn | PBusy => Some EBusy
  | PFail => Some EBorrowFail | PSendFail => Some ESendFail | PHealthy => None | PNoConnSlow => Some ENoConn
  end.

Lemma query_eq s h m c :
  query s h m c = match reason (pool_of s h) with
                  | Some e => (set_err (touch s (pool_of s h)) h e, [ErrSet h e], false)
                  | None => (add_attempt (touch s (pool_of s h)) h (is_prepare m), [Sent h m c], true)
                  end.
Proof. unfold query. destruct (pool_of s h); reflexivity. Qed.

Lemma reason_healthy p : reason p = None <-> p = PHealthy.
Proof. destruct p; split; intros H; try discriminate; reflexivity. Qed.

(* qon: query_or_next *)
Lemma qon_healthy s h m c : pool_of s h = PHealthy ->
  query_or_next s h m c = (add_attempt (touch s PHealthy) h (is_prepare m), [Sent h m c]).
Proof. intros P. unfold query_or_next. rewrite query_eq, P. reflexivity. Qed.

Definition keys {A} (l : list (Z * A)) : list Z := map fst l.

Lemma keys_upd {A} (l : list (Z * A)) h v x : In x (keys (upd l h v)) <-> x = h \/ In x (keys l).
Proof.
  induction l as [|[k w] l IH]; cbn.
  - split; intros H; decompose [or] H; subst; auto.
  - destruct (k =? h) eqn:E; cbn.
    + apply Z.eqb_eq in E. subst. split; intros H; decompose [or] H; subst; auto.
    + rewrite IH. split; intros H; decompose [or] H; auto.
Qed.

Lemma lookup_upd {A} (l : list (Z * A)) h v x : lookup (upd l h v) x = if h =? x then Some v else lookup l x.
Proof.
  induction l as [|[k w] l IH]; cbn; [reflexivity|]. destruct (k =? h) eqn:E; cbn.
  - apply Z.eqb_eq in E. subst k. destruct (h =? x); reflexivity.
  - rewrite IH. destruct (h =? x) eqn:E2; [|reflexivity]. apply Z.eqb_eq in E2. subst x. rewrite E. reflexivity.
Qed.

Lemma fail_with_exc s x : fin_exc (fail_with s x) = (if completed s then fin_exc s else Some x).
Proof. unfold fail_with. destruct (completed s); reflexivity. Qed.

Lemma not_completed s : fin_res s = None -> fin_exc s = None -> completed s = false.
Proof. unfold completed. intros -> ->. reflexivity. Qed.

Lemma completed_exc s x : fin_exc s = Some x -> completed s = true.
Proof. unfold completed. intros ->. apply orb_true_r. Qed.

Lemma open_no_exc s : completed s = false -> fin_exc s = None.
Proof. destruct (fin_exc s) eqn:X; [|reflexivity]. rewrite (completed_exc s _ X). discriminate. Qed.

Lemma fail_with_fresh s x : fin_res s = None -> fin_exc s = None -> fail_with s x = set_exc s x.
Proof. intros R E. unfold fail_with. rewrite (not_completed s R E). reflexivity. Qed.

Lemma start_timer_eq s : exists a l, start_timer s = set_spec s a l /\ (spec_left s = 0 -> a = spec_armed s /\ l = 0).
Proof.
  assert (Id : exists a l, s = set_spec s a l /\ (spec_left s = 0 -> a = spec_armed s /\ l = 0))
    by (exists (spec_armed s), (spec_left s); destruct s; auto).
  unfold start_timer. destruct (spec_armed s); [exact Id|]. destruct (0 <? spec_left s) eqn:L; [|exact Id].
  do 2 eexists. split; [reflexivity|]. intros E. rewrite E in L. discriminate L.
Qed.

Lemma unprepared_shape c s h id tag :
  (exists x, x <> XNoHost /\ unprepared c s h id tag = (fail_with s x, [])) \/
  (exists qs ks, unprepared c s h id tag = (submit s (TReprepare h qs ks), [])).
Proof.
  assert (G : forall ps, (exists x, x <> XNoHost /\ unprep_go c s h ps = (fail_with s x, [])) \/
                         (exists qs ks, unprep_go c s h ps = (submit s (TReprepare h qs ks), []))).
  { intros [[pid qs] ks]. unfold unprep_go. destruct (negb (uses_ks c) && is_some ks && negb (opt_eqb (conn_ks s) ks)); [left|eauto].
    exists XKsMismatch. split; [discriminate|reflexivity]. }
  unfold unprepared. destruct (fut_ps c) as [[[pid pqs] pks]|].
  - destruct (negb (pid =? id)); [left; exists XAssert; split; [discriminate|reflexivity]|]. destruct (lookup (known c) id); apply G.
  - destruct (lookup (known c) id); [apply G|left; exists XAttr; split; [discriminate|reflexivity]].
Qed.

Definition plan_sends (ev : list event) : list host :=
  flat_map (fun e => match e with Sent h _ CPlan => [h] | _ => [] end) ev.

(* what one send_request does: skips a prefix of unusable hosts, recording why, and sends to the first usable one.
   In Hev the branch `None => EDown` is never taken: Hsk says the pool of a skipped host is not healthy. *)
Inductive walked (s : state) (p : list host) (b : bool) (s' : state) (ev : list event) : Prop :=
| walked_sent (sk : list host) (h : host) (rest : list host)
    (Hp : p = sk ++ h :: rest)
    (Hsk : Forall (fun x => pool_of s x <> PHealthy) sk)
    (Hh : pool_of s h = PHealthy)
    (Hplan : plan s' = rest)
    (Hcons : consumed s' = consumed s ++ sk ++ [h])
    (Hev : ev = map (fun x => ErrSet x (match reason (pool_of s x) with Some e => e | None => EDown end)) sk
                ++ [Sent h (MOrig (msg_cl s)) CPlan])
    (Hatt : attempts s' = attempts s ++ [{| a_host := h; a_prep := false; a_done := false; a_page := page_no s |}])
    (Hexc : fin_exc s' = fin_exc s)
    (Harm : spec_armed s' = spec_armed s)
| walked_exhausted
    (Hsk : Forall (fun x => pool_of s x <> PHealthy) p)
    (Hplan : plan s' = match p with [] => plan s | _ => [] end)
    (Hcons : consumed s' = consumed s ++ p)
    (Hev : ev = map (fun x => ErrSet x (match reason (pool_of s x) with Some e => e | None => EDown end)) p)
    (Hatt : attempts s' = attempts s)
    (Hexc : fin_exc s' = if b && negb (completed s) then Some XNoHost else fin_exc s)
    (Harm : spec_armed s' = if b then false else spec_armed s)
| walked_timeout (sk : list host) (rest : list host)      (* the client timeout elapsed while skipping: _on_timeout(), no NoHostAvailable *)
    (Hp : p = sk ++ rest) (Hne : sk <> [])
    (Hsk : Forall (fun x => pool_of s x <> PHealthy) sk)
    (Hplan : plan s' = rest)
    (Hcons : consumed s' = consumed s ++ sk)
    (Hev : ev = map (fun x => ErrSet x (match reason (pool_of s x) with Some e => e | None => EDown end)) sk)
    (Hatt : attempts s' = attempts s)
    (Hel : elapsed s' = true)
    (Hexc : fin_exc s' = if borrowed s' && negb (completed s) then Some XTimeout else fin_exc s)
    (Harm : spec_armed s' = if borrowed s' then false else spec_armed s).

Lemma pool_of_ext s1 s2 h : pools s1 = pools s2 -> pool_of s1 h = pool_of s2 h.
Proof. unfold pool_of. intros ->. reflexivity. Qed.

Lemma on_timeout_fields s :
  plan (on_timeout s) = plan s /\ consumed (on_timeout s) = consumed s /\ attempts (on_timeout s) = attempts s /\
  errors (on_timeout s) = errors s /\ elapsed (on_timeout s) = elapsed s /\ borrowed (on_timeout s) = borrowed s /\
  spec_armed (on_timeout s) = (if borrowed s then false else spec_armed s) /\
  fin_exc (on_timeout s) = (if borrowed s && negb (completed s) then Some XTimeout else fin_exc s).
Proof.
  unfold on_timeout, fail_with. destruct (borrowed s) eqn:B; [destruct (completed s)|]; cbn; rewrite ?B; repeat split.
Qed.

Definition skip (s : state) (h : host) (rest : list host) (e : err) : state :=
  set_err (touch (take_host s h rest) (pool_of s h)) h e.

(* the four ways a walk goes on: plan run off; usable host; unusable host and the client timeout elapsed; unusable host, on *)
Lemma walk_ind (b : bool) (P : state -> list host -> state -> list event -> Prop) :
  (forall s, P s [] (if b then fail_with s XNoHost else s) []) ->
  (forall s h rest, pool_of s h = PHealthy ->
     P s (h :: rest) (add_attempt (touch (take_host s h rest) PHealthy) h false) [Sent h (MOrig (msg_cl s)) CPlan]) ->
  (forall s h rest e, reason (pool_of s h) = Some e -> elapsed (skip s h rest e) = true ->
     P s (h :: rest) (on_timeout (skip s h rest e)) [ErrSet h e]) ->
  (forall s h rest e s' ev, reason (pool_of s h) = Some e ->
     P (skip s h rest e) rest s' ev -> P s (h :: rest) s' (ErrSet h e :: ev)) ->
  forall p s s' ev, walk s p b = (s', ev) -> P s p s' ev.
Proof.
  intros Pn Ps Pt Pc. induction p as [|h rest IH]; intros s s' ev H; cbn [walk] in H.
  - injection H as <- <-. apply Pn.
  - rewrite query_eq in H. change (pool_of (take_host s h rest) h) with (pool_of s h) in H.
    destruct (reason (pool_of s h)) as [e|] eqn:R.
    + change (set_err _ h e) with (skip s h rest e) in H. destruct (elapsed (skip s h rest e)) eqn:El.
      * injection H as <- <-. apply Pt; assumption.
      * destruct (walk (skip s h rest e) rest b) as [s2 ev2] eqn:W. injection H as <- <-. apply Pc; auto.
    + apply reason_healthy in R. rewrite R in H. injection H as <- <-. apply Ps, R.
Qed.

Lemma lookup_skip s h rest e x : reason (pool_of s h) = Some e ->
  lookup (errors (skip s h rest e)) x = if h =? x then reason (pool_of s x) else lookup (errors s) x.
Proof.
  intros R. cbn [errors skip set_err touch take_host]. rewrite lookup_upd. destruct (h =? x) eqn:Ex; [|reflexivity].
  apply Z.eqb_eq in Ex. subst x. symmetry. exact R.
Qed.

(* a skipped host goes in front of what the rest of the walk skipped: `skip` differs from s in plan, consumed, errors, elapsed,
   borrowed only *)
Lemma walked_cons_skip s h rest b e s' ev :
  reason (pool_of s h) = Some e -> walked (skip s h rest e) rest b s' ev -> walked s (h :: rest) b s' (ErrSet h e :: ev).
Proof.
  intros R W. set (s1 := skip s h rest e) in *.
  assert (Hbad : pool_of s h <> PHealthy) by (intros E; rewrite E in R; discriminate).
  assert (Hc : forall l, consumed s1 ++ l = consumed s ++ h :: l) by (intros l; unfold s1; cbn; rewrite <- app_assoc; reflexivity).
  assert (Hm : forall l, ErrSet h e :: map (fun x => ErrSet x (match reason (pool_of s x) with Some e => e | None => EDown end)) l
               = map (fun x => ErrSet x (match reason (pool_of s x) with Some e => e | None => EDown end)) (h :: l))
    by (intros l; cbn [map]; rewrite R; reflexivity).
  destruct W as [sk h' rest' Hp Hsk Hh Hplan Hcons Hev Hatt Hexc Harm | Hsk Hplan Hcons Hev Hatt Hexc Harm
                | sk rest' Hp Hne Hsk Hplan Hcons Hev Hatt Hel Hexc Harm].
  - apply (walked_sent _ _ _ _ _ (h :: sk) h' rest'); auto; [rewrite Hp; reflexivity|rewrite Hcons; apply Hc|].
    rewrite Hev, <- Hm. reflexivity.
  - apply walked_exhausted; auto; [rewrite Hplan; destruct rest; reflexivity|rewrite Hcons; apply Hc|rewrite Hev; apply Hm].
  - apply (walked_timeout _ _ _ _ _ (h :: sk) rest'); auto; [rewrite Hp; reflexivity|discriminate|rewrite Hcons; apply Hc|rewrite Hev; apply Hm].
Qed.

Lemma walk_walked p s b s' ev : walk s p b = (s', ev) -> walked s p b s' ev.
Proof.
  revert p s s' ev. apply walk_ind.
  - (* plan run off *) intros s. destruct b; [unfold fail_with; destruct (completed s) eqn:C|];
      apply walked_exhausted; try rewrite app_nil_r; try rewrite C; constructor || reflexivity.
  - (* usable host *) intros s h rest Hh. apply (walked_sent _ _ _ _ _ [] h rest); try reflexivity; [constructor|exact Hh].
  - (* unusable host, timeout elapsed *)
    intros s h rest e R El. destruct (on_timeout_fields (skip s h rest e)) as (Tp & Tc & Ta & _ & Tel & Tb & Tarm & Texc).
    apply (walked_timeout _ _ _ _ _ [h] rest); rewrite ?Tb;
      [reflexivity|discriminate| |exact Tp|rewrite Tc; reflexivity| |exact Ta|rewrite Tel; exact El|exact Texc|exact Tarm].
    + (* Hsk *) constructor; [intros E; rewrite E in R; discriminate|constructor].
    + (* Hev *) cbn [map]. rewrite R. reflexivity.
  - (* unusable host, on *) intros s h rest e s' ev R. apply walked_cons_skip, R.
Qed.

Definition errset_for (x : host) (ev : list event) : bool :=
  existsb (fun e => match e with ErrSet h _ => h =? x | _ => false end) ev.

Lemma walk_lookup p s b s' ev x : walk s p b = (s', ev) ->
  lookup (errors s') x = if errset_for x ev then reason (pool_of s x) else lookup (errors s) x.
Proof.
  revert p s s' ev. apply walk_ind.
  - intros s. destruct b; [unfold fail_with; destruct (completed s)|]; reflexivity.
  - reflexivity.
  - intros s h rest e R _. destruct (on_timeout_fields (skip s h rest e)) as (_ & _ & _ & -> & _).
    cbn [errset_for existsb]. rewrite orb_false_r. apply lookup_skip, R.
  - intros s h rest e s' ev R ->. change (errset_for x (ErrSet h e :: ev)) with ((h =? x) || errset_for x ev).
    destruct (errset_for x ev); [rewrite orb_true_r; reflexivity|rewrite orb_false_r; apply lookup_skip, R].
Qed.

Lemma walk_errsets p s b s' ev x e : walk s p b = (s', ev) -> In (ErrSet x e) ev -> reason (pool_of s x) = Some e.
Proof.
  revert p s s' ev. apply (walk_ind b (fun s _ _ ev => In (ErrSet x e) ev -> reason (pool_of s x) = Some e)).
  - intros s [].
  - intros s h rest _ [Hin|[]]. discriminate.
  - intros s h rest e0 R _ [Hin|[]]. injection Hin as <- <-. exact R.
  - intros s h rest e0 s' ev R IH [Hin|Hin]; [injection Hin as <- <-; exact R|exact (IH Hin)].
Qed.

Lemma walk_listed p s b s' ev x e : walk s p b = (s', ev) -> In (ErrSet x e) ev -> lookup (errors s') x = Some e.
Proof.
  intros W Hin. assert (Ex : errset_for x ev = true).
  { apply existsb_exists. exists (ErrSet x e). split; [exact Hin|apply Z.eqb_refl]. }
  rewrite (walk_lookup _ _ _ _ _ x W), Ex. exact (walk_errsets _ _ _ _ _ _ _ W Hin).
Qed.

Definition task_host (t : task) : host :=
  match t with TRetry _ h => h | TReprepare h _ _ => h | TAfterPrepare h _ => h end.

Definition sent_hosts (ev : list event) : list host :=
  flat_map (fun e => match e with Sent h _ _ => [h] | _ => [] end) ev.

Definition hosts_of (s : state) (ev : list event) : list host :=
  map a_host (attempts s) ++ map task_host (queue s) ++ keys (errors s) ++ sent_hosts ev.

Definition all_in (l : list host) (X : host -> Prop) : Prop := forall x, In x l -> X x.

Lemma hosts_of_in s ev x :
  In x (hosts_of s ev) <-> In x (map a_host (attempts s)) \/ In x (map task_host (queue s)) \/ In x (keys (errors s))
                           \/ In x (sent_hosts ev).
Proof.
  unfold hosts_of. etransitivity; [apply in_app_iff|]. apply or_iff_compat_l.
  etransitivity; [apply in_app_iff|]. apply or_iff_compat_l, in_app_iff.
Qed.

Lemma hosts_set_err s h e ev x : In x (hosts_of (set_err s h e) ev) -> x = h \/ In x (hosts_of s ev).
Proof.
  intros H. apply hosts_of_in in H. cbn [attempts queue errors set_err] in H.
  destruct H as [Ha|[Hq|[He|Hs]]].
  - right. apply hosts_of_in. auto.
  - right. apply hosts_of_in. auto.
  - apply keys_upd in He. destruct He as [He|He]; [left; exact He|]. right. apply hosts_of_in. auto.
  - right. apply hosts_of_in. auto.
Qed.

Lemma hosts_add_attempt s h p ev x : In x (hosts_of (add_attempt s h p) ev) -> x = h \/ In x (hosts_of s ev).
Proof.
  intros H. apply hosts_of_in in H. cbn [attempts queue errors add_attempt] in H.
  destruct H as [Ha|Hrest]; [|right; apply hosts_of_in; auto].
  rewrite map_app in Ha. apply in_app_or in Ha. destruct Ha as [Ha|[Ha|[]]]; [right; apply hosts_of_in; auto|left; symmetry; exact Ha].
Qed.

Lemma hosts_push s t ev x : In x (hosts_of (push_task s t) ev) -> x = task_host t \/ In x (hosts_of s ev).
Proof.
  intros H. apply hosts_of_in in H. cbn [attempts queue errors push_task] in H.
  destruct H as [Ha|[Hq|Hrest]]; [right; apply hosts_of_in; auto| |right; apply hosts_of_in; auto].
  rewrite map_app in Hq. apply in_app_or in Hq. destruct Hq as [Hq|[Hq|[]]]; [right; apply hosts_of_in; auto|left; symmetry; exact Hq].
Qed.

Inductive subseq {A} : list A -> list A -> Prop :=
| subseq_nil : subseq [] []
| subseq_skip x l1 l2 : subseq l1 l2 -> subseq l1 (x :: l2)
| subseq_take x l1 l2 : subseq l1 l2 -> subseq (x :: l1) (x :: l2).

Lemma subseq_nil_l {A} (l : list A) : subseq [] l.
Proof. induction l; [apply subseq_nil|apply subseq_skip; assumption]. Qed.

Lemma subseq_refl {A} (l : list A) : subseq l l.
Proof. induction l; [apply subseq_nil|apply subseq_take; assumption]. Qed.

Lemma subseq_app {A} (a b c d : list A) : subseq a b -> subseq c d -> subseq (a ++ c) (b ++ d).
Proof. induction 1; cbn; intros H2; [exact H2|apply subseq_skip; auto|apply subseq_take; auto]. Qed.

Lemma subseq_app_r {A} (a b c : list A) : subseq a b -> subseq a (b ++ c).
Proof. intros H. rewrite <- (app_nil_r a). apply subseq_app; [exact H|apply subseq_nil_l]. Qed.

Lemma subseq_in {A} (a b : list A) x : subseq a b -> In x a -> In x b.
Proof. induction 1; cbn; intuition. Qed.

Lemma subseq_nodup {A} (a b : list A) : subseq a b -> NoDup b -> NoDup a.
Proof.
  induction 1; intros N; [constructor| |]; inversion N; subst; auto.
  constructor; auto. intros Hin. apply H2. eapply subseq_in; eauto.
Qed.

Inductive plan_move (s s' : state) (ev : list event) : Prop :=
| Build_plan_move (pm_extra : list host)
    (pm_cons : consumed s' = consumed s ++ pm_extra)
    (pm_plan : plan s = pm_extra ++ plan s')
    (pm_sends : subseq (plan_sends ev) pm_extra).

Lemma plan_move_id s s' ev : consumed s' = consumed s -> plan s' = plan s -> plan_sends ev = [] -> plan_move s s' ev.
Proof.
  intros C P E. apply (Build_plan_move _ _ _ []); [rewrite app_nil_r; exact C|rewrite P; reflexivity|rewrite E; constructor].
Qed.

Lemma plan_move_trans s1 s2 s3 ev1 ev2 : plan_move s1 s2 ev1 -> plan_move s2 s3 ev2 -> plan_move s1 s3 (ev1 ++ ev2).
Proof.
  intros [e1 C1 P1 S1] [e2 C2 P2 S2]. apply (Build_plan_move _ _ _ (e1 ++ e2)).
  - rewrite C2, C1, app_assoc. reflexivity.
  - rewrite P1, P2, app_assoc. reflexivity.
  - unfold plan_sends. rewrite flat_map_app. apply subseq_app; assumption.
Qed.

Definition has_send (ev : list event) : bool :=
  existsb (fun e => match e with Sent _ _ _ => true | _ => false end) ev.

Definition only_errsets (ev : list event) : Prop :=
  Forall (fun e => match e with ErrSet _ _ => True | _ => False end) ev.

Lemma lookup_in_keys {A} (l : list (Z * A)) h v : lookup l h = Some v -> In h (keys l).
Proof.
  induction l as [|[k w] l IH]; cbn; [discriminate|].
  destruct (k =? h) eqn:E; [apply Z.eqb_eq in E; auto|auto].
Qed.

Lemma in_keys_lookup {A} (l : list (Z * A)) h : In h (keys l) -> exists v, lookup l h = Some v.
Proof.
  induction l as [|[k w] l IH]; cbn; [contradiction|].
  intros [H|H].
  - subst. rewrite Z.eqb_refl. eauto.
  - destruct (k =? h); eauto.
Qed.

Lemma finish_with_fresh s r : fin_res s = None -> fin_exc s = None -> finish_with s r = set_res s r.
Proof. intros R E. unfold finish_with. rewrite (not_completed s R E). reflexivity. Qed.

Lemma walked_skipped_in_errors : forall p s b s' ev, walk s p b = (s', ev) ->
  forall x e, In (ErrSet x e) ev -> In x (keys (errors s')).
Proof. intros p s b s' ev W x e Hin. exact (lookup_in_keys _ _ e (walk_listed _ _ _ _ _ _ _ W Hin)). Qed.
