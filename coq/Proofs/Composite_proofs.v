(* Shared by the proofs about the two routing-key models (Model/Bind.v, Model/CompositeMapper.v): both write
   struct.pack(">H%dsB" % l, l, p, 0) as the same expression, which is composite_component of Model/CompositeSpec.v. *)
From Coq Require Import ZArith List Bool Lia.
From Verif Require Import CompositeSpec.
Import ListNotations.
Local Open Scope Z_scope.

Lemma u16_bytes : forall l, 0 <= l < 65536 -> [Z.land (Z.shiftr l 8) 255; Z.land l 255] = u16_be l.
Proof.
  intros l Hl. unfold u16_be. change 255 with (Z.ones 8).
  rewrite !Z.land_ones by lia. rewrite Z.shiftr_div_pow2 by lia. change (2 ^ 8) with 256.
  f_equal. apply Z.mod_small. split; [apply Z.div_pos; lia|apply Z.div_lt_upper_bound; lia].
Qed.

Lemma packed_component : forall b,
  (let l := Z.of_nat (length b) in
   if l <? 65536 then Some ([Z.land (Z.shiftr l 8) 255; Z.land l 255] ++ b ++ [0]) else None)
  = if component_ok b then Some (composite_component b) else None.
Proof.
  intros b. cbn zeta. unfold component_ok, composite_component.
  destruct (Z.ltb_spec (Z.of_nat (length b)) 65536); [|reflexivity]. rewrite u16_bytes by lia. reflexivity.
Qed.

Lemma composite_spec_multi : forall bs, (2 <= length bs)%nat ->
  composite_spec bs = concat (map composite_component bs).
Proof. intros [|a [|b r]] H; cbn in H; try lia. reflexivity. Qed.
