From Coq Require Import ZArith List Bool.
From Verif Require Import Pool ListFacts.
Import ListNotations.
Local Open Scope Z_scope.

Lemma nth_upd {A} i j (f : A -> A) l d :
  nth j (upd i f l) d = if Nat.eqb j i && Nat.ltb j (length l) then f (nth j l d) else nth j l d.
Proof.
  revert i j; induction l as [|x l IH]; intros i j.
  - destruct i, j; rewrite andb_false_r; reflexivity.
  - destruct i, j; simpl; try reflexivity.
    rewrite IH. reflexivity.
Qed.

Lemma nth_upd_same {A} i (f : A -> A) l d : (i < length l)%nat -> nth i (upd i f l) d = f (nth i l d).
Proof. intros H. rewrite nth_upd, Nat.eqb_refl, (proj2 (Nat.ltb_lt _ _) H). reflexivity. Qed.

Lemma nth_app_default {A} (l : list A) d x : nth x (l ++ [d]) d = nth x l d.
Proof. revert x; induction l as [|a l IH]; intros x; [destruct x as [|[|x]]; reflexivity|destruct x; simpl; auto]. Qed.

Lemma forallb_nth {A} (f : A -> bool) l d : (forall c, (c < length l)%nat -> f (nth c l d) = true) -> forallb f l = true.
Proof. intros H. apply forallb_forall. intros k Hk. destruct (In_nth _ _ d Hk) as (c&L&<-). apply H, L. Qed.

Lemma length_upd_all {A} (f : A -> A) l cs : length (fold_left (fun acc c => upd c f acc) l cs) = length cs.
Proof. revert cs; induction l as [|c l IH]; intros cs; simpl; [reflexivity|]. rewrite IH. apply length_update_at. Qed.

Lemma nth_upd_all {A} (f : A -> A) l cs x d : (forall k, f (f k) = f k) ->
  nth x (fold_left (fun acc c => upd c f acc) l cs) d =
  if mem x l && Nat.ltb x (length cs) then f (nth x cs d) else nth x cs d.
Proof.
  intros Hf. revert cs; induction l as [|c l IH]; intros cs; simpl; [reflexivity|].
  rewrite IH, length_update_at, nth_upd.
  destruct (Nat.eqb x c), (mem x l), (Nat.ltb x (length cs)); simpl; rewrite ?Hf; reflexivity.
Qed.

Definition entrywise {A} (R : nat -> A -> A -> Prop) (d : A) (cs cs' : list A) : Prop :=
  length cs' = length cs /\ forall x, R x (nth x cs d) (nth x cs' d).

Lemma entrywise_upd {A} (R : nat -> A -> A -> Prop) d cs c f :
  (forall x k, R x k k) -> R c (nth c cs d) (f (nth c cs d)) -> entrywise R d cs (upd c f cs).
Proof.
  intros Hr Hf. split; [apply length_update_at|]. intros x. rewrite nth_upd.
  destruct (Nat.eqb_spec x c) as [->|_]; [destruct (Nat.ltb c _)|]; auto.
Qed.

Lemma entrywise_upd_all {A} (R : nat -> A -> A -> Prop) d f l cs :
  (forall x k, R x k k) -> (forall k, f (f k) = f k) -> (forall x k, R x k (f k)) ->
  entrywise R d cs (fold_left (fun acc c => upd c f acc) l cs).
Proof. intros Hr Hi Hf. split; [apply length_upd_all|]. intros x. rewrite nth_upd_all by exact Hi. destruct (_ && _); auto. Qed.

(* c ranges beyond the table too: P holds of the default as well *)
Definition all_nth {A} (P : A -> Prop) (d : A) (cs : list A) : Prop := forall c, P (nth c cs d).

Lemma all_nth_upd {A} (P : A -> Prop) d cs c f :
  (P (nth c cs d) -> P (f (nth c cs d))) -> all_nth P d cs -> all_nth P d (upd c f cs).
Proof.
  intros Hf H x. rewrite nth_upd. destruct (Nat.eqb_spec x c) as [->|_]; [|apply H].
  destruct (Nat.ltb c (length cs)); [apply Hf|]; apply H.
Qed.

Lemma all_nth_upd_all {A} (P : A -> Prop) d f l :
  (forall k, P k -> P (f k)) -> forall cs, all_nth P d cs -> all_nth P d (fold_left (fun acc c => upd c f acc) l cs).
Proof. intros Hf. induction l as [|c l IH]; intros cs H; [exact H|]. apply IH, all_nth_upd; [apply Hf|exact H]. Qed.

Lemma all_nth_app {A} (P : A -> Prop) d cs : all_nth P d cs -> all_nth P d (cs ++ [d]).
Proof. intros H x. rewrite nth_app_default. apply H. Qed.

Lemma getc_updc s c f x :
  getc (updc s c f) x = if Nat.eqb x c && valid s x then f (getc s x) else getc s x.
Proof. apply nth_upd. Qed.

Lemma getc_updc_same s c f : valid s c = true -> getc (updc s c f) c = f (getc s c).
Proof. intros H. rewrite getc_updc, Nat.eqb_refl, H. reflexivity. Qed.

Lemma length_updc s c f : length (conns (updc s c f)) = length (conns s).
Proof. apply length_update_at. Qed.

Lemma valid_lt s c : valid s c = true <-> (c < length (conns s))%nat.
Proof. apply Nat.ltb_lt. Qed.

Lemma getc_default s c : (length (conns s) <= c)%nat -> getc s c = new_conn.
Proof. apply nth_overflow. Qed.

Lemma getc_app_old s x k : (x < length (conns s))%nat -> nth x (conns s ++ [k]) new_conn = getc s x.
Proof. apply app_nth1. Qed.

Lemma getc_close_all s l x :
  nth x (close_all l (conns s)) new_conn = if mem x l && valid s x then k_close (getc s x) else getc s x.
Proof. apply nth_upd_all. reflexivity. Qed.

Lemma is_cur_true s c : is_cur s c = true <-> cur s = Some c.
Proof. unfold is_cur. destruct (cur s); [rewrite Nat.eqb_eq; split; congruence|split; discriminate]. Qed.

Lemma mem_In c l : mem c l = true <-> In c l.
Proof. exact (memb_In Nat.eqb Nat.eqb_eq c l). Qed.

Lemma In_ins c x l : In x (ins c l) <-> x = c \/ In x l.
Proof.
  induction l as [|y l IH]; simpl; [intuition congruence|].
  destruct (Nat.eqb c y) eqn:E; [apply Nat.eqb_eq in E; simpl; intuition congruence|].
  destruct (Nat.ltb c y); simpl; [intuition congruence|]. rewrite IH. intuition congruence.
Qed.

Lemma In_del c x l : In x (del c l) <-> x <> c /\ In x l.
Proof.
  induction l as [|y l IH]; simpl; [tauto|].
  destruct (Nat.eqb c y) eqn:E.
  - apply Nat.eqb_eq in E. rewrite IH. intuition congruence.
  - apply Nat.eqb_neq in E. simpl. rewrite IH. intuition congruence.
Qed.

(* the guards of a step as propositions *)
Ltac bool_hyps :=
  repeat match goal with
  | H : _ && _ = true |- _ => apply andb_prop in H; destruct H
  | H : negb _ = true |- _ => apply negb_true_iff in H
  | H : (_ =? _) = true |- _ => apply Z.eqb_eq in H
  | H : mem _ _ = true |- _ => apply mem_In in H
  | H : is_cur _ _ = true |- _ => apply is_cur_true in H
  end.

(* one goal per path through a step function *)
Ltac split_step :=
  repeat match goal with
  | |- context [if ?b then _ else _] => let E := fresh "E" in destruct b eqn:E; simpl
  | |- context [match ?l with [] => _ | _ :: _ => _ end] => destruct l eqn:?; simpl
  | |- context [match ?l with Some _ => _ | None => _ end] => destruct l eqn:?; simpl
  | |- context [let '(_, _) := ?p in _] => destruct p eqn:?; simpl
  end.
