(* C09: what the Conn invariant says about the ids of a reachable state. *)
From Coq Require Import ZArith List Lia.
From Verif Require Import ListFacts Conn Conn_lemmas Conn_inv Conn_step.
Import ListNotations.
Local Open Scope Z_scope.

Definition reach (n m t : Z) (ops : list op) : state := run (init n m t) ops.

Lemma reach_good n m t ops : 0 <= n -> n - 1 <= m -> raced (reach n m t ops) = false -> Good (reach n m t ops).
Proof. intros A B. exact (run_good ops _ (good_init n m t A B)). Qed.

Lemma cnt_all x s : cnt x (all_ids s) = tot x s.
Proof. unfold all_ids, tot. rewrite !cnt_app. lia. Qed.

Lemma good_enum s : Good s -> enum (all_ids s) (fun x => 0 <= x <= highest s).
Proof.
  intros G. split; [apply cnt_le1_NoDup|]; intros x; rewrite ?cnt_In, cnt_all, (g_tot _ G);
    pose proof (inr_cases x (highest s)); lia.
Qed.

Lemma good_get_id_some s i s' : Good s -> get_id s = (Some i, s') ->
  0 <= i <= max_id s /\ ~ In i (keys (reqs s) ++ orphans s ++ keys (cps s) ++ keys (ghost s)).
Proof.
  intros G E. pose proof (get_id_spec 0 s (proj1 (goodD0 s) G)) as S. rewrite E in S. destruct S as (_ & _ & I & C).
  pose proof (id_counts s i (g_tot _ G)) as W. unfold tot in C. rewrite cnt_In, !cnt_app. lia.
Qed.

Lemma good_get_id_none s s' : Good s -> get_id s = (None, s') ->
  free s = [] /\ highest s = max_id s
  /\ (forall x, 0 <= x <= max_id s -> In x (keys (reqs s) ++ orphans s ++ keys (cps s) ++ keys (ghost s))).
Proof.
  intros G E. pose proof (get_id_spec 0 s (proj1 (goodD0 s) G)) as S. rewrite E in S. destruct S as (_ & F & M).
  rewrite <- M. repeat split; [exact F|]. intros x I. apply (proj2 (good_enum s G)) in I. unfold all_ids in I. rewrite F in I. exact I.
Qed.

Lemma good_quiescent s : Good s ->
  reqs s = [] -> orphans s = [] -> ghost s = [] -> cps s = [] -> erroring s = [] -> cur s = None ->
  owed s = 0 -> ks_pending s = 0 -> leaked s = 0 -> spurious s = 0 ->
  in_flight s = 0 /\ NoDup (free s) /\ (forall x, In x (free s) <-> 0 <= x <= highest s).
Proof.
  intros G Rq O Gh C E Cu Ow K L S.
  assert (I : all_ids s = free s) by (unfold all_ids; rewrite Rq, O, Gh, C; apply app_nil_r).
  rewrite <- I. split; [|exact (good_enum s G)].
  rewrite (g_units _ G), units_eq, Rq, O, Gh, E, Cu, Ow, K, L, S. reflexivity.
Qed.
