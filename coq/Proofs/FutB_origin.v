From Coq Require Import ZArith List Bool.
From Verif Require Import FutB ListFacts FutB_lemmas FutB_steps.
Import ListNotations.
Local Open Scope Z_scope.

Lemma in_sent_hosts h m c ev : In (Sent h m c) ev -> In h (sent_hosts ev).
Proof. intros H. apply in_flat_map. exists (Sent h m c). split; [exact H|left; reflexivity]. Qed.

Definition plan_msg (m : mkind) (c : cause) : Prop := c = CPlan /\ exists cl, m = MOrig cl.

(* which message a task may send besides plan sends *)
Definition task_sends (s : state) (t : task) (h : host) (m : mkind) (c : cause) : Prop :=
  match t with
  | TRetry true h0 => h = h0 /\ m = MOrig (msg_cl s) /\ c = CRetrySame
  | TRetry false _ => False
  | TReprepare h0 qs ks => h = h0 /\ m = MPrepare qs ks /\ c = CReprepare
  | TAfterPrepare h0 (RPrepared _) => h = h0 /\ m = MOrig (msg_cl s) /\ c = CResend
  | TAfterPrepare _ _ => False
  end.

Lemma task_sends_prepare s t h qs ks cz : task_sends s t h (MPrepare qs ks) cz -> t = TReprepare h qs ks.
Proof.
  destruct t as [[|] h0|h0 qs0 ks0|h0 []]; cbn; try contradiction; intros (-> & E & _); try discriminate.
  injection E as -> ->. reflexivity.
Qed.

Definition retry_decision (reuse : bool) : decision := if reuse then DRetry else DNextHost.

Lemma retry_decision_asks_retry reuse : asks_retry (retry_decision reuse) = true.
Proof. destruct reuse; reflexivity. Qed.

(* what a response to a query attempt at host h may enqueue *)
Definition enqueued_by (h : host) (r : resp) (ev : list event) (t : task) : Prop :=
  match t with
  | TRetry reuse h' => h' = h /\ exists n k tag rn cl dcl,
                         r = RRetryable k tag /\ In (Consult n h k tag rn cl (retry_decision reuse) dcl) ev
  | TReprepare h' _ _ => h' = h /\ exists id tag, r = RUnprepared id tag
  | TAfterPrepare _ _ => False
  end.

Section Parts.
Variables (c : config) (K : host -> Prop) (Q : task -> Prop) (E : event -> Prop) (F : list host -> Prop).

Lemma bump_reach s dcl t : K (task_host t) -> Q t -> reach K Q E F (bump_counters s dcl) (bump_retry s dcl t) [].
Proof.
  intros Kt Qt. unfold bump_retry. destruct (is_some (fin_exc s)); [apply reach_nil|apply submit_reach; assumption].
Qed.

Lemma consult_reach s h k tag cl d dcl s' ev : E (Consult (nconsult s) h k tag (retries s) cl d dcl) ->
  reach K Q E F (if asks_retry d then bump_counters (tick_consult s) dcl else tick_consult s) s' ev ->
  reach K Q E F s s' (Consult (nconsult s) h k tag (retries s) cl d dcl :: ev).
Proof.
  intros He. destruct (asks_retry d) eqn:A; [exact (reach_cons (P_retry s h k tag cl d dcl A He))|exact (reach_cons (P_consult s h k tag cl d dcl A He))].
Qed.

Lemma set_result_reach s h r s' ev : K h -> (forall t, enqueued_by h r ev t -> Q t) ->
  (forall k tag d dcl, r = RRetryable k tag ->
     pol c (nconsult s) k tag (retries s) (if request_error_kind k then msg_cl s else None) = (d, dcl) ->
     E (Consult (nconsult s) h k tag (retries s) (if request_error_kind k then msg_cl s else None) d dcl)) ->
  set_result c s h r = (s', ev) -> reach K Q E F s s' ev.
Proof.
  intros Kh HQ HE H. destruct r; cbn [set_result] in H; try (injection H as <- <-).
  - (* RRows *) apply rows_reach.
  - (* RVoid *) apply finish_reach.
  - (* RRowsMore *) apply rows_reach.
  - (* RPrepared *) apply finish_reach.
  - (* RRetryable *)
    destruct (pol c (nconsult s) k tag (retries s) (if request_error_kind k then msg_cl s else None)) as [d dcl] eqn:Pl.
    unfold handle_decision in H. injection H as <- <-.
    assert (Qt : forall reuse, d = retry_decision reuse -> Q (TRetry reuse h)).
    { intros reuse ->. apply HQ. split; [reflexivity|]. do 6 eexists. split; [reflexivity|left; reflexivity]. }
    apply consult_reach; [exact (HE k tag d dcl eq_refl Pl)|]. refine (reach_app _ _ _ [] [_] _ (reach_one _ _ _ (P_err _ h _ Kh))).
    destruct d; cbn [asks_retry].
    + (* DRetry *) apply bump_reach; [exact Kh|apply Qt; reflexivity].
    + (* DRethrow *) apply fail_reach. discriminate.
    + (* DIgnore *) apply finish_reach.
    + (* DNextHost *) apply bump_reach; [exact Kh|apply Qt; reflexivity].
  - (* RUnprepared *) destruct (unprepared_shape c s h id tag) as [(x & N & Eq)|(qs & ks & Eq)]; rewrite Eq in H; injection H as <- <-.
    + apply fail_reach. intros X. destruct (N X).
    + apply submit_reach; [exact Kh|]. apply HQ. split; [reflexivity|eauto].
  - (* ROtherError *) apply fail_reach. discriminate.
  - (* ROtherExc *) apply fail_reach. discriminate.
  - (* RJunk *) apply fail_reach. discriminate.
Qed.

Lemma after_prepare_reach s h r s' ev : K h ->
  (forall id, r = RPrepared id -> pool_of s h = PHealthy -> E (Sent h (MOrig (msg_cl s)) CResend)) ->
  after_prepare c s h r = (s', ev) -> reach K Q E F s s' ev.
Proof.
  intros Kh He H. unfold after_prepare in H.
  destruct (is_some (fin_exc s)); [injection H as <- <-; apply reach_nil|].
  destruct r; try (injection H as <- <-; apply fail_reach; discriminate).
  - (* RPrepared *) assert (G : query_or_next s h (MOrig (msg_cl s)) CResend = (s', ev) -> reach K Q E F s s' ev).
    { apply qon_reach; [exact Kh|discriminate|exact (He id eq_refl)]. }
    destruct (fut_ps c) as [[[pid pqs] pks]|]; [|exact (G H)].
    destruct (negb (pid =? id)); [injection H as <- <-; apply fail_reach; discriminate|exact (G H)].
  - (* RRetryable *) destruct (is_conn_kind k); [|injection H as <- <-; apply fail_reach; discriminate].
    destruct (send_request _ true) as [s2 ev2] eqn:W. injection H as <- <-.
    exact (reach_cons (P_err s h _ Kh) (send_request_reach W)).
Qed.

Lemma run_task_reach s t s' ev : K (task_host t) ->
  (forall h m cz, task_sends s t h m cz -> pool_of s (task_host t) = PHealthy -> E (Sent h m cz)) ->
  run_task c s t = (s', ev) -> reach K Q E F s s' ev.
Proof.
  intros Kt He H. destruct t as [reuse h|h qs ks|h r]; cbn [run_task task_host] in *.
  - destruct (is_some (fin_exc s)); [injection H as <- <-; apply reach_nil|].
    destruct reuse; [|exact (send_request_reach H)].
    revert H. apply qon_reach; [exact Kt|discriminate|]. apply He. repeat split.
  - revert H. apply qon_reach; [exact Kt|discriminate|]. apply He. repeat split.
  - revert H. apply after_prepare_reach; [exact Kt|]. intros id ->. apply He. repeat split.
Qed.
End Parts.

Lemma resp_current_cases c s0 h r s' ev : resp_current c s0 h r = (s', ev) ->
  set_result c s0 h r = (s', ev) \/
  exists k tag dcl reuse s2 ev2, r = RRetryable k tag /\ inline_retry c = true /\
    pol c (nconsult s0) k tag (retries s0) (if request_error_kind k then msg_cl s0 else None) = (retry_decision reuse, dcl) /\
    run_task c (bump_counters (tick_consult s0) dcl) (TRetry reuse h) = (s2, ev2) /\
    s' = set_err s2 h (EResp k tag) /\
    ev = Consult (nconsult s0) h k tag (retries s0) (if request_error_kind k then msg_cl s0 else None) (retry_decision reuse) dcl
         :: ev2 ++ [ErrSet h (EResp k tag)].
Proof.
  intros H. destruct r; cbn [resp_current] in H; auto.
  destruct (inline_retry c) eqn:I; auto. unfold retry_inline in H.
  destruct (pol c (nconsult s0) k tag (retries s0) (if request_error_kind k then msg_cl s0 else None)) as [d dcl] eqn:P.
  destruct d; try (left; exact H).
  - destruct (is_some (fin_exc s0) || session_shut s0); [left; exact H|].
    destruct (run_task c (bump_counters (tick_consult s0) dcl) (TRetry true h)) as [s2 ev2] eqn:R.
    injection H as <- <-. right. exists k, tag, dcl, true, s2, ev2. repeat split; auto.
  - destruct (is_some (fin_exc s0) || session_shut s0); [left; exact H|].
    destruct (run_task c (bump_counters (tick_consult s0) dcl) (TRetry false h)) as [s2 ev2] eqn:R.
    injection H as <- <-. right. exists k, tag, dcl, false, s2, ev2. repeat split; auto.
Qed.

Arguments resp_current_cases {c s0 h r s' ev}.

(* K of a step: the host of the attempt answered or of the task run *)
Definition focus (s : state) (o : op) (h : host) : Prop :=
  match o with
  | Resp i _ => exists a, nth_error (attempts s) i = Some a /\ a_host a = h
  | Run k => exists t, nth_error (queue s) k = Some t /\ task_host t = h
  | _ => False
  end.

(* Q and E of a step, as C17_retry_task_needs_decision, C17_other_sends_are_tasks, C16_consulted_only_on_failure have them.
   Those statements use names that stand in later files; written out here: `if request_error_kind k then msg_cl s else None`
   is C16_proofs.clarg s k, the attempt clause of a Consult is C16_proofs.open_query s i h, and
   `set_attempts s (mark_done i (attempts s))` is C19_proofs.done_i s i. *)
Definition pushed (s : state) (o : op) (ev : list event) (t : task) : Prop :=
  exists i r a, o = Resp i r /\ nth_error (attempts s) i = Some a /\ a_done a = false /\
     (if a_prep a then t = TAfterPrepare (a_host a) r else enqueued_by (a_host a) r ev t).

Definition emitted (c : config) (s : state) (o : op) (e : event) : Prop :=
  match e with
  | Sent h m cz =>
      (exists k t, o = Run k /\ nth_error (queue s) k = Some t /\ task_sends s t h m cz
                   /\ pool_of s (task_host t) = PHealthy)
      \/ (exists i k tag dcl reuse a, o = Resp i (RRetryable k tag) /\ inline_retry c = true /\ nth_error (attempts s) i = Some a /\
        task_sends (bump_counters (tick_consult (set_attempts s (mark_done i (attempts s)))) dcl) (TRetry reuse (a_host a)) h m cz
        /\ pool_of s (a_host a) = PHealthy)
  | ErrSet _ _ => True
  | Consult n h k tag rn cl d dcl =>
      exists i, o = Resp i (RRetryable k tag) /\
        (exists a, nth_error (attempts s) i = Some a /\ a_done a = false /\ a_prep a = false /\ a_host a = h /\
                   a_page a = page_no s) /\
        n = nconsult s /\ rn = retries s /\ cl = (if request_error_kind k then msg_cl s else None) /\
        (d, dcl) = pol c n k tag rn cl
  end.

Definition page_plan (c : config) (o : op) (pl : list host) : Prop :=
  match o with NextPage p => pl = make_plan p (tgt c) | _ => False end.

Theorem step_reach c s o s' ev : step c s o = (s', ev) ->
  reach (focus s o) (pushed s o ev) (emitted c s o) (page_plan c o) s s' ev.
Proof.
  intros H. destruct o as [|i r|k| |h0 p|k|pp]; cbn [step] in *.
  - (* Start *) exact (send_request_reach H).
  - (* Resp *) destruct (nth_error (attempts s) i) as [a|] eqn:N; [|injection H as <- <-; apply reach_nil].
    destruct (a_done a) eqn:D; [injection H as <- <-; apply reach_nil|].
    assert (Kh : focus s (Resp i r) (a_host a)) by (exists a; auto).
    apply (reach_cons (P_done s i a N Kh)).
    destruct (a_prep a) eqn:Pp.
    { injection H as <- <-. apply submit_reach; [exact Kh|]. exists i, r, a. rewrite Pp. auto. }
    destruct (Nat.eqb (a_page a) (page_no s)) eqn:Pg; [|injection H as <- <-; apply reach_nil].
    apply Nat.eqb_eq in Pg.
    assert (Ec : forall k tag d dcl, r = RRetryable k tag ->
      pol c (nconsult s) k tag (retries s) (if request_error_kind k then msg_cl s else None) = (d, dcl) ->
      emitted c s (Resp i r) (Consult (nconsult s) (a_host a) k tag (retries s)
                                 (if request_error_kind k then msg_cl s else None) d dcl)).
    { intros k tag d dcl -> Pl. exists i. split; [reflexivity|]. split; [exists a; repeat split; assumption|]. repeat split; symmetry; exact Pl. }
    destruct (resp_current_cases H) as [H'|(k & tag & dcl & reuse & s2 & ev2 & -> & I & Pl & R & -> & ->)].
    + revert H'. apply set_result_reach; [exact Kh| |exact Ec].
      intros t Ht. exists i, r, a. rewrite Pp. auto.
    + apply consult_reach; [exact (Ec _ _ _ _ eq_refl Pl)|].
      rewrite retry_decision_asks_retry.
      apply (reach_app _ s2); [|apply reach_one, P_err; exact Kh].
      revert R. apply run_task_reach; [exact Kh|].
      intros h m cz T Hp. right. exists i, k, tag, dcl, reuse, a. repeat split; assumption.
  - (* Run *) destruct (nth_error (queue s) k) as [t|] eqn:N; [|injection H as <- <-; apply reach_nil].
    assert (Kt : focus s (Run k) (task_host t)) by (exists t; auto).
    apply (reach_cons (P_deq s k t N Kt)).
    revert H. apply run_task_reach; [exact Kt|].
    intros h m cz T Hp. left. exists k, t. auto.
  - (* Spec *) exact (spec_fire_reach H).
  - (* SetPool *) injection H as <- <-. apply reach_one, P_env.
  - (* SetKs *) injection H as <- <-. apply reach_one, P_env.
  - (* NextPage *) destruct (paging s); [|injection H as <- <-; apply reach_nil].
    rewrite page_start_eq in H. apply (reach_cons (P_fresh (F := page_plan c (NextPage pp)) s _ eq_refl)).
    exact (reach_app _ _ _ [] ev (start_timer_reach _) (send_request_reach H)).
Qed.

Arguments step_reach {c s o s' ev}.

Lemma step_reach_no_page {c s o s' ev} : is_next_page o = false -> step c s o = (s', ev) ->
  reach (focus s o) (pushed s o ev) (emitted c s o) nothing s s' ev.
Proof.
  intros NP H. refine (reach_mono _ _ _ _ (step_reach H)); auto.
  destruct o; try contradiction. discriminate NP.
Qed.

Lemma step_run c s k t : nth_error (queue s) k = Some t ->
  step c s (Run k) = run_task c (set_queue s (remove_nth k (queue s))) t.
Proof. intros N. cbn [step]. rewrite N. reflexivity. Qed.

Lemma remove_nth_app_last {A} (l : list A) x : remove_nth (length l) (l ++ [x]) = l.
Proof. induction l; cbn; [reflexivity|]. rewrite IHl. reflexivity. Qed.

Lemma run_last c s q t : queue s = q ++ [t] -> step c s (Run (length q)) = run_task c (set_queue s q) t.
Proof.
  intros Q. rewrite (step_run c s _ t), Q, remove_nth_app_last; [reflexivity|].
  rewrite Q. exact (nth_error_app_len q [t]).
Qed.

Section Origin.
Variables (K : host -> Prop) (Q : task -> Prop) (E : event -> Prop) (F : list host -> Prop).

Definition event_origin (e : event) : Prop :=
  match e with Sent _ m cz => plan_msg m cz \/ E e | ErrSet _ _ => True | Consult _ _ _ _ _ _ _ _ => E e end.

Lemma reach_events s s' ev : reach K Q E F s s' ev -> forall e, In e ev -> event_origin e.
Proof.
  revert s s' ev. apply (reach_rel (fun _ _ ev => forall e, In e ev -> event_origin e)).
  - intros s e [].
  - intros s1 s2 s3 e1 e2 R1 R2 e Hin. apply in_app_iff in Hin. destruct Hin; [apply R1|apply R2]; assumption.
  - intros s s' ev P e Hin. destruct P; try contradiction; destruct Hin as [<-|[]]; cbn; auto.
    (* P_plan_sent *) left. split; [reflexivity|eauto].
Qed.

Lemma reach_queue s s' ev : reach K Q E F s s' ev -> forall t, In t (queue s') -> In t (queue s) \/ Q t.
Proof.
  revert s s' ev. apply (reach_rel (fun s s' _ => forall t, In t (queue s') -> In t (queue s) \/ Q t)).
  - auto.
  - intros s1 s2 s3 _ _ R1 R2 t Hin. destruct (R2 t Hin) as [G|G]; auto.
  - intros s s' ev P t Hin. destruct P as [| | | | | | | | | | | | | |k t0 _ _|]; try (left; exact Hin).
    + (* P_push *) cbn [queue push_task] in Hin. apply in_app_iff in Hin. destruct Hin as [Hin|[<-|[]]]; auto.
    + (* P_deq *) left. exact (In_remove_at _ _ _ Hin).
Qed.
End Origin.
Arguments reach_events {K Q E F s s' ev}.
Arguments reach_queue {K Q E F s s' ev}.

Lemma exec_rel c (ok : op -> Prop) (R : state -> state -> list event -> Prop) :
  (forall s, R s s []) -> (forall s1 s2 s3 e1 e2, R s1 s2 e1 -> R s2 s3 e2 -> R s1 s3 (e1 ++ e2)) ->
  (forall s o s' ev, ok o -> step c s o = (s', ev) -> R s s' ev) ->
  forall ops s s' ev, Forall ok ops -> exec c s ops = (s', ev) -> R s s' ev.
Proof.
  intros Rr Rt Rs. induction ops as [|o ops IH]; intros s s' ev F H; cbn [exec] in H.
  - injection H as <- <-. apply Rr.
  - destruct (step c s o) as [s1 ev1] eqn:S. destruct (exec c s1 ops) as [s2 ev2] eqn:X. injection H as <- <-.
    inversion F; subst. eauto.
Qed.

Lemma no_page_Forall ops : no_page ops = true -> Forall (fun o => is_next_page o = false) ops.
Proof.
  unfold no_page. rewrite forallb_forall, Forall_forall. intros H o Hin. apply negb_true_iff. exact (H o Hin).
Qed.

Lemma exec_reach c (F : list host -> Prop) ops s s' ev :
  Forall (fun o => forall pl, page_plan c o pl -> F pl) ops -> exec c s ops = (s', ev) ->
  reach anything anything anything F s s' ev.
Proof.
  apply (exec_rel c (fun o => forall pl, page_plan c o pl -> F pl)); [apply reach_nil|apply reach_app|].
  intros s0 o s1 e HF S.
  exact (reach_mono (fun _ _ => I) (fun _ _ => I) (fun _ _ => I) HF (step_reach S)).
Qed.

Lemma exec_moves {c ops s s' ev} : exec c s ops = (s', ev) -> reach anything anything anything anything s s' ev.
Proof. apply exec_reach, Forall_forall. intros o _ pl _. exact I. Qed.

Lemma exec_moves_no_page {c ops s s' ev} : no_page ops = true -> exec c s ops = (s', ev) ->
  reach anything anything anything nothing s s' ev.
Proof.
  intros NP. apply exec_reach. refine (Forall_impl _ _ (no_page_Forall ops NP)).
  intros [] Np pl Pl; [destruct Pl ..|discriminate Np].
Qed.
