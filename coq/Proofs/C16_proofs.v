From Coq Require Import ZArith List.
From Verif Require Import FutB FutB_lemmas FutB_steps FutB_origin.
Import ListNotations.
Local Open Scope Z_scope.

Definition is_consult (e : event) : bool := match e with Consult _ _ _ _ _ _ _ _ => true | _ => false end.
Definition consults (ev : list event) : list event := filter is_consult ev.

Definition is_retry_decision (e : event) : bool :=
  match e with Consult _ _ _ _ _ _ DRetry _ | Consult _ _ _ _ _ _ DNextHost _ => true | _ => false end.
Definition retry_count (ev : list event) : Z := Z.of_nat (length (filter is_retry_decision ev)).

Definition clarg (s : state) (k : ekind) : option Z := if request_error_kind k then msg_cl s else None.

Definition open_query (s : state) (i : nat) (h : host) : Prop :=
  exists a, nth_error (attempts s) i = Some a /\ a_done a = false /\ a_prep a = false /\ a_host a = h /\
            a_page a = page_no s.     (* an execution of the CURRENT page fetch *)

Lemma step_resp_query c s i r h : open_query s i h ->
  step c s (Resp i r) = resp_current c (set_attempts s (mark_done i (attempts s))) h r.
Proof. intros (a & N & D & P & <- & Pg). cbn [step]. rewrite N, D, P, Pg, Nat.eqb_refl. reflexivity. Qed.

(* _handle_retry_decision for RETRY / RETRY_NEXT_HOST on any state S: counter, level, hand-over to the executor *)
Definition retry_effect (S S1 : state) (dcl : option Z) (t : task) : Prop :=
  retries S1 = retries S + 1 /\
  (fin_exc S = None -> session_shut S = false ->
     fin_res S1 = fin_res S /\ fin_exc S1 = None /\ queue S1 = queue S ++ [t] /\
     msg_cl S1 = match dcl with Some x => Some x | None => msg_cl S end) /\
  (fin_exc S = None -> session_shut S = true ->       (* Session.shutdown() happened: the retry is refused *)
     queue S1 = queue S /\ fin_res S1 = fin_res S /\ fin_exc S1 = (if completed S then None else Some XShutdown)) /\
  (fin_exc S <> None -> queue S1 = queue S /\ fin_exc S1 = fin_exc S /\ fin_res S1 = fin_res S /\ msg_cl S1 = msg_cl S).

Lemma bump_spec s0 dcl t :
  retry_effect s0 (bump_retry s0 dcl t) dcl t /\ nconsult (bump_retry s0 dcl t) = nconsult s0 /\
  attempts (bump_retry s0 dcl t) = attempts s0 /\ plan (bump_retry s0 dcl t) = plan s0 /\ pools (bump_retry s0 dcl t) = pools s0.
Proof.
  unfold retry_effect, bump_retry, submit. change (session_shut (bump_counters s0 dcl)) with (session_shut s0).
  destruct (fin_exc s0) as [x|] eqn:F.
  - cbn. rewrite F. repeat split; intros; discriminate.
  - destruct (session_shut s0) eqn:Sh.
    + unfold fail_with, completed. cbn [fin_res fin_exc bump_counters]. rewrite F.
      destruct (fin_res s0) eqn:R; cbn; repeat split; intros; congruence.
    + cbn. rewrite F. repeat split; intros; congruence.
Qed.

Lemma handle_decision_spec s0 h k tag d dcl (s1 := fst (handle_decision s0 h k tag d dcl)) :
  lookup (errors s1) h = Some (EResp k tag) /\ nconsult s1 = nconsult s0 /\ attempts s1 = attempts s0 /\
  plan s1 = plan s0 /\ pools s1 = pools s0 /\
  match d with
  | DRetry => retry_effect s0 s1 dcl (TRetry true h)
  | DNextHost => retry_effect s0 s1 dcl (TRetry false h)
  | DRethrow => fin_exc s1 = (if completed s0 then fin_exc s0 else Some (XResp k tag)) /\ fin_res s1 = fin_res s0 /\
                queue s1 = queue s0 /\ retries s1 = retries s0 /\ msg_cl s1 = msg_cl s0
  | DIgnore => fin_res s1 = (if completed s0 then fin_res s0 else Some FNone) /\ fin_exc s1 = fin_exc s0 /\
               queue s1 = queue s0 /\ retries s1 = retries s0 /\ msg_cl s1 = msg_cl s0
  end.
Proof.
  unfold s1, handle_decision. cbn [fst set_err errors]. rewrite lookup_upd, Z.eqb_refl. split; [reflexivity|].
  destruct d.
  - destruct (bump_spec s0 dcl (TRetry true h)) as (E & B1 & B2 & B3 & B4). auto.
  - unfold fail_with. destruct (completed s0); repeat split.
  - unfold finish_with. destruct (completed s0); repeat split.
  - destruct (bump_spec s0 dcl (TRetry false h)) as (E & B1 & B2 & B3 & B4). auto.
Qed.

Lemma retryable_step c s i h k tag d dcl : open_query s i h -> inline_retry c = false ->
  pol c (nconsult s) k tag (retries s) (clarg s k) = (d, dcl) ->
  step c s (Resp i (RRetryable k tag)) =
    (fst (handle_decision (tick_consult (set_attempts s (mark_done i (attempts s)))) h k tag d dcl),
     [Consult (nconsult s) h k tag (retries s) (clarg s k) d dcl; ErrSet h (EResp k tag)]).
Proof.
  intros O Inl P. rewrite (step_resp_query c s i _ h O). cbn [resp_current]. rewrite Inl. cbn [set_result].
  change (if request_error_kind k then msg_cl (set_attempts s (mark_done i (attempts s))) else None) with (clarg s k).
  cbn [nconsult retries set_attempts]. rewrite P. reflexivity.
Qed.

Lemma retry_queued c s i h k tag reuse dcl s1 ev1 : open_query s i h -> fin_exc s = None -> session_shut s = false ->
  inline_retry c = false -> pol c (nconsult s) k tag (retries s) (clarg s k) = (retry_decision reuse, dcl) ->
  step c s (Resp i (RRetryable k tag)) = (s1, ev1) ->
  queue s1 = queue s ++ [TRetry reuse h] /\ fin_exc s1 = None /\ plan s1 = plan s /\ pools s1 = pools s /\
  msg_cl s1 = match dcl with Some x => Some x | None => msg_cl s end.
Proof.
  intros O E Sh Inl P S1. rewrite (retryable_step c s i h k tag _ dcl O Inl P) in S1. injection S1 as <- _.
  destruct (bump_spec (tick_consult (set_attempts s (mark_done i (attempts s)))) dcl (TRetry reuse h)) as ((_ & Rq & _) & _ & _ & B3 & B4).
  destruct (Rq E Sh) as (_ & Re & Q & C). destruct reuse; auto.
Qed.

Definition counted (s s' : state) (ev : list event) : Prop :=
  retries s' = retries s + retry_count ev /\ nconsult s' = (nconsult s + length (consults ev))%nat.

Lemma counted_refl s : counted s s [].
Proof. split; [apply Zplus_0_r_reverse|apply plus_n_O]. Qed.

Lemma counted_trans s1 s2 s3 e1 e2 : counted s1 s2 e1 -> counted s2 s3 e2 -> counted s1 s3 (e1 ++ e2).
Proof.
  intros [A1 A2] [B1 B2]. unfold counted, retry_count, consults in *. rewrite !filter_app, !app_length, Nat2Z.inj_add, B1, B2, A1, A2.
  split; [ring|symmetry; apply Nat.add_assoc].
Qed.

Lemma reach_counted {K Q E F s s' ev} : reach K Q E F s s' ev -> counted s s' ev.
Proof.
  revert s s' ev. apply reach_rel; [exact counted_refl|exact counted_trans|].
  intros s1 s2 e P. destruct P as [| | | | | | | | |h k tag cl d dcl A _|h k tag cl d dcl A _| | | | |]; try exact (counted_refl s1);
    (* P_consult, P_retry *) destruct d; try discriminate A; unfold counted, retry_count, consults; cbn; split; try ring; symmetry; apply Nat.add_1_r.
Qed.

(* the invariant of a future created without a speculative plan *)
Definition never_spec (s : state) : Prop := spec_armed s = false /\ spec_left s = 0.

Lemma reach_never_spec {K Q E F s s' ev} : reach K Q E F s s' ev -> never_spec s -> never_spec s'.
Proof.
  apply reach_keeps. clear. intros s1 s2 e P [A L].
  destruct P as [| | | | | | | | | | |a l [G|G]| | | |];
    try (split; [try exact A; reflexivity|exact L]).
  - congruence.    (* P_spec needs a live timer ... *)
  - rewrite L in G. discriminate G.    (* ... or a speculative execution left *)
Qed.

Lemma init_never_spec lb target pl cl hasp maxa ks : never_spec (init lb target pl cl false hasp maxa ks).
Proof. unfold init. edestruct start_timer_eq as (a & l & -> & Hz). destruct (Hz eq_refl) as [-> ->]. split; reflexivity. Qed.

Lemma init_counters lb target pl cl idem hasp maxa ks (s0 := init lb target pl cl idem hasp maxa ks) : retries s0 = 0 /\ nconsult s0 = 0%nat.
Proof. unfold s0, init. edestruct start_timer_eq as (a & l & -> & _). split; reflexivity. Qed.

Definition cframe (s s' : state) : Prop :=
  retries s' = retries s /\ nconsult s' = nconsult s /\ spec_left s' = spec_left s /\
  (spec_armed s' = true -> spec_armed s = true) /\ pools s' = pools s /\ conn_ks s' = conn_ks s.

Lemma set_exc_cframe s x : cframe s (set_exc s x).
Proof. repeat split. discriminate. Qed.

Lemma finish_with_cframe s r : cframe s (finish_with s r).
Proof. unfold finish_with. destruct (completed s); repeat split; discriminate. Qed.
