(* C45 for the HostConnectionPool of native protocol v1/v2 (Model/LegacyPool.v). *)
From Coq Require Import List Bool Arith Lia.
From Verif Require Import ListFacts LegacyPool.
Import ListNotations.

(* n = the connections that must be accounted for (the one a running creation has just opened may be exempt) *)
Definition LId (s : ls) (n : nat) : Prop :=
  (forall c, c < n -> In c (lclosed s) \/ In c (lconns s) \/ In c (ltrash s)) /\
  (lshut s = true -> forall c, In c (lconns s) \/ In c (ltrash s) -> In c (lclosed s)).
Definition LI (s : ls) : Prop := LId s (lnconn s).

Lemma LI_init : LI linit.
Proof. split; [|discriminate]. intros c Hc. right; left. cbn in *. lia. Qed.

(* tr: c leaves the trash (true) or _connections (false); a b d e: the fields LI does not read, so that lstep's states match by conversion *)
Lemma LI_close_at [s] (tr : bool) i [c a b d e] : LI s -> nth_error (if tr then ltrash s else lconns s) i = Some c ->
  LI (mkl (lnconn s) (c :: lclosed s) (if tr then lconns s else remove_nth i (lconns s))
          (if tr then remove_nth i (ltrash s) else ltrash s) (lshut s) a b d e).
Proof.
  intros (A & B) Ei. pose proof (fun x => In_removed_or i _ c x Ei) as Hout. destruct tr; (split; cbn).
  - intros x Hx. destruct (A x Hx) as [Hcl | [Hco | Htr]]; [auto | auto |]. destruct (Hout x Htr) as [-> | Hr]; auto.
  - intros Hs x [Hco | Htr]; right; apply (B Hs); [left; exact Hco | right; exact (In_remove_at i _ x Htr)].
  - intros x Hx. destruct (A x Hx) as [Hcl | [Hco | Htr]]; [auto | | auto]. destruct (Hout x Hco) as [-> | Hr]; auto.
  - intros Hs x [Hco | Htr]; right; apply (B Hs); [left; exact (In_remove_at i _ x Hco) | right; exact Htr].
Qed.

Lemma LI_submit s t : LI s -> LI (l_submit s t).
Proof. intros H. unfold l_submit. destruct (lsess_down s); exact H. Qed.

Lemma lnconn_pool_shutdown s : lnconn (pool_shutdown s) = lnconn s.
Proof. unfold pool_shutdown. destruct (lshut s); reflexivity. Qed.

Lemma lshut_pool_shutdown s : lshut (pool_shutdown s) = true.
Proof. unfold pool_shutdown. destruct (lshut s) eqn:E; [exact E | reflexivity]. Qed.

Lemma LId_pool_shutdown s n : LId s n -> LId (pool_shutdown s) n.
Proof.
  intros H. unfold pool_shutdown. destruct (lshut s); [exact H|]. destruct H as (A & _). split.
  - intros c Hc. destruct (A c Hc) as [H | [H | H]]; auto.
    left. apply in_or_app. right. apply in_or_app. right. exact H.
  - intros _ c [H | H]; apply in_or_app; [right; apply in_or_app; left; exact H | left; exact H].
Qed.

Lemma LI_pool_shutdown s : LI s -> LI (pool_shutdown s).
Proof. intros H. unfold LI. rewrite lnconn_pool_shutdown. exact (LId_pool_shutdown s _ H). Qed.

Lemma LI_add_conn_ok s1 c d : LId s1 c -> lnconn s1 = S c -> LI (fst (add_conn_ok s1 c d)).
Proof.
  intros H1 E1. unfold add_conn_ok.
  set (s2 := if (d =? 1) || (d =? 2) then shutdown s1 else s1).
  assert (H2 : LId s2 c /\ lnconn s2 = S c).
  { unfold s2. destruct ((d =? 1) || (d =? 2)); [|exact (conj H1 E1)].
    split; [exact (LId_pool_shutdown (sess_flag s1) c H1) | exact (eq_trans (lnconn_pool_shutdown (sess_flag s1)) E1)]. }
  destruct H2 as ((A & B) & En). unfold LI.
  destruct (lshut s2); cbn [fst lnconn]; rewrite En; (split; cbn [lclosed lconns ltrash lshut]).
  - intros x Hx. assert (x < c \/ x = c) as [Hl | ->] by lia; [|left; left; reflexivity].
    destruct (A x Hl) as [H | H]; [left; right; exact H | right; exact H].
  - intros _ x Hx. right. exact (B eq_refl x Hx).
  - intros x Hx. assert (x < c \/ x = c) as [Hl | ->] by lia.
    + destruct (A x Hl) as [H | [H | H]]; auto. right; left. apply in_or_app. left. exact H.
    + right; left. apply in_or_app. right. left. reflexivity.
  - discriminate.
Qed.

Lemma LI_add_conn s ok d : LI s -> LI (fst (add_conn s ok d)).
Proof.
  intros H. unfold add_conn. destruct (lshut s); [exact H|]. destruct (maxc <=? lopen s); [exact H|].
  destruct ok; [apply LI_add_conn_ok; [|reflexivity]|]; (split; [exact (proj1 H) | discriminate]).
Qed.

Lemma LI_run_lt s t ok d : LI s -> LI (run_lt s t ok d).
Proof.
  intros H. pose proof (LI_add_conn s ok d H) as H1. destruct t; cbn [run_lt]; destruct (add_conn s ok d) as [s1 r].
  - exact H1.
  - destruct r; [exact H1 | exact (LI_submit _ _ H1)].
Qed.

Lemma LI_step s o : LI s -> LI (lstep s o).
Proof.
  intros H. destruct o; cbn [lstep].
  - (* LSpawn *) destruct ((1 <=? lsched s) || (maxc <=? lopen s)); [exact H|]. apply LI_submit. exact H.
  - destruct (nth_error (lqueue s) k); [|exact H]. apply LI_run_lt. exact H.
  - apply LI_pool_shutdown. exact H.
  - (* LShutdownRacing *) destruct (nth_error (lqueue s) k); [|exact H]. destruct (lsess_down s); [exact H|].
    apply LI_pool_shutdown, LI_run_lt. exact H.
  - destruct (nth_error (lconns s) i) as [c|] eqn:Ei; [|exact H]. destruct (core <? lopen s); [|exact H].
    pose proof (fun x => In_removed_or i _ c x Ei) as Hout. pose proof (In_remove_at i (lconns s)) as Hin.
    destruct busy; [|exact (LI_close_at false i H Ei)].
    pose proof (nth_error_In _ _ Ei) as Hc. destruct H as (A & B). split; cbn.
    + intros x Hx. destruct (A x Hx) as [Hcl | [Hco | Htr]]; [auto | | auto]. destruct (Hout x Hco) as [-> | Hr]; auto.
    + intros Hs x [Hco | [<- | Htr]]; apply (B Hs); [left; exact (Hin x Hco) | left; exact Hc | right; exact Htr].
  - (* LLost *) destruct (nth_error (lconns s) i) as [c|] eqn:Ei; [|exact H]. apply LI_submit.
    exact (LI_close_at false i H Ei).
  - destruct (nth_error (ltrash s) i) as [c|] eqn:Ei; [|exact H]. destruct (existsb (Nat.eqb c) (lclosed s)); [exact H|].
    exact (LI_close_at true i H Ei).
Qed.

Lemma LI_run os : forall s, LI s -> LI (lrun s os).
Proof. exact (fold_left_inv lstep LI LI_step os). Qed.

Lemma legacy_all_closed s : LI s -> lshut s = true -> forall c, c < lnconn s -> In c (lclosed s).
Proof. intros (A & B) Hs c Hc. destruct (A c Hc) as [H | H]; [exact H | exact (B Hs c H)]. Qed.

Lemma shut_add_conn s ok d : lshut s = true -> add_conn s ok d = (s, true).
Proof. intros H. unfold add_conn. rewrite H. reflexivity. Qed.

Lemma shut_run_lt s t ok d : lshut s = true -> lnconn (run_lt s t ok d) = lnconn s /\ lshut (run_lt s t ok d) = true.
Proof. intros H. destruct t; cbn [run_lt]; rewrite (shut_add_conn s ok d H); auto. Qed.

Lemma shut_step s o : lshut s = true -> lnconn (lstep s o) = lnconn s /\ lshut (lstep s o) = true.
Proof.
  intros H. destruct o; cbn [lstep].
  - (* LSpawn *) destruct ((1 <=? lsched s) || (maxc <=? lopen s)); auto. unfold l_submit. destruct (lsess_down s); auto.
  - destruct (nth_error (lqueue s) k) as [t|]; auto. exact (shut_run_lt (pop_task s k) t ok d H).
  - exact (conj (lnconn_pool_shutdown _) (lshut_pool_shutdown _)).
  - (* LShutdownRacing *) destruct (nth_error (lqueue s) k) as [t|]; auto. destruct (lsess_down s); auto.
    rewrite lnconn_pool_shutdown, lshut_pool_shutdown.
    split; [exact (proj1 (shut_run_lt (pop_task (sess_flag s) k) t true 0 H)) | reflexivity].
  - destruct (nth_error (lconns s) i); auto. destruct (core <? lopen s); auto. destruct busy; auto.
  - (* LLost *) destruct (nth_error (lconns s) i); auto. unfold l_submit. destruct (lsess_down s); auto.
  - destruct (nth_error (ltrash s) i) as [c|]; auto. destruct (existsb (Nat.eqb c) (lclosed s)); auto.
Qed.
