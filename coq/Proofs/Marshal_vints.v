(* Laws of the GENERATED vints_pack / vints_unpack (sequences of zig-zag vints; Gen/MarshalGen.v) against
   Model/VIntCoding.v: the encoder for all lists of integers, the decoder for all byte strings; the round trip is
   proved of the specification's decoder. *)
From Coq Require Import ZArith List Bool Lia ZifyBool.
From Verif Require Import PyBase JavaBigInteger VIntCoding MarshalGen ListFacts BytesBE Marshal_vint.
Import ListNotations.
Local Open Scope Z_scope.

Lemma rev_concat_rev {A B} (f : A -> list B) l : rev (concat (map (fun x => rev (f x)) (rev l))) = concat (map f l).
Proof.
  induction l as [|a l IH]; [reflexivity|]. cbn [rev map concat].
  rewrite map_app, concat_app, rev_app_distr. cbn [map concat]. rewrite app_nil_r, rev_involutive, IH. reflexivity.
Qed.

Lemma forallb_rev {A} (f : A -> bool) l : forallb f (rev l) = forallb f l.
Proof.
  induction l as [|a l IH]; [reflexivity|]. cbn [rev forallb]. rewrite forallb_app, IH. cbn [forallb].
  rewrite andb_true_r. apply andb_comm.
Qed.

(* vints_pack carries its own residual copy of uvint_pack's loop; neither reads its first arguments *)
Lemma vints_loop_acc fuel values value val e nb r acc rv v :
  vints_pack_loop2 fuel values value e nb r (acc ++ rv) v =
  bind (uvint_pack_loop1 fuel val e nb r rv v) (fun '(e', nb', r', rv', v') => Ok (e', nb', r', acc ++ rv', v')).
Proof.
  revert e nb r rv v. induction fuel as [|fuel IH]; intros e nb r rv v; [reflexivity|].
  cbn [vints_pack_loop2 uvint_pack_loop1]. destruct (nb >? 8 - r); [|reflexivity].
  destruct (py_byte_check (Z.land v 255)); cbn [bind]; [|reflexivity|reflexivity].
  rewrite <- app_assoc. apply IH.
Qed.

(* the body of the loop over the values is uvint_pack of the zig-zag value, inlined *)
Lemma vints_pack_step x xs vals acc :
  vints_pack_loop1 (x :: xs) vals acc =
  bind (uvint_pack (encode_zig_zag x)) (fun bs => vints_pack_loop1 xs vals (acc ++ rev bs)).
Proof.
  cbn [vints_pack_loop1]. unfold uvint_pack. set (v := encode_zig_zag x).
  destruct (v <? 128).
  - destruct (py_byte_check v); reflexivity.
  - rewrite <- (app_nil_r acc) at 1. rewrite (vints_loop_acc _ _ _ v). cbn [app].
    destruct (uvint_pack_loop1 _ v 0 _ _ [] v) as [[[[[e nb] r] rv] v']| |]; cbn [bind]; [|reflexivity|reflexivity].
    destruct (e >? 8); [reflexivity|].
    destruct (py_byte_check _); cbn [bind]; [|reflexivity|reflexivity].
    rewrite rev_involutive, app_assoc. reflexivity.
Qed.

Lemma in_int64b_spec x : in_int64b x = true <-> in_int64 x.
Proof. unfold in_int64b, in_int64. lia. Qed.

(* writeVInt at the level of the specification: zig-zag, then the unsigned vint; the longs are exactly what it accepts *)
Lemma vint_encode_cases x : uvint_encode (encode_zig_zag x) = if in_int64b x then Some (vint_bytes x) else None.
Proof.
  destruct (in_int64b x) eqn:E.
  - apply in_int64b_spec in E. rewrite encode_zig_zag_long by exact E. rewrite uvint_encode_in by apply zigzag_encode_range, E.
    reflexivity.
  - assert (Hx : ~ in_int64 x) by (intros Hc; apply in_int64b_spec in Hc; congruence).
    apply uvint_encode_out. pose proof (zigzag_out_of_range x Hx). unfold in_uint64. lia.
Qed.

Lemma vint_pack_spec x : uvint_pack (encode_zig_zag x) = if in_int64b x then Ok (vint_bytes x) else Raise.
Proof. rewrite uvint_pack_run, vint_encode_cases. destruct (in_int64b x); reflexivity. Qed.

Lemma vints_pack_loop_spec : forall xs vals acc,
  vints_pack_loop1 xs vals acc =
  if forallb in_int64b xs then Ok (acc ++ concat (map (fun x => rev (vint_bytes x)) xs)) else Raise.
Proof.
  induction xs as [|x xs IH]; intros vals acc.
  - cbn. rewrite app_nil_r. reflexivity.
  - rewrite vints_pack_step, vint_pack_spec. cbn [forallb map concat]. destruct (in_int64b x); [|reflexivity].
    cbn [bind andb]. rewrite IH. destruct (forallb in_int64b xs); [|reflexivity]. rewrite app_assoc. reflexivity.
Qed.

Lemma vints_encode_concat vals : vints_encode vals =
  if forallb in_int64b vals then Some (concat (map vint_bytes vals)) else None.
Proof.
  induction vals as [|x vals IH]; [reflexivity|]. cbn [vints_encode forallb map concat].
  destruct (in_int64b x); [|reflexivity]. rewrite IH. cbn [andb]. destruct (forallb in_int64b vals); reflexivity.
Qed.

Lemma forallb_in_int64 vals : forallb in_int64b vals = true <-> Forall in_int64 vals.
Proof. rewrite forallb_forall, Forall_forall. split; intros H x Hx; apply in_int64b_spec, H, Hx. Qed.

Lemma vints_encode_in vals : Forall in_int64 vals -> vints_encode vals = Some (concat (map vint_bytes vals)).
Proof. intros H. apply forallb_in_int64 in H. rewrite vints_encode_concat, H. reflexivity. Qed.

Lemma vints_encode_out vals : ~ Forall in_int64 vals -> vints_encode vals = None.
Proof.
  intros H. rewrite vints_encode_concat. destruct (forallb in_int64b vals) eqn:E; [|reflexivity].
  apply forallb_in_int64 in E. contradiction.
Qed.

Lemma vints_pack_cases vals :
  vints_pack vals = if forallb in_int64b vals then Ok (concat (map vint_bytes vals)) else Raise.
Proof.
  unfold vints_pack. rewrite map_id, vints_pack_loop_spec, forallb_rev.
  destruct (forallb in_int64b vals); [|reflexivity]. cbn [bind app]. rewrite rev_concat_rev. reflexivity.
Qed.

Theorem vints_pack_run vals : vints_pack vals = of_option (vints_encode vals).
Proof. rewrite vints_pack_cases, vints_encode_concat. destruct (forallb in_int64b vals); reflexivity. Qed.

Theorem vints_pack_spec vals : Forall in_int64 vals -> vints_pack vals = Ok (concat (map vint_bytes vals)).
Proof. intros H. rewrite vints_pack_run, vints_encode_in by exact H. reflexivity. Qed.

Theorem vints_pack_rejects vals : ~ Forall in_int64 vals -> vints_pack vals = Raise.
Proof. intros H. rewrite vints_pack_run, vints_encode_out by exact H. reflexivity. Qed.

Lemma vint_bytes_bytes x : in_int64 x -> Forall is_byte (vint_bytes x).
Proof. intros Hx. apply uvint_bytes_bytes, zigzag_encode_range, Hx. Qed.

Lemma vints_bytes_bytes vals : Forall in_int64 vals -> Forall is_byte (concat (map vint_bytes vals)).
Proof. intros Hv. apply Forall_concat, Forall_map. revert Hv. apply Forall_impl, vint_bytes_bytes. Qed.

Lemma vints_decode_fuel_spec : forall vals fuel, Forall in_int64 vals ->
  (length (concat (map vint_bytes vals)) <= fuel)%nat ->
  vints_decode_fuel fuel (concat (map vint_bytes vals)) = Some vals.
Proof.
  induction vals as [|x vals IH]; intros fuel Hv Hf; [destruct fuel; reflexivity|].
  inversion Hv as [|? ? Hx Hv']; subst. cbn [map concat] in *.
  pose proof (zigzag_encode_range x Hx) as Hu. pose proof (zigzag_decode_encode x Hx) as Hdec.
  unfold vint_bytes at 1 in Hf. unfold vint_bytes at 1. set (u := zigzag_encode x) in *.
  set (rest := concat (map vint_bytes vals)) in *.
  rewrite app_length, uvint_bytes_length in Hf.
  destruct fuel as [|fuel]; [lia|].
  (* vints_decode_fuel looks whether its argument is empty: show it the cons, then fold that back *)
  cbn [vints_decode_fuel uvint_bytes app].
  change (vint_first_byte u :: be_bytes (Z.to_nat (vint_extra u)) u ++ rest) with (uvint_bytes u ++ rest).
  rewrite (uvint_decode_roundtrip u rest) by exact Hu.
  rewrite uvint_bytes_skipn. rewrite (IH fuel Hv' ltac:(lia)). rewrite Hdec. reflexivity.
Qed.

Theorem vints_decode_spec vals : Forall in_int64 vals -> vints_decode (concat (map vint_bytes vals)) = Some vals.
Proof. intros Hv. apply vints_decode_fuel_spec; [exact Hv|lia]. Qed.

(* values, fb, ne: parameters the generated loop never reads *)
Lemma vints_unpack_inner : forall (k : nat) pre x rest values fb ne acc fuel, Forall is_byte (firstn k rest) ->
  (k < fuel)%nat ->
  vints_unpack_loop2 fuel (pre ++ x :: rest) values fb ne (Z.of_nat (length pre) + Z.of_nat k) (Z.of_nat (length pre)) acc
  = if (k <=? length rest)%nat
    then Ok (Z.of_nat (length pre) + Z.of_nat k, fold_left (fun a b => a * 256 + b) (firstn k rest) acc) else Raise.
Proof.
  induction k as [|k IH]; intros pre x rest values fb ne acc fuel Hb Hf;
    (destruct fuel as [|fuel]; [lia|]); cbn [vints_unpack_loop2].
  - rewrite Z.add_0_r, Z.ltb_irrefl. reflexivity.
  - destruct (Z.of_nat (length pre) <? Z.of_nat (length pre) + Z.of_nat (S k)) eqn:E; [|lia].
    replace (pre ++ x :: rest) with ((pre ++ [x]) ++ rest) by (rewrite <- app_assoc; reflexivity).
    replace (Z.of_nat (length pre) + 1) with (Z.of_nat (length (pre ++ [x]))) by (rewrite app_length; cbn [length]; lia).
    replace (Z.of_nat (length pre) + Z.of_nat (S k)) with (Z.of_nat (length (pre ++ [x])) + Z.of_nat k)
      by (rewrite app_length; cbn [length]; lia).
    destruct rest as [|b r].
    + rewrite app_nil_r. rewrite py_index_out by lia. reflexivity.
    + cbn [firstn] in Hb. inversion Hb as [|? ? Hx Hb']; subst.
      rewrite py_index_app_mid. cbn [bind]. rewrite shl8_lor_byte by exact Hx.
      apply (IH (pre ++ [x]) b r values fb ne (acc * 256 + b) fuel Hb'). lia.
Qed.

(* one turn of the loop over the buffer is one step of the specification's decoder on what is left of it *)
Lemma vints_unpack_step f pre b rest acc : Forall is_byte (b :: rest) ->
  vints_unpack_loop1 (S f) (pre ++ b :: rest) (Z.of_nat (length pre)) acc =
  match uvint_decode (b :: rest) with
  | Some (u, used) => vints_unpack_loop1 f (pre ++ b :: rest) (Z.of_nat (length pre) + used) (acc ++ [decode_zig_zag u])
  | None => Raise
  end.
Proof.
  intros Hb. inversion Hb as [|? ? Hb0 Hrest]; subst.
  destruct (byte_prefixed b Hb0) as (n & a & -> & Hn & Ha & Hlt). rewrite uvint_decode_prefixed by assumption.
  cbn [vints_unpack_loop1]. rewrite py_index_app_mid. cbn [bind].
  destruct (Z.of_nat (length pre) <? Z.of_nat (length (pre ++ (vint_prefix n + a) :: rest))) eqn:E;
    [|rewrite app_length in E; cbn [length] in E; lia].
  rewrite prefixed_extra, prefixed_land, prefixed_small by assumption.
  destruct (n =? 0) eqn:E0.
  - assert (n = 0) by lia. subst n. reflexivity.
  - replace (Z.of_nat (length pre) + n) with (Z.of_nat (length pre) + Z.of_nat (Z.to_nat n)) by lia.
    rewrite vints_unpack_inner with (k := Z.to_nat n) (pre := pre) (rest := rest) (fuel := 9%nat);
      [|apply Forall_firstn, Hrest|lia].
    destruct (Z.to_nat n <=? length rest)%nat; [|reflexivity]. cbn [bind].
    replace (Z.of_nat (length pre) + Z.of_nat (Z.to_nat n) + 1) with (Z.of_nat (length pre) + (n + 1)) by lia. reflexivity.
Qed.

(* the loop is the specification's decoder, ends at the end of the buffer, and never runs out of fuel:
   each iteration consumes at least one byte *)
Lemma vints_unpack_loop_decode : forall (f : nat) term pre rest acc fg, term = pre ++ rest -> Forall is_byte rest ->
  (length rest <= f)%nat -> (length rest < fg)%nat ->
  vints_unpack_loop1 fg term (Z.of_nat (length pre)) acc
  = of_option (option_map (fun vs => (Z.of_nat (length term), acc ++ vs)) (vints_decode_fuel f rest)).
Proof.
  induction f as [|f IH]; intros term pre rest acc fg -> Hb Hm Hg; (destruct fg as [|fg]; [lia|]).
  - destruct rest; [|cbn [length] in Hm; lia]. cbn [vints_unpack_loop1 vints_decode_fuel option_map of_option].
    rewrite !app_nil_r, Z.ltb_irrefl. reflexivity.
  - destruct rest as [|b r].
    { cbn [vints_unpack_loop1 vints_decode_fuel option_map of_option]. rewrite !app_nil_r, Z.ltb_irrefl. reflexivity. }
    rewrite vints_unpack_step by exact Hb. cbn [vints_decode_fuel].
    destruct (uvint_decode (b :: r)) as [[u used]|] eqn:Ed; [|reflexivity].
    destruct (uvint_decode_used _ _ _ Hb Ed) as [Hu Hused]. set (k := Z.to_nat used).
    (* the buffer, split where the next value starts *)
    replace (Z.of_nat (length pre) + used) with (Z.of_nat (length (pre ++ firstn k (b :: r))))
      by (rewrite app_length, firstn_length_le by lia; lia).
    rewrite (IH _ _ (skipn k (b :: r)) (acc ++ [decode_zig_zag u]) fg);
      [|rewrite <- app_assoc, firstn_skipn; reflexivity|apply Forall_skipn, Hb|rewrite skipn_length; lia|rewrite skipn_length; lia].
    rewrite (proj1 (decode_zig_zag_spec u Hu)).
    destruct (vints_decode_fuel f _); [cbn; rewrite <- app_assoc|]; reflexivity.
Qed.

Theorem vints_unpack_run bs : Forall is_byte bs -> vints_unpack bs = of_option (vints_decode bs).
Proof.
  intros Hb. unfold vints_unpack, vints_decode.
  pose proof (vints_unpack_loop_decode (length bs) bs [] bs [] (S (length bs)) eq_refl Hb ltac:(lia) ltac:(lia)) as H.
  cbn [length] in H. change (Z.of_nat 0) with 0 in H. rewrite H.
  destruct (vints_decode_fuel (length bs) bs); reflexivity.
Qed.

Theorem vints_unpack_spec vals : Forall in_int64 vals -> vints_unpack (concat (map vint_bytes vals)) = Ok vals.
Proof.
  intros Hv. rewrite vints_unpack_run by apply vints_bytes_bytes, Hv. rewrite vints_decode_spec by exact Hv. reflexivity.
Qed.

Lemma in_int64_dec x : {in_int64 x} + {~ in_int64 x}.
Proof. unfold in_int64. destruct (Z_le_dec (- 2 ^ 63) x); destruct (Z_lt_dec x (2 ^ 63)); (left; lia) || (right; lia). Qed.
