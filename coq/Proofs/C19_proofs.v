From Coq Require Import ZArith List.
From Verif Require Import FutbProto FutB FutB_lemmas FutB_origin C16_proofs.
Import ListNotations.
Local Open Scope Z_scope.

(* the statement the driver re-prepares for an UNPREPARED answer carrying `id` *)
Definition stmt_for (c : config) (id : Z) : option pstmt :=
  match fut_ps c with
  | Some (pid, pqs, pks) =>
      if pid =? id then Some (match lookup (known c) id with Some ps => ps | None => (pid, pqs, pks) end) else None
  | None => lookup (known c) id
  end.

(* protocol without the keyspace flag, statement prepared in a keyspace, connection now in another one *)
Definition ks_mismatch (c : config) (s : state) (ks : option Z) : bool :=
  negb (uses_keyspace_flag (pv c)) && is_some ks && negb (opt_eqb (conn_ks s) ks).

Definition open_prepare (s : state) (j : nat) (h : host) : Prop :=
  exists a, nth_error (attempts s) j = Some a /\ a_done a = false /\ a_prep a = true /\ a_host a = h.

Definition done_i (s : state) (i : nat) : state := set_attempts s (mark_done i (attempts s)).

Lemma submit_open s t : session_shut s = false -> submit s t = push_task s t.
Proof. intros E. unfold submit. rewrite E. reflexivity. Qed.

Lemma unprepared_stmt c s h id tag ps : stmt_for c id = Some ps -> unprepared c s h id tag = unprep_go c s h ps.
Proof.
  unfold unprepared, stmt_for. destruct (fut_ps c) as [[[fid fqs] fks]|]; [|intros ->; reflexivity].
  destruct (fid =? id); [|discriminate]. destruct (lookup (known c) id); intros [= <-]; reflexivity.
Qed.

Lemma unprepared_step c s i h id tag pid qs ks : open_query s i h -> stmt_for c id = Some (pid, qs, ks) ->
  step c s (Resp i (RUnprepared id tag)) =
    if ks_mismatch c s ks then (fail_with (done_i s i) XKsMismatch, [])
    else (submit (done_i s i) (TReprepare h qs (if uses_keyspace_flag (pv c) then ks else None)), []).
Proof.
  intros O St. rewrite (step_resp_query c s i _ h O). cbn [resp_current set_result].
  rewrite (unprepared_stmt c _ h id tag _ St). reflexivity.
Qed.

Lemma prepared_step c s j h r : open_prepare s j h ->
  step c s (Resp j r) = (submit (done_i s j) (TAfterPrepare h r), []).
Proof. intros (a & N & D & P & <-). cbn [step]. rewrite N, D, P. reflexivity. Qed.

Definition id_matches (c : config) (id : Z) : Prop :=
  match fut_ps c with Some (pid, _, _) => pid = id | None => True end.

Lemma after_prepare_matching c s h id : id_matches c id -> fin_exc s = None ->
  after_prepare c s h (RPrepared id) = query_or_next s h (MOrig (msg_cl s)) CResend.
Proof.
  unfold after_prepare, id_matches. intros M ->.
  destruct (fut_ps c) as [[[pid pqs] pks]|]; [subst pid; rewrite Z.eqb_refl|]; reflexivity.
Qed.

(* an error answer to the PREPARE fails the request with that error, nothing is sent; a connection error instead lists the
   host and moves on to the next one, PREPARED re-sends: None *)
Definition prepare_error (r : resp) : option fexc :=
  match r with
  | RRetryable k tag => if is_conn_kind k then None else Some (XResp k tag)
  | RUnprepared _ tag => Some (XUnprepared tag)
  | ROtherError tag => Some (XOtherError tag)
  | RRows | RRowsMore | RVoid | ROtherExc _ | RJunk => Some XUnexpected
  | RPrepared _ => None
  end.

(* the task still does its job when run: the request has not failed (a re-prepare does not look), the PREPARED id is the future's *)
Definition live (c : config) (s : state) (t : task) : Prop :=
  match t with
  | TReprepare _ _ _ => True
  | TAfterPrepare _ (RPrepared id) => fin_exc s = None /\ id_matches c id
  | _ => fin_exc s = None
  end.

(* the converse of `task_sends` (C17_other_sends_are_tasks), in any state *)
Lemma run_task_sends c s t h m cz : task_sends s t h m cz -> live c s t -> pool_of s h = PHealthy ->
  run_task c s t = (add_attempt (touch s PHealthy) h (is_prepare m), [Sent h m cz]).
Proof.
  destruct t as [[|] h0|h0 qs ks|h0 []]; cbn [task_sends live]; try contradiction; intros (-> & -> & ->) L P; cbn [run_task].
  - (* TRetry true *) rewrite L. apply qon_healthy, P.
  - (* TReprepare *) apply qon_healthy, P.
  - (* TAfterPrepare, RPrepared *) destruct L as [E M]. rewrite (after_prepare_matching c s h0 id M E). apply qon_healthy, P.
Qed.

Lemma followup_sends c s1 q t h m cz : queue s1 = q ++ [t] -> task_sends s1 t h m cz -> live c s1 t -> pool_of s1 h = PHealthy ->
  step c s1 (Run (length q)) = (add_attempt (touch (set_queue s1 q) PHealthy) h (is_prepare m), [Sent h m cz]).
Proof. intros Q T L P. rewrite (run_last c s1 q t Q). exact (run_task_sends c (set_queue s1 q) t h m cz T L P). Qed.

Lemma run_task_failed c s t : fin_exc s <> None -> (forall h qs ks, t <> TReprepare h qs ks) -> run_task c s t = (s, []).
Proof.
  intros E N. destruct t as [reuse h|h qs ks|h r]; [| destruct (N h qs ks eq_refl) |]; cbn [run_task]; unfold after_prepare;
    destruct (fin_exc s); [reflexivity|congruence|reflexivity|congruence].
Qed.

Lemma after_prepare_error c s h r x : fin_exc s = None -> prepare_error r = Some x -> after_prepare c s h r = (fail_with s x, []).
Proof.
  unfold after_prepare. intros -> P. destruct r; cbn in P; try discriminate; try (injection P as <-; reflexivity).
  destruct (is_conn_kind k); [discriminate|]. injection P as <-. reflexivity.
Qed.

Lemma after_prepare_mismatch c s h id pid pqs pks : fin_exc s = None -> fut_ps c = Some (pid, pqs, pks) -> pid <> id ->
  after_prepare c s h (RPrepared id) = (fail_with s XIdMismatch, []).
Proof.
  unfold after_prepare. intros -> -> D. destruct (pid =? id) eqn:Q; [apply Z.eqb_eq in Q; congruence|reflexivity].
Qed.

Lemma emitted_prepare c s o h qs ks cz : emitted c s o (Sent h (MPrepare qs ks) cz) ->
  exists k, o = Run k /\ nth_error (queue s) k = Some (TReprepare h qs ks).
Proof.
  intros [(k & t & -> & N & T & _)|(i & k & tag & dcl & reuse & a & _ & _ & _ & T & _)]; apply task_sends_prepare in T.
  - subst t. eauto.
  - discriminate T.
Qed.

Lemma pushed_reprepare s o ev h qs ks : pushed s o ev (TReprepare h qs ks) ->
  exists i id tag a, o = Resp i (RUnprepared id tag) /\ nth_error (attempts s) i = Some a /\ a_done a = false /\
                     a_prep a = false /\ a_host a = h.
Proof.
  intros (i & r & a & -> & N & D & G). destruct (a_prep a) eqn:P; [discriminate G|].
  destruct G as (-> & id & tag & ->). exists i, id, tag, a. auto.
Qed.
