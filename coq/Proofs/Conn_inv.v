(* The bookkeeping invariant of Model/Conn.v: every id 0..highest sits in exactly one container; in_flight counts their units. *)
From Coq Require Import ZArith List Bool Lia.
From Verif Require Import Conn Conn_lemmas.
Import ListNotations.
Local Open Scope Z_scope.

(* the indicator of 0 <= x <= h; in every file that imports this one the name hides the sum constructor `inr` *)
Definition inr (x h : Z) : Z := if (0 <=? x) && (x <=? h) then 1 else 0.

Definition tot (x : Z) (s : state) : Z :=
  cnt x (free s) + cnt x (keys (reqs s)) + cnt x (orphans s) + cnt x (keys (cps s)) + cnt x (keys (ghost s)).

Record Good (s : state) : Prop := {
  g_tot : forall x, tot x s = inr x (highest s);
  g_units : in_flight s = units s;
  g_hi : -1 <= highest s <= max_id s
}.

(* Good up to an in_flight offset d: inside a region that counts first and allocates an id second *)
Record GoodD (d : Z) (s : state) : Prop := {
  d_tot : forall x, tot x s = inr x (highest s);
  d_units : in_flight s + d = units s;
  d_hi : -1 <= highest s <= max_id s
}.
Lemma goodD0 s : Good s <-> GoodD 0 s.
Proof. split; intros [A B C]; split; auto; lia. Qed.

Lemma inr_cases x h : inr x h = 1 /\ 0 <= x <= h \/ inr x h = 0 /\ ~ 0 <= x <= h.
Proof. unfold inr. destruct (Z.leb_spec 0 x); destruct (Z.leb_spec x h); cbn [andb]; lia. Qed.

Lemma inr_succ x h : -1 <= h -> inr x (h + 1) = inr x h + (if x =? h + 1 then 1 else 0).
Proof. intros H. destruct (inr_cases x h), (inr_cases x (h + 1)), (Z.eqb_spec x (h + 1)); lia. Qed.

Lemma good_init n m t : 0 <= n -> n - 1 <= m -> Good (init n m t).
Proof.
  intros Hn Hm. split; [|reflexivity|cbn; lia].
  intros x. unfold tot. cbn. pose proof (cnt_range_from x 0 (Z.to_nat n)). pose proof (inr_cases x (n - 1)). lia.
Qed.

Lemma id_counts s i : (forall x, tot x s = inr x (highest s)) ->
  0 <= cnt i (free s) /\ 0 <= cnt i (keys (reqs s)) /\ 0 <= cnt i (orphans s) /\ 0 <= cnt i (keys (cps s))
  /\ 0 <= cnt i (keys (ghost s))
  /\ (tot i s = 1 /\ 0 <= i <= highest s \/ tot i s = 0 /\ ~ 0 <= i <= highest s).
Proof. intros T. rewrite T. repeat split; try apply cnt_nonneg. apply inr_cases. Qed.

Lemma in_ghost d s i t : GoodD d s -> lookup i (ghost s) = Some t ->
  cnt i (keys (ghost s)) = 1 /\ cnt i (free s) = 0 /\ cnt i (keys (reqs s)) = 0 /\ cnt i (orphans s) = 0
  /\ cnt i (keys (cps s)) = 0 /\ unit_tags (rmk i (ghost s)) = unit_tags (ghost s) - unit_tag t.
Proof.
  intros G L. pose proof (id_counts s i (d_tot d s G)) as W. unfold tot in W. pose proof (lookup_cnt _ _ _ L).
  assert (C : cnt i (keys (ghost s)) = 1) by lia. rewrite (unit_tags_rmk_one _ _ _ L C). lia.
Qed.

(* `units` is unfolded by rewriting with this equation, never by conversion: the kernel is slow at comparing `units` of a
   nested record update with `units s`, and fast on the two sums once the projections are reduced *)
Lemma units_eq s : units s = zlen (reqs s) + zlen (orphans s) + unit_tags (ghost s) + zlen (erroring s) + cur_unit (cur s)
  + owed s + ks_pending s + leaked s - spurious s.
Proof. reflexivity. Qed.

(* the two bookkeeping goals after id i moved: `ids`, that every id is still in exactly one container, and `bal`, that the units
   balance; the caller has posed where i was (id_counts, in_ghost) *)
Ltac ids T i :=
  let x := fresh "x" in
  intros x; specialize (T x); unfold tot in *; fields;
  rewrite ?keys_cons, ?cnt_app; cbn [cnt]; rewrite ?keys_rmk, ?cnt_rm, ?inr_succ by lia;
  destruct (Z.eqb_spec x i); [subst x|]; lia.
Ltac bal :=
  unfold tot in *; rewrite ?units_eq in *; fields;
  rewrite ?zlen_cons, ?zlen_rm, ?zlen_rmk; rewrite ?rmk_id by lia; cbn [unit_tags unit_tag]; lia.
(* G : GoodD d s and the goal is GoodD d' s' where s' is s after id i changed container; W says where i was *)
Ltac moved G i W :=
  let T := fresh "T" in let U := fresh "U" in let H := fresh "H" in
  destruct G as [T U H]; pose proof W; split; [ids T i|bal|exact H].

Section Laws.
Context {d : Z} {s : state} (G : GoodD d s).
Local Ltac frame := destruct G as [T U H]; rewrite units_eq in U; split; [exact T|rewrite units_eq; fields; lia|exact H].

Lemma goodD_eq d' : d = d' -> GoodD d' s.
Proof. intros <-. exact G. Qed.
Lemma goodD_ev e : GoodD d (ev e s).
Proof. frame. Qed.
Lemma goodD_flags a b c m : GoodD d (set_flags a b c m s).
Proof. frame. Qed.
Lemma goodD_wire w : GoodD d (set_wire w s).
Proof. frame. Qed.
Lemma goodD_inf k : GoodD (d - k) (set_inf (in_flight s + k) s).
Proof. frame. Qed.
Lemma goodD_owed k : GoodD (d + k) (set_units (owed s + k) (ks_pending s) (leaked s) (spurious s) s).
Proof. frame. Qed.
Lemma goodD_ks k : GoodD (d + k) (set_units (owed s) (ks_pending s + k) (leaked s) (spurious s) s).
Proof. frame. Qed.
Lemma goodD_leaked k : GoodD (d + k) (set_units (owed s) (ks_pending s) (leaked s + k) (spurious s) s).
Proof. frame. Qed.
Lemma goodD_spurious k : GoodD (d - k) (set_units (owed s) (ks_pending s) (leaked s) (spurious s + k) s).
Proof. frame. Qed.
Lemma goodD_cur [c0] c : cur s = c0 -> GoodD (d + cur_unit c - cur_unit c0) (set_cur c s).
Proof. intros <-. frame. Qed.
Lemma goodD_called cb rest : erroring s = cb :: rest -> GoodD (d - 1) (set_erroring rest s).
Proof. intros E. pose proof (zlen_cons cb rest) as Z. rewrite <- E in Z. frame. Qed.
End Laws.

(* for a test of `step` that plays no part in the bookkeeping *)
Lemma goodD_if {d} {b : bool} {s1 s2} : GoodD d s1 -> GoodD d s2 -> GoodD d (if b then s1 else s2).
Proof. destruct b; auto. Qed.

(* `tot i s = cnt i (free s)`: the id handed out is in no container, except that it may be the head of `free` *)
Lemma get_id_spec d s : GoodD d s ->
  match get_id s with
  | (Some i, s') => GoodD (d + 1) s' /\ lookup i (ghost s') = Some THeld /\ 0 <= i <= max_id s /\ tot i s = cnt i (free s)
  | (None, s') => GoodD d s' /\ free s = [] /\ highest s = max_id s
  end.
Proof.
  intros [T U H]. unfold get_id. destruct (free s) as [|i f] eqn:F; [destruct (Z.leb_spec (highest s + 1) (max_id s))|].
  - pose proof (id_counts s (highest s + 1) T) as W. unfold tot in *. rewrite F in *. cbn [cnt] in T.
    split; [split; fields; [ids T (highest s + 1)|bal|lia]|fields; cbn [lookup cnt]; rewrite Z.eqb_refl; repeat split; lia].
  - (* the assert *) split; [split; [exact T|bal|exact H]|split; [reflexivity|lia]].
  - pose proof (id_counts s i T) as W. pose proof (cnt_nonneg i f).
    unfold tot in *. rewrite F in *. cbn [cnt] in T, W. rewrite Z.eqb_refl in W.
    split; [split; fields; [ids T i|bal|lia]|fields; cbn [lookup cnt]; rewrite Z.eqb_refl; repeat split; lia].
Qed.

Lemma take_ids_good k : forall d s, GoodD d s ->
  GoodD (d + fst (take_ids k s)) (snd (take_ids k s)) /\ fst (take_ids k s) <= Z.of_nat k.
Proof.
  induction k as [|k IH]; intros d s G; cbn [take_ids].
  - cbn [fst snd]. rewrite Z.add_0_r. split; [exact G|lia].
  - pose proof (get_id_spec d s G) as A. destruct (get_id s) as [[i|] s1].
    + destruct (IH _ _ (proj1 A)) as [B C]. destruct (take_ids k s1) as [n s2]. cbn [fst snd] in *.
      replace (d + (n + 1)) with (d + 1 + n) by lia. split; [exact B|lia].
    + cbn [fst snd]. rewrite Z.add_0_r. split; [exact (proj1 A)|lia].
Qed.

Lemma goodD_tot d s : GoodD d s -> forall x, tot x s = inr x (highest s).
Proof. exact (d_tot d s). Qed.

Lemma in_free_head s i f : Good s -> free s = i :: f ->
  cnt i f = 0 /\ cnt i (keys (ghost s)) = 0 /\ cnt i (keys (reqs s)) = 0 /\ cnt i (orphans s) = 0
  /\ cnt i (keys (cps s)) = 0 /\ 0 <= i <= highest s.
Proof.
  intros G F. pose proof (id_counts s i (g_tot _ G)) as W. pose proof (cnt_nonneg i f).
  unfold tot in W. rewrite F in W. cbn [cnt] in W. rewrite Z.eqb_refl in W. lia.
Qed.
