(* C33: OrderedMap.  A key found at position i cuts the items, and with them the keys, in two: l = l1 ++ kv :: l2 with
   length l1 = i; replacing and deleting are read off that form.  The lookup law needs no positions: a_insert is a
   recursive program. *)
From Coq Require Import ZArith List Bool Arith Lia.
From Verif Require Import OrderedMap ListFacts.
Import ListNotations.

Lemma bytes_eqbP : forall a b, reflect (a = b) (bytes_eqb a b).
Proof. intros a b. apply iff_reflect. symmetry. exact (eq_listb_spec Z.eqb Z.eqb_eq a b). Qed.
Lemma bytes_eqb_neq : forall a b, a <> b -> bytes_eqb a b = false.
Proof. intros a b H. destruct (bytes_eqbP a b); [contradiction|reflexivity]. Qed.

Section MapProofs.
  Variable K V : Type.
  Variable serialize : K -> list Z.
  Variable key_eqb : K -> K -> bool.
  Variable val_eqb : V -> V -> bool.

  Notation omap := (omap K V).
  Notation wf := (wf K V serialize).
  Notation keys_of := (keys_of K V serialize).
  Notation step := (step K V serialize key_eqb val_eqb).
  Notation a_step := (a_step K V serialize key_eqb val_eqb).
  Notation insert := (insert K V serialize).
  Notation a_insert := (a_insert K V serialize).

  Lemma idx_get_del : forall d k k', idx_get (idx_del d k) k' = if bytes_eqb k k' then None else idx_get d k'.
  Proof.
    unfold idx_del. induction d as [|[k0 i] d IH]; intros k k'; cbn [filter idx_get fst].
    - destruct (bytes_eqb k k'); reflexivity.
    - destruct (bytes_eqbP k0 k) as [->|N]; cbn [negb idx_get]; rewrite IH.
      + destruct (bytes_eqb k k'); reflexivity.
      + destruct (bytes_eqbP k0 k') as [->|N']; [|reflexivity]. rewrite (bytes_eqb_neq k k') by congruence. reflexivity.
  Qed.

  Lemma idx_get_set : forall d k i k', idx_get (idx_set d k i) k' = if bytes_eqb k k' then Some i else idx_get d k'.
  Proof.
    intros. unfold idx_set. cbn. destruct (bytes_eqb k k') eqn:E; [reflexivity|]. rewrite idx_get_del, E. reflexivity.
  Qed.

  Lemma idx_get_map : forall (f : nat -> nat) d k,
    idx_get (map (fun p => (fst p, f (snd p))) d) k = option_map f (idx_get d k).
  Proof.
    intros f. induction d as [|[k0 i] d IH]; intro k; cbn; [reflexivity|].
    destruct (bytes_eqb k0 k); [reflexivity|apply IH].
  Qed.

  Lemma find_pos_None : forall fk ks, find_pos fk ks = None <-> ~ In fk ks.
  Proof.
    intros fk. induction ks as [|k ks IH]; cbn; [tauto|].
    destruct (bytes_eqbP k fk) as [->|N]; [split; [discriminate|tauto]|].
    destruct (find_pos fk ks); cbn; intuition congruence.
  Qed.

  Lemma find_pos_app : forall fk l1 l2,
    find_pos fk (l1 ++ l2) = match find_pos fk l1 with
                             | Some i => Some i
                             | None => option_map (fun j => length l1 + j) (find_pos fk l2)
                             end.
  Proof.
    intros fk. induction l1 as [|k l1 IH]; intro l2; cbn.
    - destruct (find_pos fk l2); reflexivity.
    - destruct (bytes_eqb k fk); [reflexivity|]. rewrite IH. destruct (find_pos fk l1); cbn; [reflexivity|].
      destruct (find_pos fk l2); reflexivity.
  Qed.

  Lemma find_pos_first : forall fk l1 l2, ~ In fk l1 -> find_pos fk (l1 ++ fk :: l2) = Some (length l1).
  Proof.
    intros fk l1 l2 H. rewrite find_pos_app. apply find_pos_None in H. rewrite H. cbn.
    destruct (bytes_eqbP fk fk); [|contradiction]. cbn. rewrite Nat.add_0_r. reflexivity.
  Qed.

  Lemma keys_of_app : forall l1 l2, keys_of (l1 ++ l2) = keys_of l1 ++ keys_of l2.
  Proof. intros. unfold OrderedMap.keys_of. apply map_app. Qed.

  Lemma keys_of_length : forall l, length (keys_of l) = length l.
  Proof. intro l. apply map_length. Qed.

  Lemma find_pos_Some : forall fk l i, find_pos fk (keys_of l) = Some i ->
    exists l1 kv l2, l = l1 ++ kv :: l2 /\ length l1 = i /\ keys_of l = keys_of l1 ++ fk :: keys_of l2.
  Proof.
    intros fk. induction l as [|kv l IH]; intros i H; [discriminate|].
    change (keys_of (kv :: l)) with (serialize (fst kv) :: keys_of l) in H |- *. cbn [find_pos] in H.
    destruct (bytes_eqbP (serialize (fst kv)) fk) as [->|N].
    - injection H as <-. exists [], kv, l. auto.
    - destruct (find_pos fk (keys_of l)) as [j|]; cbn in H; [|discriminate]. injection H as <-.
      destruct (IH j eq_refl) as (l1 & kv' & l2 & El & Hl & ->). subst l. exists (kv :: l1), kv', l2. cbn. auto.
  Qed.

  Lemma set_nth_cut : forall (T : Type) (l1 : list T) x y l2, set_nth (length l1) x (l1 ++ y :: l2) = l1 ++ x :: l2.
  Proof. intros. unfold set_nth. rewrite firstn_app_len, skipn_S_app_len. reflexivity. Qed.

  Lemma remove_nth_cut : forall (T : Type) (l1 : list T) y l2, remove_nth (length l1) (l1 ++ y :: l2) = l1 ++ l2.
  Proof. intros. unfold remove_nth. rewrite firstn_app_len, skipn_S_app_len. reflexivity. Qed.

  Lemma find_pos_lt : forall fk l i, find_pos fk (keys_of l) = Some i -> i <? length l = true.
  Proof.
    intros fk l i F. destruct (find_pos_Some _ _ _ F) as (l1 & kv & l2 & -> & <- & _).
    apply Nat.ltb_lt. rewrite app_length. cbn. lia.
  Qed.

  Lemma find_pos_remove : forall fk fk0 l1 l2, fk0 <> fk ->
    option_map (fun i => if i <? length l1 then i else i - 1) (find_pos fk (keys_of l1 ++ fk0 :: l2)) =
    find_pos fk (keys_of l1 ++ l2).
  Proof.
    intros fk fk0 l1 l2 N. rewrite !find_pos_app, keys_of_length.
    destruct (find_pos fk (keys_of l1)) as [i|] eqn:F1; cbn [option_map find_pos].
    - rewrite (find_pos_lt _ _ _ F1). reflexivity.
    - rewrite (bytes_eqb_neq _ _ N). destruct (find_pos fk l2) as [j|]; cbn [option_map]; [|reflexivity].
      assert (length l1 + S j <? length l1 = false) as -> by (apply Nat.ltb_ge; lia). f_equal. lia.
  Qed.

  Lemma a_insert_new : forall l k v, find_pos (serialize k) (keys_of l) = None -> a_insert l k v = l ++ [(k, v)].
  Proof. intros l k v F. unfold OrderedMap.a_insert. rewrite F. reflexivity. Qed.

  Lemma a_insert_cons : forall k' v' l k v,
    a_insert ((k', v') :: l) k v = if bytes_eqb (serialize k') (serialize k) then (k, v) :: l else (k', v') :: a_insert l k v.
  Proof.
    intros. unfold OrderedMap.a_insert. change (keys_of ((k', v') :: l)) with (serialize k' :: keys_of l). cbn [find_pos].
    destruct (bytes_eqb (serialize k') (serialize k)); [reflexivity|]. destruct (find_pos (serialize k) (keys_of l)); reflexivity.
  Qed.

  Lemma a_insert_keys_present : forall l k v i, find_pos (serialize k) (keys_of l) = Some i ->
    keys_of (a_insert l k v) = keys_of l /\ nth_error (a_insert l k v) i = Some (k, v).
  Proof.
    intros l k v i F. unfold OrderedMap.a_insert. rewrite F.
    destruct (find_pos_Some _ _ _ F) as (l1 & kv & l2 & -> & <- & Ek). rewrite set_nth_cut. split.
    - rewrite Ek. apply keys_of_app.
    - exact (nth_error_app_len l1 (_ :: l2)).
  Qed.

  Definition a_lookup (l : list (K * V)) (fk : list Z) : option V :=
    match find_pos fk (keys_of l) with
    | Some i => match nth_error l i with Some (_, v) => Some v | None => None end
    | None => None
    end.

  Lemma a_lookup_cons : forall k v l fk,
    a_lookup ((k, v) :: l) fk = if bytes_eqb (serialize k) fk then Some v else a_lookup l fk.
  Proof.
    intros k v l fk. unfold a_lookup. change (keys_of ((k, v) :: l)) with (serialize k :: keys_of l).
    cbn [find_pos]. destruct (bytes_eqb (serialize k) fk); [reflexivity|].
    destruct (find_pos fk (keys_of l)); reflexivity.
  Qed.

  (* insertion replaces, and lookup finds, the FIRST entry under a key *)
  Lemma lookup_insert : forall l k v fk,
    a_lookup (a_insert l k v) fk = if bytes_eqb (serialize k) fk then Some v else a_lookup l fk.
  Proof.
    intros l k v fk. induction l as [|[k' v'] l IH]; [apply a_lookup_cons|].
    rewrite a_insert_cons. destruct (bytes_eqbP (serialize k') (serialize k)) as [E|N]; rewrite !a_lookup_cons.
    - rewrite E. destruct (bytes_eqb (serialize k) fk); reflexivity.
    - rewrite IH. destruct (bytes_eqbP (serialize k') fk) as [<-|]; [|reflexivity].
      rewrite (bytes_eqb_neq (serialize k) (serialize k')) by congruence. reflexivity.
  Qed.

  Lemma wf_empty : wf (empty K V).
  Proof. split; [constructor|reflexivity]. Qed.

  Lemma wf_append : forall m k v, wf m -> find_pos (serialize k) (keys_of (items m)) = None ->
    wf (insert_unchecked K V m k (serialize k) v).
  Proof.
    intros m k v [ND HX] F. split; cbn [insert_unchecked items index]; rewrite keys_of_app.
    - apply NoDup_snoc; [exact ND|]. apply find_pos_None. exact F.
    - intro fk. rewrite idx_get_set, find_pos_app, HX. cbn.
      destruct (bytes_eqbP (serialize k) fk) as [<-|N].
      + rewrite F. cbn. rewrite keys_of_length, Nat.add_0_r. reflexivity.
      + destruct (find_pos fk (keys_of (items m))); reflexivity.
  Qed.

  Definition refines_at (m : omap) (o : op K V) (r : omap * out K V) : Prop :=
    wf (fst r) /\ items (fst r) = fst (a_step (items m) o) /\ snd r = snd (a_step (items m) o).

  Lemma insert_refines : forall m k v, wf m -> refines_at m (MInsert k v) (insert m k v).
  Proof.
    unfold refines_at. cbn [OrderedMap.a_step fst snd].
    intros m k v W. unfold OrderedMap.insert. rewrite (proj2 W).
    destruct (find_pos (serialize k) (keys_of (items m))) as [i|] eqn:F.
    - assert (set_nth i (k, v) (items m) = a_insert (items m) k v) as ->
        by (unfold OrderedMap.a_insert; rewrite F; reflexivity).
      rewrite (find_pos_lt _ _ _ F). cbn [fst snd items]. split; [|split; reflexivity].
      unfold OrderedMap.wf. cbn [items index]. rewrite (proj1 (a_insert_keys_present _ k v i F)). exact W.
    - rewrite (a_insert_new _ k v F). cbn [fst snd items]. split; [|split; reflexivity]. apply wf_append; assumption.
  Qed.

  Lemma delitem_refines : forall m k, wf m -> refines_at m (MDel k) (delitem K V serialize m k).
  Proof.
    intros [l d] k [ND HX]. cbn [items index] in ND, HX. unfold refines_at, delitem. cbn [OrderedMap.a_step items index]. rewrite HX.
    destruct (find_pos (serialize k) (keys_of l)) as [ix|] eqn:F;
      [|cbn [fst snd]; split; [split; assumption|split; reflexivity]].
    rewrite (find_pos_lt _ _ _ F). destruct (find_pos_Some _ _ _ F) as (l1 & kv & l2 & -> & <- & Ek).
    rewrite Ek in ND, HX.
    rewrite remove_nth_cut. cbn [fst snd items]. split; [|split; reflexivity].
    split; cbn [items index]; rewrite keys_of_app.
    - exact (NoDup_remove_1 _ _ _ ND).
    - intro fk. rewrite (idx_get_map (fun i => if i <? length l1 then i else i - 1)), idx_get_del, HX.
      destruct (bytes_eqbP (serialize k) fk) as [<-|N]; [|apply find_pos_remove, N].
      symmetry. apply find_pos_None. exact (NoDup_remove_2 _ _ _ ND).
  Qed.

  Lemma popitem_refines : forall m, wf m -> refines_at m MPopItem (popitem K V serialize m).
  Proof.
    intros [l d] [ND HX]. cbn [items index] in ND, HX. unfold refines_at, popitem. cbn [OrderedMap.a_step items index].
    destruct l as [|kv l _] using rev_ind; [cbn [rev fst snd]; split; [split; assumption|split; reflexivity]|].
    rewrite rev_unit, rev_involutive.
    rewrite keys_of_app in ND, HX. change (keys_of [kv]) with [serialize (fst kv)] in ND, HX.
    pose proof (NoDup_remove_2 _ _ _ ND) as Hn. apply NoDup_remove_1 in ND. rewrite app_nil_r in Hn, ND.
    rewrite HX, (find_pos_first _ _ [] Hn). cbn [fst snd items]. split; [|split; reflexivity].
    split; cbn [items index]; [exact ND|].
    intro fk. rewrite idx_get_del, HX, find_pos_app.
    destruct (bytes_eqbP (serialize (fst kv)) fk) as [<-|N].
    - symmetry. apply find_pos_None. exact Hn.
    - destruct (find_pos fk (keys_of l)); [reflexivity|]. cbn. rewrite (bytes_eqb_neq _ _ N). reflexivity.
  Qed.

  Lemma of_pairs_refines : forall l,
    wf (of_pairs K V serialize l) /\ items (of_pairs K V serialize l) = fold_left (fun a kv => a_insert a (fst kv) (snd kv)) l [].
  Proof.
    intro l. apply (fold_left_rel _ _ (fun m a => wf m /\ items m = a)); [|split; [exact wf_empty|reflexivity]].
    intros m a kv [W <-]. destruct (insert_refines m (fst kv) (snd kv) W) as (W' & E & _). split; assumption.
  Qed.

  Lemma step_refines : forall m o, wf m -> op_pre K V serialize (items m) o -> refines_at m o (step m o).
  Proof.
    intros m o W P.
    destruct o as [k v|k fk v|k|k| | | | |other]; unfold refines_at; cbn [OrderedMap.step OrderedMap.a_step fst snd].
    - apply insert_refines, W.
    - (* MInsertUnchecked *) destruct P as [-> F]. split; [|split; reflexivity]. apply wf_append; assumption.
    - split; [exact W|]. split; [reflexivity|]. unfold getitem. rewrite (proj2 W). reflexivity.
    - apply delitem_refines, W.
    - apply popitem_refines, W.
    - (* MLen *) auto.
    - (* MKeys *) auto.
    - (* MItems *) auto.
    - split; [exact W|]. split; [reflexivity|].
      rewrite (proj2 (of_pairs_refines other)). reflexivity.
  Qed.

  Lemma run_refines_all : forall ops m, wf m -> run_refines K V serialize key_eqb val_eqb m ops.
  Proof.
    induction ops as [|o ops IH]; intros m W; cbn [run_refines]; [exact I|].
    intro P. destruct (step_refines m o W P) as (W' & E1 & E2). auto.
  Qed.
End MapProofs.
