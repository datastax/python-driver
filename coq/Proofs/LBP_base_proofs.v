(* Each list operation of Model/LBP.v and each of its plan wrappers is characterised once, by the `enum` (ListFacts.v) it yields. *)
From Coq Require Import ZArith List Bool Lia Permutation.
From Verif Require Import LBP ListFacts.
Import ListNotations.
Local Open Scope Z_scope.

Lemma mem_In : forall x l, mem x l = true <-> In x l.
Proof. exact (existsb_In Z.eqb Z.eqb_eq). Qed.

Lemma mem_false : forall x l, mem x l = false <-> ~ In x l.
Proof. intros x l. rewrite <- mem_In. symmetry. apply not_true_iff_false. Qed.

Lemma enum_perm {A} {l l' : list A} {P} : Permutation l l' -> enum l P -> enum l' P.
Proof.
  intros Hp [HN HM]. split; [exact (Permutation_NoDup Hp HN)|].
  intros h. rewrite <- HM. split; apply Permutation_in; [symmetry|]; exact Hp.
Qed.

Lemma filter_perm : forall (A : Type) (f : A -> bool) (l l' : list A),
  Permutation l l' -> Permutation (filter f l) (filter f l').
Proof.
  intros A f l l' H. induction H as [|x l l' H IH|x y l|l l' l'' H1 IH1 H2 IH2]; simpl.
  - constructor.
  - destruct (f x); [constructor|]; exact IH.
  - destruct (f x), (f y); try apply Permutation_refl. apply perm_swap.
  - exact (Permutation_trans IH1 IH2).
Qed.

Lemma enum_remove_host h {l P} : enum l P -> enum (remove_host h l) (fun x => P x /\ x <> h).
Proof.
  intros H. apply (enum_ext (enum_filter _ H)). intros x. rewrite negb_true_iff, Z.eqb_neq. tauto.
Qed.

(* the step of dedupe, and what df_plan does with its target *)
Lemma enum_to_front x {l P} : enum l P -> enum (x :: remove_host x l) (fun h => x = h \/ P h).
Proof.
  intros H. destruct (enum_remove_host x H) as [HN HM]. split; [constructor; [rewrite HM; tauto | exact HN]|].
  intros h. simpl. rewrite HM. split; [intros [E|[E _]]; auto|].
  intros [E|E]; [left; exact E|]. destruct (Z.eq_dec x h); [left | right; split; [|apply not_eq_sym]]; assumption.
Qed.

Lemma enum_dedupe : forall l, enum (dedupe l) (fun h => In h l).
Proof. induction l as [|a l IH]; [split; [constructor | tauto] | exact (enum_to_front a IH)]. Qed.

Lemma enum_set_order : forall ord xs, enum (set_order ord xs) (fun h => In h xs).
Proof.
  intros. apply (enum_ext (enum_dedupe _)). intros h. rewrite in_app_iff, filter_In, mem_In. tauto.
Qed.

Lemma enum_add_host h {l P} : enum l P -> enum (add_host h l) (fun x => P x \/ x = h).
Proof. exact (enum_add _ h (mem_In h l)). Qed.

Lemma rotate_perm : forall (A : Type) k (l : list A), Permutation l (rotate k l).
Proof.
  intros. unfold rotate. rewrite <- (firstn_skipn k l) at 1. apply Permutation_app_comm.
Qed.

Lemma enum_rotate {A} k {l : list A} {P} : enum l P -> enum (rotate k l) P.
Proof. apply enum_perm, rotate_perm. Qed.

Lemma In_take_used : forall (A : Type) u (l : list A) x, In x (take_used u l) -> In x l.
Proof. intros A u l x. unfold take_used. apply In_firstn. Qed.

Lemma NoDup_take_used : forall (A : Type) u (l : list A), NoDup l -> NoDup (take_used u l).
Proof. intros. unfold take_used. apply NoDup_firstn. assumption. Qed.

Lemma take_used_zero : forall (A : Type) (l : list A), take_used 0 l = [].
Proof.
  intros. unfold take_used. simpl.
  replace (Z.max 0 (Z.min (Z.of_nat (length l)) 0)) with 0 by lia. reflexivity.
Qed.

Lemma take_used_nil : forall (A : Type) u, take_used u (@nil A) = [].
Proof. intros. unfold take_used. apply firstn_nil. Qed.

Lemma length_take_used : forall (A : Type) u (l : list A), 0 <= u -> (length (take_used u l) <= Z.to_nat u)%nat.
Proof.
  intros. unfold take_used. rewrite firstn_length.
  destruct (u <? 0) eqn:E; [apply Z.ltb_lt in E; lia|]. lia.
Qed.

Lemma aget_aset : forall m h v x, aget (aset m h v) x = if h =? x then v else aget m x.
Proof. reflexivity. Qed.

Lemma dist_eqb_eq : forall a b, dist_eqb a b = true <-> a = b.
Proof. intros a b. destruct a, b; split; intro H; reflexivity || discriminate H. Qed.

Lemma bhas_In : forall b d, bhas b d = true <-> In d (map fst b).
Proof.
  induction b as [|[k l] b IH]; intros d; simpl; [split; [discriminate | tauto]|].
  rewrite orb_true_iff, IH, Z.eqb_eq. tauto.
Qed.

Lemma bget_nokey : forall b d, ~ In d (map fst b) -> bget b d = [].
Proof.
  induction b as [|[k l] b IH]; intros d H; simpl in *; auto.
  destruct (Z.eqb_spec k d); [tauto|]. apply IH. tauto.
Qed.

Lemma bget_In : forall b d l, NoDup (map fst b) -> In (d, l) b -> bget b d = l.
Proof.
  induction b as [|[k l0] b IH]; intros d l HK Hin; simpl in *; [tauto|].
  inversion HK. destruct Hin as [E|Hin].
  - inversion E. rewrite Z.eqb_refl. reflexivity.
  - destruct (Z.eqb_spec k d); [subst|auto]. exfalso. apply H1. apply (in_map fst) in Hin. exact Hin.
Qed.

Lemma bget_key_In : forall b d, bget b d <> [] -> In d (map fst b).
Proof.
  intros b d H. destruct (in_dec Z.eq_dec d (map fst b)) as [Hin|Hn]; [exact Hin|].
  destruct H. apply bget_nokey, Hn.
Qed.

Lemma bset_cons : forall k l0 b d l,
  bset ((k, l0) :: b) d l = if k =? d then (k, l) :: b else (k, l0) :: bset b d l.
Proof.
  intros. unfold bset. simpl. destruct (k =? d); [reflexivity|]. destruct (bhas b d); reflexivity.
Qed.

Lemma bget_bset : forall b d l d', bget (bset b d l) d' = if d' =? d then l else bget b d'.
Proof.
  induction b as [|[k l0] b IH]; intros d l d'.
  - simpl. rewrite (Z.eqb_sym d d'). reflexivity.
  - rewrite bset_cons. destruct (Z.eqb_spec k d) as [->|Hk]; simpl.
    + rewrite (Z.eqb_sym d' d). destruct (d =? d'); reflexivity.
    + rewrite IH. destruct (Z.eqb_spec k d') as [->|]; [|reflexivity].
      destruct (Z.eqb_spec d' d); [contradiction|reflexivity].
Qed.

Lemma bget_bdel : forall b d d', bget (bdel b d) d' = if d' =? d then [] else bget b d'.
Proof.
  induction b as [|[k l] b IH]; intros d d'; simpl.
  - destruct (d' =? d); reflexivity.
  - destruct (Z.eqb_spec k d) as [->|Hk]; simpl; rewrite IH.
    + rewrite (Z.eqb_sym d' d). destruct (d =? d'); reflexivity.
    + destruct (Z.eqb_spec k d') as [->|]; [|reflexivity]. destruct (Z.eqb_spec d' d); [contradiction|reflexivity].
Qed.

Lemma keys_breplace : forall b d l, map fst (breplace b d l) = map fst b.
Proof.
  induction b as [|[k l0] b IH]; intros; simpl; auto.
  destruct (k =? d); simpl; [reflexivity|]. f_equal. apply IH.
Qed.

Lemma keys_bset : forall b d l, NoDup (map fst b) -> NoDup (map fst (bset b d l)).
Proof.
  intros b d l H. unfold bset. destruct (bhas b d) eqn:E.
  - rewrite keys_breplace. exact H.
  - rewrite map_app. simpl. apply NoDup_snoc; [exact H|]. rewrite <- bhas_In. congruence.
Qed.

Lemma map_fst_bdel : forall b d, map fst (bdel b d) = filter (fun k => negb (k =? d)) (map fst b).
Proof.
  induction b as [|[k l] b IH]; intros d; simpl; [reflexivity|]. destruct (k =? d); simpl; rewrite IH; reflexivity.
Qed.

Lemma keys_bdel : forall b d, NoDup (map fst b) -> NoDup (map fst (bdel b d)).
Proof. intros b d H. rewrite map_fst_bdel. apply NoDup_filter, H. Qed.

Lemma groupby_keys : forall key l, Forall (fun kg => Forall (fun x => key x = fst kg) (snd kg)) (groupby key l).
Proof.
  induction l as [|a l IH]; simpl; [constructor|].
  destruct (groupby key l) as [|[k0 g0] gs]; [repeat constructor|].
  inversion IH as [|? ? Hg Hgs]. destruct (Z.eqb_spec (key a) k0) as [E|E]; repeat constructor; assumption.
Qed.

Lemma groupby_concat : forall key l, flat_map snd (groupby key l) = l.
Proof.
  induction l as [|a l IH]; simpl; [reflexivity|]. rewrite <- IH at 2.
  destruct (groupby key l) as [|[k0 g0] gs]; [reflexivity|]. destruct (key a =? k0); reflexivity.
Qed.

(* f selects, from one entry (key, bucket) of a bucket list, some of the bucket's hosts *)
Section FlatMapBuckets.
  Variable key : Z -> Z.
  Variable f : Z * list Z -> list Z.
  Hypothesis f_incl : forall kl, incl (f kl) (snd kl).

  Lemma filter_flat_map_buckets : forall b d, NoDup (map fst b) -> (forall k x, In x (bget b k) -> key x = k) ->
    filter (fun x => key x =? d) (flat_map f b) = f (d, bget b d).
  Proof.
    induction b as [|[k l] b IH]; intros d HK Hb; simpl.
    - symmetry. apply incl_l_nil, (f_incl (d, [])).
    - inversion HK as [|? ? Hk HK']; subst.
      assert (Hl : forall x, In x l -> key x = k) by (intros x Hx; apply Hb; simpl; rewrite Z.eqb_refl; exact Hx).
      rewrite filter_app, IH; [|exact HK'|].
      + destruct (Z.eqb_spec k d) as [->|Hd].
        * rewrite (bget_nokey b d Hk), (incl_l_nil (f_incl (d, []))), app_nil_r.
          apply filter_all. intros x Hx. apply Z.eqb_eq, Hl, (f_incl _ _ Hx).
        * rewrite filter_none; [reflexivity|]. intros x Hx. apply Z.eqb_neq.
          rewrite (Hl x (f_incl _ _ Hx)). exact Hd.
      + (* the tail's bucket k is empty, its other buckets are those of the whole list *)
        intros k' x Hx. apply Hb. simpl. destruct (Z.eqb_spec k k') as [<-|]; [|exact Hx].
        rewrite (bget_nokey b k Hk) in Hx. destruct Hx.
  Qed.

  Lemma enum_flat_map_buckets : forall b, NoDup (map fst b) -> (forall k x, In x (bget b k) -> key x = k) ->
    (forall k, NoDup (f (k, bget b k))) ->
    enum (flat_map f b) (fun x => In x (f (key x, bget b (key x)))).
  Proof.
    intros b HK Hb HN. split.
    - rewrite flat_map_concat_map. apply (NoDup_concat_keys fst key); [exact HK| |].
      + intros [k l] H. rewrite <- (bget_In b k l HK H). apply HN.
      + intros [k l] x H Hx. apply Hb. simpl. rewrite (bget_In b k l HK H). exact (f_incl _ _ Hx).
    - intros x. rewrite <- (filter_flat_map_buckets b (key x) HK Hb), filter_In, Z.eqb_refl. tauto.
  Qed.
End FlatMapBuckets.

(* the selector of dca_remote_part *)
Lemma take_remote_incl : forall (loc u : Z) (kl : Z * list Z),
  incl (if fst kl =? loc then [] else take_used u (snd kl)) (snd kl).
Proof. intros loc u kl x. destruct (fst kl =? loc); [intros []|apply In_take_used]. Qed.

(* hf_plan is a filter, so enum_filter speaks for it; what the filter policy calls IGNORED is: *)
Lemma hf_distance_IGNORED : forall pred cd h, hf_distance pred cd h <> IGNORED <-> cd h <> IGNORED /\ pred h = true.
Proof.
  intros pred cd h. unfold hf_distance. destruct (pred h); [tauto|]. split; [intros [] | intros [_ [=]]]. reflexivity.
Qed.

Lemma df_enum : forall (t : option Z) (p : list Z) (P : Z -> Prop), enum p P -> enum (df_plan t p) (fun h => t = Some h \/ P h).
Proof.
  intros [x|] p P H; [|apply (enum_ext H); intuition discriminate].
  apply (enum_ext (enum_to_front x H)). intros h. split; (intros [E|E]; [left|right; exact E]); congruence.
Qed.

Lemma ta_prefix_In : forall up cd order h,
  In h (ta_prefix up cd order) <-> In h order /\ up h = true /\ cd h = LOCAL.
Proof. intros. unfold ta_prefix. rewrite filter_In, andb_true_iff, dist_eqb_eq. tauto. Qed.

Lemma ta_rest_In : forall y child h, In h (ta_rest y child) <-> In h child /\ ~ In h y.
Proof. intros. unfold ta_rest. rewrite filter_In, negb_true_iff, mem_false. tauto. Qed.

Lemma ta_plan_firstn : forall up cd order child,
  firstn (length (ta_prefix up cd order)) (ta_plan true up cd order child) = ta_prefix up cd order.
Proof. intros. apply firstn_app_len. Qed.

Lemma ta_plan_skipn : forall up cd order child,
  skipn (length (ta_prefix up cd order)) (ta_plan true up cd order child) = ta_rest (ta_prefix up cd order) child.
Proof. intros. apply skipn_app_len. Qed.

Lemma ta_plan_In : forall routed up cd order child h,
  In h (ta_plan routed up cd order child) <-> In h child \/ (routed = true /\ In h order /\ up h = true /\ cd h = LOCAL).
Proof.
  intros [|] up cd order child h; simpl; [|split; [auto | intros [H|[[=] _]]; exact H]].
  rewrite in_app_iff, ta_rest_In. split.
  - intros [H|[H _]]; [right; split; [reflexivity | apply ta_prefix_In, H] | left; exact H].
  - intros [H|[_ H]]; [|left; apply ta_prefix_In, H].
    destruct (in_dec Z.eq_dec h (ta_prefix up cd order)); [left | right; split]; assumption.
Qed.

Lemma ta_nodup : forall up cd order child, NoDup order -> NoDup child -> NoDup (ta_plan true up cd order child).
Proof.
  intros up cd order child H1 H2. apply NoDup_app_intro; try (apply NoDup_filter; assumption).
  intros x Ha Hb. apply ta_rest_In in Hb. tauto.
Qed.

(* the promoted replicas are LOCAL and live, hence already in the child's plan *)
Lemma ta_enum : forall (routed : bool) (up : Z -> bool) (cd : Z -> dist) (order p : list Z) (P : Z -> Prop),
  NoDup order -> (forall h, In h order -> up h = true -> cd h = LOCAL -> P h) ->
  enum p P -> enum (ta_plan routed up cd order p) P.
Proof.
  intros routed up cd order p P Hn Hup [HN HM]. split; [destruct routed; [apply ta_nodup; assumption | exact HN]|].
  intros h. rewrite ta_plan_In, HM. split; [intros [H|[_ [H1 [H2 H3]]]]; auto | tauto].
Qed.
