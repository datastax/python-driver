(* C30 (Model/Bind.v): bind, on a list or a dict, is the value loop over the markers of the call; every fact about a
   successful bind is read off position by position, as what bind_one makes of one marker. *)
From Coq Require Import ZArith List Bool Lia Arith.
From Verif Require Import CompositeSpec Bind ListFacts Composite_proofs.
Import ListNotations.
Local Open Scope Z_scope.

Lemma dict_get_skip : forall {A} (d : list (Z * A)) k k' v, k <> k' -> dict_get ((k', v) :: d) k = dict_get d k.
Proof. intros A d k k' v Hne. cbn [dict_get]. destruct (Z.eqb_spec k k'); [contradiction|reflexivity]. Qed.

Lemma map_opt_Forall2 : forall {A B} (f : A -> option B) l r,
  map_opt f l = Some r <-> Forall2 (fun a b => f a = Some b) l r.
Proof.
  intros A B f l. induction l as [|a l IH]; intros r; cbn [map_opt].
  - split; [intros [= <-]; constructor|intros H; inversion H; reflexivity].
  - split.
    + destruct (f a) as [b|] eqn:Ha; [|discriminate]. destruct (map_opt f l) as [bs|]; [|discriminate].
      intros [= <-]. constructor; [exact Ha|apply IH; reflexivity].
    + intros H. inversion H as [|? b ? bs Hb Hr]; subst. apply IH in Hr. rewrite Hb, Hr. reflexivity.
Qed.

Lemma map_opt_total : forall {A B} (f : A -> option B) l, (forall a, In a l -> exists b, f a = Some b) ->
  exists r, map_opt f l = Some r.
Proof.
  intros A B f l. induction l as [|a l IH]; intros H; cbn [map_opt]; [eauto|].
  destruct (H a (or_introl eq_refl)) as [b ->]. destruct IH as [r ->]; [intros; apply H; right; assumption|eauto].
Qed.

Section BindProofs.
  Variable V : Type.
  Variable ser : nat -> V -> option (list Z).
  Variable names : list Z.
  Variable pk_idx : list nat.
  Variable pv : Z.

  (* the model's functions at the section's parameters; unfold and cbn need the constants themselves, written Bind.f *)
  Notation is_rk := (is_rk pk_idx).
  Notation append_unset := (append_unset pk_idx).
  Notation bind_one := (bind_one V ser pk_idx pv).
  Notation bind_loop := (bind_loop V ser pk_idx pv).
  Notation fill_unset := (fill_unset pk_idx).
  Notation bind_values := (bind_values V ser names pk_idx pv).
  Notation bind := (bind V ser names pk_idx pv).
  Notation dict_to_list := (dict_to_list V pv).
  Notation routing_key := (routing_key pk_idx).

  Lemma is_rk_In : forall k, In k pk_idx -> is_rk k = true.
  Proof. intros k. apply (existsb_In Nat.eqb Nat.eqb_eq). Qed.

  Inductive bound (i : nat) : bval V -> wval -> Prop :=
  | bound_none : bound i BNone WNull
  | bound_unset : 4 <= pv -> is_rk i = false -> bound i BUnset WUnset
  | bound_val : forall x b, ser i x = Some b -> bound i (BVal x) (WBytes b).

  Lemma bind_one_inr : forall i v w, bind_one i v = inr w -> bound i v w.
  Proof.
    intros i v w. destruct v as [| |x]; cbn [Bind.bind_one].
    - intros [= <-]. constructor.
    - unfold Bind.append_unset. destruct (Z.leb_spec 4 pv); [|discriminate].
      destruct (is_rk i) eqn:Hrk; [discriminate|]. intros [= <-]. constructor; assumption.
    - destruct (ser i x) as [b|] eqn:Hs; [|discriminate]. intros [= <-]. constructor. exact Hs.
  Qed.

  Lemma bind_loop_inr : forall vs i ws, bind_loop i vs = inr ws ->
    length ws = length vs /\
    forall k, (forall v, nth_error vs k = Some v -> exists w, nth_error ws k = Some w /\ bound (i + k) v w) /\
              (forall w, nth_error ws k = Some w -> exists v, nth_error vs k = Some v /\ bound (i + k) v w).
  Proof.
    induction vs as [|v0 vs IH]; intros i ws H; cbn [Bind.bind_loop] in H.
    - injection H as <-. split; [reflexivity|]. intros [|k]; split; discriminate.
    - destruct (bind_one i v0) as [|w0] eqn:E1; [discriminate|]. apply bind_one_inr in E1.
      destruct (bind_loop (S i) vs) as [|ws'] eqn:E; [discriminate|]. injection H as <-.
      destruct (IH _ _ E) as [Hlen Hnth]. split; [cbn [length]; congruence|].
      intros [|k]; cbn [nth_error].
      + rewrite Nat.add_0_r. split; intros ? [= <-]; eauto.
      + rewrite <- Nat.add_succ_comm. apply Hnth.
  Qed.

  Lemma bind_loop_app : forall a b i,
    bind_loop i (a ++ b) =
    match bind_loop i a with
    | inl e => inl e
    | inr ws => match bind_loop (i + length a) b with inl e => inl e | inr us => inr (ws ++ us) end
    end.
  Proof.
    induction a as [|v a IH]; intros b i; cbn [app Bind.bind_loop length].
    - rewrite Nat.add_0_r. destruct (bind_loop i b); reflexivity.
    - destruct (bind_one i v); [reflexivity|]. rewrite IH.
      replace (S i + length a)%nat with (i + S (length a))%nat by lia.
      destruct (bind_loop (S i) a); [reflexivity|].
      destruct (bind_loop (i + S (length a)) b); reflexivity.
  Qed.

  Lemma bind_loop_unsets : forall n i, 4 <= pv -> bind_loop i (repeat BUnset n) = fill_unset i n.
  Proof.
    induction n as [|n IH]; intros i Hpv; cbn [repeat Bind.bind_loop Bind.fill_unset]; [reflexivity|].
    unfold Bind.bind_one. destruct (Z.leb_spec 4 pv); [|lia].
    destruct (append_unset i); [reflexivity|]. rewrite IH by assumption. reflexivity.
  Qed.

  Lemma dict_to_list_skip : forall ns d k v, ~ In k ns -> dict_to_list ((k, v) :: d) ns = dict_to_list d ns.
  Proof.
    induction ns as [|n ns IH]; intros d k v Hni; cbn [Bind.dict_to_list]; [reflexivity|].
    rewrite dict_get_skip by (intro; subst; apply Hni; left; reflexivity).
    rewrite IH by (intro; apply Hni; right; assumption). reflexivity.
  Qed.

  Lemma dict_to_list_none : forall ns, 4 <= pv -> dict_to_list [] ns = inr (repeat BUnset (length ns)).
  Proof.
    induction ns as [|n ns IH]; intros Hpv; cbn [Bind.dict_to_list length repeat dict_get]; [reflexivity|].
    destruct (Z.leb_spec 4 pv); [|lia]. rewrite IH by assumption. reflexivity.
  Qed.

  Lemma dict_to_list_combine : forall ns vs, NoDup ns -> (length vs <= length ns)%nat ->
    (length vs = length ns \/ 4 <= pv) ->
    dict_to_list (combine ns vs) ns = inr (vs ++ repeat BUnset (length ns - length vs)).
  Proof.
    induction ns as [|n ns IH]; intros vs Hnd Hle Hc.
    - destruct vs; [reflexivity|cbn in Hle; lia].
    - destruct vs as [|v vs].
      + destruct Hc as [Hc|Hc]; [cbn in Hc; lia|]. cbn [combine]. rewrite dict_to_list_none by assumption. reflexivity.
      + cbn [combine Bind.dict_to_list dict_get]. rewrite Z.eqb_refl. inversion Hnd; subst.
        rewrite dict_to_list_skip by assumption. cbn [length] in *.
        rewrite IH; [reflexivity|assumption|lia|destruct Hc; [left; lia|right; assumption]].
  Qed.

  (* a name the dict lacks counts as UNSET whatever the protocol: below v4 either raises *)
  Definition dict_value (d : list (Z * bval V)) (n : Z) : bval V :=
    match dict_get d n with Some v => v | None => BUnset end.

  Lemma dict_to_list_inr : forall d ns l, dict_to_list d ns = inr l -> l = map (dict_value d) ns.
  Proof.
    intros d ns. induction ns as [|n ns IH]; intros l H; cbn [Bind.dict_to_list map] in *; [congruence|].
    destruct (dict_to_list d ns) as [e|l']; [destruct (dict_get d n); [|destruct (4 <=? pv)]; discriminate|].
    specialize (IH l' eq_refl). subst l'. unfold dict_value at 1. destruct (dict_get d n); [congruence|].
    destruct (4 <=? pv); congruence.
  Qed.

  Lemma dict_to_list_length : forall ns d l, dict_to_list d ns = inr l -> length l = length ns.
  Proof. intros ns d l H. apply dict_to_list_inr in H. subst l. apply map_length. Qed.

  (* the value list the loop runs over: on v4+ a short list is completed with UNSET *)
  Definition padded (vs : list (bval V)) : list (bval V) :=
    if 4 <=? pv then vs ++ repeat BUnset (length names - length vs) else vs.

  Lemma bind_values_eq : forall vs,
    bind_values vs =
    if (length names <? length vs)%nat then inl ETooMany
    else if (pv <? 4) && negb (match pk_idx with [] => true | _ => false end) && (length vs <? length pk_idx)%nat
         then inl ETooFew
         else bind_loop 0 (padded vs).
  Proof.
    intros vs. unfold Bind.bind_values, padded.
    destruct (length names <? length vs)%nat; [reflexivity|]. destruct (_ && _ && _); [reflexivity|].
    destruct (Z.leb_spec 4 pv).
    - rewrite bind_loop_app, bind_loop_unsets by assumption. reflexivity.
    - destruct (bind_loop 0 vs); reflexivity.
  Qed.

  Lemma bind_values_padded : forall vs k, 4 <= pv -> (length vs + k = length names)%nat ->
    bind_values (vs ++ repeat BUnset k) = bind_values vs.
  Proof.
    intros vs k Hpv Hlen. rewrite !bind_values_eq, app_length, repeat_length.
    assert (pv <? 4 = false) as -> by (apply Z.ltb_ge; exact Hpv). cbn [andb].
    destruct (Nat.ltb_spec (length names) (length vs + k)); [lia|].
    destruct (Nat.ltb_spec (length names) (length vs)); [lia|].
    unfold padded. destruct (Z.leb_spec 4 pv); [|lia]. rewrite app_length, repeat_length.
    replace (length names - (length vs + k))%nat with 0%nat by lia.
    replace (length names - length vs)%nat with k by lia. cbn [repeat]. rewrite app_nil_r. reflexivity.
  Qed.

  (* the markers a call binds: the list as given, or the dict read column by column; completed as the loop sees them *)
  Definition given (inp : input V) : list (bval V) :=
    match inp with InList vs => vs | InDict d => map (dict_value d) names end.

  Definition markers (inp : input V) : list (bval V) := padded (given inp).

  Lemma markers_given : forall inp k v, nth_error (given inp) k = Some v -> nth_error (markers inp) k = Some v.
  Proof.
    intros inp k v H. unfold markers, padded. destruct (4 <=? pv); [|exact H].
    rewrite nth_error_app1 by (apply nth_error_Some; congruence). exact H.
  Qed.

  Lemma markers_fill : forall inp k, 4 <= pv -> (length (given inp) <= k < length names)%nat ->
    nth_error (markers inp) k = Some BUnset.
  Proof.
    intros inp k Hpv Hk. unfold markers, padded. destruct (Z.leb_spec 4 pv); [|lia].
    rewrite nth_error_app2 by lia. apply nth_error_repeat. lia.
  Qed.

  Lemma markers_inv : forall inp k v, nth_error (markers inp) k = Some v -> nth_error (given inp) k = Some v \/ v = BUnset.
  Proof.
    intros inp k v H. unfold markers, padded in H. destruct (4 <=? pv); [|left; exact H].
    destruct (Nat.lt_ge_cases k (length (given inp))); [rewrite nth_error_app1 in H by assumption; left; exact H|].
    rewrite nth_error_app2 in H by assumption. right. exact (repeat_spec _ _ _ (nth_error_In _ _ H)).
  Qed.

  Lemma markers_dict : forall d k n, nth_error names k = Some n ->
    dict_get d n = None \/ dict_get d n = Some BUnset -> nth_error (markers (InDict d)) k = Some BUnset.
  Proof.
    intros d k n Hk Hg. apply markers_given. cbn [given]. rewrite (map_nth_error _ _ _ Hk).
    unfold dict_value. destruct Hg as [-> | ->]; reflexivity.
  Qed.

  Lemma bind_ok : forall inp ws, bind inp = inr ws ->
    (length (given inp) <= length names)%nat /\ bind_loop 0 (markers inp) = inr ws.
  Proof.
    intros inp ws H. assert (bind_values (given inp) = inr ws) as Hv.
    { destruct inp as [vs|d]; [exact H|]. cbn [Bind.bind] in H.
      destruct (dict_to_list d names) as [e|l] eqn:E; [discriminate|]. apply dict_to_list_inr in E. subst l. exact H. }
    rewrite bind_values_eq in Hv. destruct (Nat.ltb_spec (length names) (length (given inp))); [discriminate|].
    destruct (_ && _ && _); [discriminate|]. auto.
  Qed.

  Lemma bind_nth : forall inp ws k w, bind inp = inr ws -> nth_error ws k = Some w ->
    exists v, nth_error (markers inp) k = Some v /\ bound k v w.
  Proof. intros inp ws k w H. apply (bind_loop_inr _ _ _ (proj2 (bind_ok _ _ H))). Qed.

  Lemma bind_nth_in : forall inp ws k v, bind inp = inr ws -> nth_error (markers inp) k = Some v ->
    exists w, nth_error ws k = Some w /\ bound k v w.
  Proof. intros inp ws k v H. apply (bind_loop_inr _ _ _ (proj2 (bind_ok _ _ H))). Qed.

  Lemma bind_length : forall inp ws, bind inp = inr ws ->
    (pv < 4 -> length ws = length (given inp)) /\ (4 <= pv -> length ws = length names).
  Proof.
    intros inp ws H. destruct (bind_ok _ _ H) as [Hle Hl]. rewrite (proj1 (bind_loop_inr _ _ _ Hl)).
    unfold markers, padded. destruct (Z.leb_spec 4 pv); [rewrite app_length, repeat_length|]; lia.
  Qed.

  Lemma unset_marker : forall inp ws k, bind inp = inr ws -> nth_error (markers inp) k = Some BUnset ->
    nth_error ws k = Some WUnset /\ 4 <= pv /\ is_rk k = false.
  Proof.
    intros inp ws k H Hk. destruct (bind_nth_in _ _ _ _ H Hk) as [w [Hw Hb]].
    inversion Hb; subst. auto.
  Qed.

  Lemma unset_value : forall inp ws k, bind inp = inr ws -> nth_error ws k = Some WUnset -> 4 <= pv /\ is_rk k = false.
  Proof. intros inp ws k H Hk. destruct (bind_nth _ _ _ _ H Hk) as [v [_ Hb]]. inversion Hb. auto. Qed.

  Lemma unset_rejected : forall inp k, nth_error (markers inp) k = Some BUnset -> pv < 4 \/ In k pk_idx ->
    exists e, bind inp = inl e.
  Proof.
    intros inp k Hk Hc. destruct (bind inp) as [e|ws] eqn:E; [eauto|exfalso].
    destruct (unset_marker _ _ _ E Hk) as [_ [Hpv Hrk]]. destruct Hc as [Hc|Hc]; [lia|].
    rewrite (is_rk_In k Hc) in Hrk. discriminate.
  Qed.

  (* named for its use in C30_routing_key; used below at any position *)
  Definition pk_component (vs : list (bval V)) (i : nat) (b : list Z) : Prop :=
    exists v, nth_error vs i = Some (BVal v) /\ ser i v = Some b.

  Lemma values_serialized : forall inp ws k b, bind inp = inr ws ->
    (nth_error ws k = Some (WBytes b) <-> pk_component (given inp) k b).
  Proof.
    intros inp ws k b H. split.
    - intros Hk. destruct (bind_nth _ _ _ _ H Hk) as [v [Hv Hb]].
      inversion Hb as [| |x b' Hs]; subst. exists x. split; [|exact Hs].
      destruct (markers_inv _ _ _ Hv) as [Hx|[=]]. exact Hx.
    - intros [x [Hx Hs]]. destruct (bind_nth_in _ _ _ _ H (markers_given _ _ _ Hx)) as [w [Hw Hb]].
      inversion Hb as [| |? b' Hs']; subst. congruence.
  Qed.

  Definition bytes_at (ws : list wval) (i : nat) : option (list Z) :=
    match nth_error ws i with Some (WBytes b) => Some b | _ => None end.

  Lemma bytes_at_spec : forall ws i b, bytes_at ws i = Some b <-> nth_error ws i = Some (WBytes b).
  Proof. intros ws i b. unfold bytes_at. destruct (nth_error ws i) as [[| |b']|]; split; congruence. Qed.

  Lemma key_part_eq : forall ws i, key_part ws i =
    match bytes_at ws i with Some b => if component_ok b then Some (composite_component b) else None | None => None end.
  Proof.
    intros ws i. unfold key_part, bytes_at. destruct (nth_error ws i) as [[| |b]|]; try reflexivity. apply packed_component.
  Qed.

  Lemma key_parts_eq : forall ws idx, map_opt (key_part ws) idx =
    match map_opt (bytes_at ws) idx with
    | Some bs => if forallb component_ok bs then Some (map composite_component bs) else None
    | None => None
    end.
  Proof.
    intros ws idx. induction idx as [|i idx IH]; cbn [map_opt]; [reflexivity|].
    rewrite key_part_eq, IH. destruct (bytes_at ws i) as [b|]; [|reflexivity].
    destruct (map_opt (bytes_at ws) idx) as [bs|]; cbn [forallb map]; destruct (component_ok b); try reflexivity.
    destruct (forallb component_ok bs); reflexivity.
  Qed.

  Lemma routing_key_spec : forall ws rk, routing_key ws = RkBytes rk <->
    pk_idx <> [] /\ exists bs, map_opt (bytes_at ws) pk_idx = Some bs /\
      (forallb component_ok bs = true \/ length pk_idx = 1%nat) /\ rk = composite_spec bs.
  Proof.
    intros ws rk. unfold Bind.routing_key. destruct pk_idx as [|i [|j idx]].
    - split; [discriminate|intros [H _]; congruence].
    - cbn [map_opt]. unfold bytes_at. split.
      + destruct (nth_error ws i) as [[| |b]|]; try discriminate. intros [= <-]. split; [discriminate|]. exists [b]. auto.
      + intros [_ [bs [Hf [_ ->]]]]. destruct (nth_error ws i) as [[| |b]|]; try discriminate. injection Hf as <-. reflexivity.
    - rewrite key_parts_eq. split.
      + destruct (map_opt (bytes_at ws) (i :: j :: idx)) as [bs|] eqn:Em; [|discriminate].
        destruct (forallb component_ok bs) eqn:Hok; [|discriminate]. intros [= <-]. split; [discriminate|]. exists bs.
        rewrite composite_spec_multi by (apply map_opt_Forall2, Forall2_length in Em; cbn in Em; lia). auto.
      + intros [_ [bs [Hf [[Hok|Hl] ->]]]]; [|cbn in Hl; lia]. rewrite Hf, Hok.
        rewrite composite_spec_multi by (apply map_opt_Forall2, Forall2_length in Hf; cbn in Hf; lia). reflexivity.
  Qed.

  Lemma bound_routing_key : forall inp ws rk, bind inp = inr ws ->
    (routing_key ws = RkBytes rk <->
     pk_idx <> [] /\ exists bs, Forall2 (pk_component (given inp)) pk_idx bs /\
       (forallb component_ok bs = true \/ length pk_idx = 1%nat) /\ rk = composite_spec bs).
  Proof.
    intros inp ws rk H. rewrite routing_key_spec.
    assert (forall bs, map_opt (bytes_at ws) pk_idx = Some bs <-> Forall2 (pk_component (given inp)) pk_idx bs) as Hf.
    { intros bs. rewrite map_opt_Forall2. split; apply Forall2_impl; intros i b; rewrite bytes_at_spec; apply (values_serialized _ _ i b H). }
    (* the two sides differ in how bs is described only *)
    split; intros [Hne [bs [Hb Hrest]]]; (split; [exact Hne|]); exists bs; (split; [apply Hf, Hb|exact Hrest]).
  Qed.
End BindProofs.

Arguments markers_given {V names pv} inp {k v}.
Arguments markers_fill {V names pv} inp k.
Arguments markers_dict {V names pv} d {k n}.
Arguments bind_length {V ser names pk_idx pv inp ws}.
Arguments unset_marker {V ser names pk_idx pv inp ws k}.
Arguments unset_value {V ser names pk_idx pv inp ws k}.
Arguments unset_rejected {V ser names pk_idx pv} inp k.
Arguments bound_routing_key {V ser names pk_idx pv inp ws} rk.

Lemma last_index_from_cases : forall n ns s acc,
  (last_index_from n ns s acc = acc /\ ~ In n ns) \/
  exists k, last_index_from n ns s acc = Some (s + k)%nat /\ nth_error ns k = Some n.
Proof.
  intros n ns. induction ns as [|m ns IH]; intros s acc; cbn [last_index_from]; [left; split; [reflexivity|intros []]|].
  destruct (IH (S s) (if m =? n then Some s else acc)) as [[E Hn]|[k [E Hk]]].
  - destruct (Z.eqb_spec m n) as [->|Hne].
    + right. exists 0%nat. rewrite Nat.add_0_r. auto.
    + left. split; [exact E|]. intros [Hm|Hin]; contradiction.
  - right. exists (S k). rewrite <- Nat.add_succ_comm. auto.
Qed.

Lemma statement_index_spec : forall ns n i, statement_index ns n = Some i -> nth_error ns i = Some n.
Proof.
  intros ns n i H. unfold statement_index in H.
  destruct (last_index_from_cases n ns 0 None) as [[E _]|[k [E Hk]]]; rewrite E in H; [discriminate|]. injection H as <-. exact Hk.
Qed.

Lemma statement_index_found : forall ns n, In n ns -> exists i, statement_index ns n = Some i.
Proof.
  intros ns n Hin. unfold statement_index.
  destruct (last_index_from_cases n ns 0 None) as [[_ Hn]|[k [E _]]]; [contradiction|eauto].
Qed.

Lemma derive_indexes_table : forall ns pkn l, derive_indexes ns [] (Some pkn) = l -> l <> [] ->
  Forall2 (fun i n => nth_error ns i = Some n) l pkn.
Proof.
  intros ns pkn l H Hne. unfold derive_indexes in H. destruct ns as [|n0 ns]; [congruence|].
  destruct (map_opt (statement_index (n0 :: ns)) pkn) as [l'|] eqn:Em; [|congruence]. subst.
  apply map_opt_Forall2 in Em. clear Hne. induction Em; constructor; auto. apply statement_index_spec. assumption.
Qed.

Lemma derive_indexes_complete : forall ns pkn, ns <> [] -> (forall n, In n pkn -> In n ns) ->
  length (derive_indexes ns [] (Some pkn)) = length pkn.
Proof.
  intros ns pkn Hne Hall. unfold derive_indexes. destruct ns as [|n0 ns]; [congruence|].
  destruct (map_opt_total (statement_index (n0 :: ns)) pkn) as [l Hl].
  { intros n Hn. apply statement_index_found, Hall, Hn. }
  rewrite Hl. apply map_opt_Forall2, Forall2_length in Hl. lia.
Qed.

Lemma derive_indexes_server : forall ns i idx tpk, ns <> [] -> derive_indexes ns (i :: idx) tpk = i :: idx.
Proof. intros [|n ns] i idx tpk H; [congruence|reflexivity]. Qed.
