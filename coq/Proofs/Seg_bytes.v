From Coq Require Import ZArith List Bool Lia ZifyBool.
From Verif Require Import Segment Bits64 Crc_proofs.
Require Verif.Proofs.BytesBE.
Import ListNotations.
Local Open Scope Z_scope.

Lemma le_val_cons : forall b bs, le_val (b :: bs) = b mod 256 + 256 * le_val bs.
Proof.
  intros. cbn [le_val]. rewrite BytesBE.land_255, Z.shiftl_mul_pow2 by lia.
  rewrite BytesBE.lor_disjoint_add by (lia || apply BytesBE.mod256_range).
  lia.
Qed.

Lemma le_bytes_S : forall n x, le_bytes (S n) x = x mod 256 :: le_bytes n (x / 256).
Proof. intros. change (le_bytes (S n) x) with (Z.land x 255 :: le_bytes n (Z.shiftr x 8)). rewrite BytesBE.land_255, BytesBE.shiftr_8. reflexivity. Qed.

Lemma le_bytes_length : forall n x, length (le_bytes n x) = n.
Proof. induction n; intros; simpl; [reflexivity|]. rewrite IHn. reflexivity. Qed.

(* lia sees / and mod only between the two hook lines *)
Ltac Zify.zify_post_hook ::= Z.to_euclidean_division_equations.

Lemma le_val_le_bytes : forall n x, 0 <= x < 256 ^ Z.of_nat n -> le_val (le_bytes n x) = x.
Proof.
  induction n; intros x Hx.
  - simpl in *. lia.
  - rewrite le_bytes_S, le_val_cons. rewrite Nat2Z.inj_succ, Z.pow_succ_r in Hx by lia.
    rewrite IHn by (split; [apply Z.div_pos; lia|apply Z.div_lt_upper_bound; lia]).
    lia.
Qed.

Lemma le_bytes_ok : forall n x, Forall byte_ok (le_bytes n x).
Proof.
  induction n; intros x; [constructor|]. rewrite le_bytes_S. constructor; [|apply IHn].
  apply BytesBE.mod256_range.
Qed.

Lemma le_val_range : forall bs, 0 <= le_val bs < 256 ^ Z.of_nat (length bs).
Proof.
  induction bs as [|b bs IH].
  - simpl. lia.
  - rewrite le_val_cons. simpl length. rewrite Nat2Z.inj_succ, Z.pow_succ_r by lia.
    lia.
Qed.

Lemma le_val_inj : forall a b, length a = length b -> Forall byte_ok a -> Forall byte_ok b -> le_val a = le_val b -> a = b.
Proof.
  induction a as [|x a IH]; intros [|y b] Hl Ha Hb H; try discriminate; [reflexivity|].
  inversion Ha; inversion Hb; subst. rewrite !le_val_cons in H. unfold byte_ok in *.
  assert (x = y /\ le_val a = le_val b) as [-> Hv] by lia.
  f_equal. apply IH; auto.
Qed.

Ltac Zify.zify_post_hook ::= idtac.

(* flips bit k of a little-endian byte string: bit k of its le_val *)
Fixpoint flip_bit (k : nat) (bs : list Z) : list Z :=
  match bs with
  | [] => []
  | b :: bs' => if (k <? 8)%nat then Z.lxor b (2 ^ Z.of_nat k) :: bs' else b :: flip_bit (k - 8) bs'
  end.

Lemma flip_bit_length : forall bs k, length (flip_bit k bs) = length bs.
Proof. induction bs; intros; simpl; [reflexivity|]. destruct (k <? 8)%nat; simpl; [reflexivity|]. rewrite IHbs. reflexivity. Qed.

Lemma le_val_bits : forall b bs m, 0 <= m ->
  Z.testbit (le_val (b :: bs)) m = if m <? 8 then Z.testbit b m else Z.testbit (le_val bs) (m - 8).
Proof.
  intros b bs m Hm. cbn [le_val]. rewrite Z.lor_spec, Z.land_spec. change 255 with (Z.ones 8). rewrite Z.testbit_ones_nonneg by lia. destruct (m <? 8) eqn:F.
  - rewrite Z.shiftl_spec_low by lia. rewrite andb_true_r. apply orb_false_r.
  - rewrite andb_false_r, Z.shiftl_spec by assumption. reflexivity.
Qed.

Lemma le_val_flip : forall bs k, (k < 8 * length bs)%nat ->
  le_val (flip_bit k bs) = Z.lxor (le_val bs) (2 ^ Z.of_nat k).
Proof.
  induction bs as [|b bs IH]; intros k Hk; [simpl in Hk; lia|].
  apply Z.bits_inj'. intros m Hm. rewrite Z.lxor_spec, Z.pow2_bits_eqb, (le_val_bits b) by lia.
  simpl flip_bit. destruct (k <? 8)%nat eqn:E; rewrite le_val_bits by assumption.
  - destruct (m <? 8) eqn:F.
    + rewrite Z.lxor_spec, Z.pow2_bits_eqb by lia. reflexivity.
    + replace (Z.of_nat k =? m) with false by lia. symmetry. apply xorb_false_r.
  - destruct (m <? 8) eqn:F.
    + replace (Z.of_nat k =? m) with false by lia. symmetry. apply xorb_false_r.
    + rewrite IH, Z.lxor_spec, Z.pow2_bits_eqb by (simpl in Hk; lia). f_equal. lia.
Qed.

Lemma flip_bit_app_l : forall a b k, (k < 8 * length a)%nat -> flip_bit k (a ++ b) = flip_bit k a ++ b.
Proof.
  induction a as [|x a IH]; intros b k H; [simpl in H; lia|].
  simpl. destruct (k <? 8)%nat eqn:E; [reflexivity|]. apply Nat.ltb_ge in E.
  simpl. f_equal. apply IH. simpl in H. lia.
Qed.

Lemma flip_bit_app_r : forall a b k, (8 * length a <= k)%nat -> flip_bit k (a ++ b) = a ++ flip_bit (k - 8 * length a) b.
Proof.
  induction a as [|x a IH]; intros b k H.
  - simpl. rewrite Nat.sub_0_r. reflexivity.
  - simpl length in *. simpl app. simpl flip_bit.
    assert (E : (k <? 8)%nat = false) by (apply Nat.ltb_ge; lia). rewrite E.
    f_equal. rewrite IH by lia. f_equal. f_equal. lia.
Qed.

Lemma lxor_pow2_ne : forall x k, 0 <= k -> Z.lxor x (2 ^ k) <> x.
Proof.
  intros x k Hk E. assert (H : 2 ^ k = 0).
  { apply (lxor_cancel_l _ _ x). rewrite E. symmetry. apply Z.lxor_0_r. }
  lia.
Qed.

Lemma flip_bit_split : forall l k, (k < 8 * length l)%nat -> Forall byte_ok l ->
  exists pre b post b', l = pre ++ b :: post /\ flip_bit k l = pre ++ b' :: post /\ b <> b' /\ byte_ok b /\ byte_ok b'.
Proof.
  induction l as [|x l IH]; intros k Hk Hb; [simpl in Hk; lia|].
  inversion Hb; subst. simpl flip_bit. destruct (k <? 8)%nat eqn:E.
  - apply Nat.ltb_lt in E. exists [], x, l, (Z.lxor x (2 ^ Z.of_nat k)).
    assert (Hp : 0 < 2 ^ Z.of_nat k < 2 ^ 8) by (split; [apply BytesBE.pow2_pos|apply BytesBE.pow2_lt]; lia).
    assert (Hb' : byte_ok (Z.lxor x (2 ^ Z.of_nat k))).
    { unfold byte_ok in *. change 256 with (2 ^ 8). apply (lxor_range 8); [lia|change (2 ^ 8) with 256; lia|lia]. }
    split; [reflexivity|]. split; [reflexivity|]. split; [|split; assumption].
    intro F. symmetry in F. revert F. apply lxor_pow2_ne. lia.
  - apply Nat.ltb_ge in E. destruct (IH (k - 8)%nat) as (pre & b & post & b' & A & B & C & D1 & D2); [simpl in Hk; lia|assumption|].
    exists (x :: pre), b, post, b'. simpl. rewrite <- A, B. auto.
Qed.

Lemma le_val_flip_ne : forall bs k, (k < 8 * length bs)%nat -> le_val (flip_bit k bs) <> le_val bs.
Proof. intros bs k H. rewrite le_val_flip by assumption. apply lxor_pow2_ne. lia. Qed.

Definition MAXP := MAX_PAYLOAD_LENGTH.

Lemma max_ones : MAX_PAYLOAD_LENGTH = Z.ones 17.
Proof. reflexivity. Qed.
