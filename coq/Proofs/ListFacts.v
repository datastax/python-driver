(* Facts about lists that the standard library (8.16) lacks and that several parts of the development use;
   nothing here mentions a model. *)
From Coq Require Import List Arith Lia.
Import ListNotations.

Lemma fold_left_inv {S O} (step : S -> O -> S) (P : S -> Prop) :
  (forall s o, P s -> P (step s o)) -> forall os s, P s -> P (fold_left step os s).
Proof. intros H os. induction os as [|o os IH]; intros s Hs; [exact Hs|]. apply IH, H, Hs. Qed.

Lemma fold_left_const {S O A} (step : S -> O -> S) (proj : S -> A) :
  (forall s o, proj (step s o) = proj s) -> forall os s, proj (fold_left step os s) = proj s.
Proof. intros H os s. apply (fold_left_inv step (fun s' => proj s' = proj s)); [|reflexivity]. intros s' o <-. apply H. Qed.

Lemma fold_left_rel {S T O} (f : S -> O -> S) (g : T -> O -> T) (R : S -> T -> Prop) :
  (forall s t o, R s t -> R (f s o) (g t o)) -> forall os s t, R s t -> R (fold_left f os s) (fold_left g os t).
Proof. intros H os. induction os as [|o os IH]; intros s t Hst; [exact Hst|]. apply IH, H, Hst. Qed.

Lemma fold_left_collect {S O A} (step : S -> O -> S) (proj : S -> list A) (g : O -> list A) :
  (forall s o, proj (step s o) = proj s ++ g o) -> forall os s, proj (fold_left step os s) = proj s ++ flat_map g os.
Proof.
  intros H. induction os as [|o os IH]; intros s; cbn [fold_left flat_map]; [symmetry; apply app_nil_r|].
  rewrite IH, H, <- app_assoc. reflexivity.
Qed.

(* setting keys that are new, one after the other, in an association list whose [set] appends a new key *)
Lemma fold_set_fresh {A K V} (set : K -> V -> list (K * V) -> list (K * V)) (entry : A -> K * V) :
  (forall k v d, ~ In k (map fst d) -> set k v d = d ++ [(k, v)]) ->
  forall l d, NoDup (map fst d ++ map (fun a => fst (entry a)) l) ->
  fold_left (fun d a => set (fst (entry a)) (snd (entry a)) d) l d = d ++ map entry l.
Proof.
  intros Hset. induction l as [|a l IH]; intros d Hnd; cbn [fold_left map]; [rewrite app_nil_r; reflexivity|].
  cbn [map] in Hnd. rewrite Hset.
  - rewrite IH; [rewrite <- app_assoc, <- surjective_pairing; reflexivity|].
    rewrite map_app. cbn [map fst]. rewrite <- app_assoc. exact Hnd.
  - apply NoDup_remove_2 in Hnd. intros Hin. apply Hnd, in_or_app. left. exact Hin.
Qed.

Lemma NoDup_app_intro {A} (a b : list A) : NoDup a -> NoDup b -> (forall x, In x a -> ~ In x b) -> NoDup (a ++ b).
Proof.
  intros Ha Hb Hd. induction Ha as [|x a Hx Ha IH]; [exact Hb|]. cbn [app]. constructor.
  - rewrite in_app_iff. intros [H|H]; [exact (Hx H)|exact (Hd x (or_introl eq_refl) H)].
  - apply IH. intros y Hy. apply Hd. right. exact Hy.
Qed.

Lemma NoDup_snoc {A} (x : A) l : NoDup l -> ~ In x l -> NoDup (l ++ [x]).
Proof.
  intros Hn Hx. apply NoDup_app_intro; [exact Hn|constructor; [intros []|constructor]|].
  intros y Hy [<-|[]]. exact (Hx Hy).
Qed.

(* lists filed under pairwise different indexes, each holding members of its own index only, concatenate without duplicates *)
Lemma NoDup_concat_keys {I A K} (idx : I -> K) (key : A -> K) (f : I -> list A) l : NoDup (map idx l) ->
  (forall i, In i l -> NoDup (f i)) -> (forall i h, In i l -> In h (f i) -> key h = idx i) -> NoDup (concat (map f l)).
Proof.
  induction l as [|i l IH]; intros Hn Hf Hk; cbn [map concat]; [constructor|].
  cbn [map] in Hn. inversion Hn as [|? ? Hi Hn']; subst.
  apply NoDup_app_intro; [apply Hf; left; reflexivity|apply IH; [exact Hn'| |]; intros; [apply Hf|eapply Hk]; try right; eassumption|].
  intros x Hx (fl & (j & <- & Hj)%in_map_iff & Hxj)%in_concat.
  apply Hi, in_map_iff. exists j. split; [|exact Hj].
  rewrite <- (Hk j x (or_intror Hj) Hxj). apply Hk; [left; reflexivity|exact Hx].
Qed.

(* l holds, once each, exactly the members of P: what a set kept as a list (live hosts, a plan, schema versions) is shown to be *)
Definition enum {A} (l : list A) (P : A -> Prop) : Prop := NoDup l /\ forall h, In h l <-> P h.

Lemma enum_ext {A} {l : list A} {P Q} : enum l P -> (forall h, P h <-> Q h) -> enum l Q.
Proof. intros [HN HM] E. split; [exact HN|]. intros h. rewrite <- E. apply HM. Qed.

Lemma enum_self {A} {l : list A} : NoDup l -> enum l (fun h => In h l).
Proof. intros H. split; [exact H|tauto]. Qed.

Lemma enum_filter {A} f {l : list A} {P} : enum l P -> enum (filter f l) (fun h => P h /\ f h = true).
Proof. intros [HN HM]. split; [apply NoDup_filter, HN|]. intros h. rewrite filter_In, HM. tauto. Qed.

Lemma enum_app {A} {a b : list A} {P Q} : enum a P -> enum b Q -> (forall h, P h -> Q h -> False) ->
  enum (a ++ b) (fun h => P h \/ Q h).
Proof.
  intros [Na Ma] [Nb Mb] D. split.
  - apply NoDup_app_intro; try assumption. intros x Ha Hb. apply (D x); [apply Ma|apply Mb]; assumption.
  - intros h. rewrite in_app_iff, Ma, Mb. tauto.
Qed.

Lemma enum_add {A} (b : bool) (v : A) {l P} : (b = true <-> In v l) -> enum l P ->
  enum (if b then l else l ++ [v]) (fun w => P w \/ w = v).
Proof.
  intros Hb [HN HM]. destruct b.
  - split; [exact HN|]. intros w. rewrite HM. split; [tauto|]. intros [H| ->]; [exact H|apply HM, Hb; reflexivity].
  - split; [apply NoDup_snoc; [exact HN|]; intros H; apply Hb in H; discriminate|].
    intros w. rewrite in_app_iff, HM. cbn. intuition congruence.
Qed.

Lemma filter_all {A} (p : A -> bool) l : (forall x, In x l -> p x = true) -> filter p l = l.
Proof.
  induction l as [|x r IH]; intros H; [reflexivity|]. cbn [filter]. rewrite (H x (or_introl eq_refl)).
  f_equal. apply IH. intros y Hy. apply H. right. exact Hy.
Qed.

Lemma filter_none {A} (p : A -> bool) l : (forall x, In x l -> p x = false) -> filter p l = [].
Proof.
  induction l as [|x r IH]; intros H; [reflexivity|]. cbn [filter]. rewrite (H x (or_introl eq_refl)).
  apply IH. intros y Hy. apply H. right. exact Hy.
Qed.

Lemma filter_length_le {A} (p : A -> bool) l : length (filter p l) <= length l.
Proof. induction l as [|y r IH]; [apply le_n|]. cbn [filter]. destruct (p y); cbn [length]; lia. Qed.

Lemma filter_length_lt {A} (p : A -> bool) l : length (filter p l) < length l <-> exists x, In x l /\ p x = false.
Proof.
  induction l as [|y r IH]; cbn [filter length In].
  - split; [lia|intros [x [[] _]]].
  - pose proof (filter_length_le p r) as Hle. destruct (p y) eqn:Ep; cbn [length].
    + rewrite <- Nat.succ_lt_mono, IH. split; intros [x [Hx Hp]]; exists x; [tauto|].
      destruct Hx as [<-|Hx]; [congruence|tauto].
    + split; [exists y; tauto|lia].
Qed.

Lemma forallb_Forall {A} (f : A -> bool) l : forallb f l = true -> Forall (fun x => f x = true) l.
Proof. intros H. apply Forall_forall, forallb_forall, H. Qed.

Lemma existsb_In {A} (eqb : A -> A -> bool) : (forall x y, eqb x y = true <-> x = y) ->
  forall x l, existsb (eqb x) l = true <-> In x l.
Proof.
  intros E x l. rewrite existsb_exists. split; [intros (y & Hy & ->%E); exact Hy|].
  intros H. exists x. split; [exact H|apply E; reflexivity].
Qed.

Lemma firstn_app_len {A} (a b : list A) : firstn (length a) (a ++ b) = a.
Proof. rewrite firstn_app, Nat.sub_diag, firstn_all, firstn_O. apply app_nil_r. Qed.

Lemma skipn_app_len {A} (a b : list A) : skipn (length a) (a ++ b) = b.
Proof. rewrite skipn_app, Nat.sub_diag, skipn_all. reflexivity. Qed.

Lemma skipn_app_le {A} (k : nat) (a b : list A) : k <= length a -> skipn k (a ++ b) = skipn k a ++ b.
Proof. intros H. rewrite skipn_app. replace (k - length a) with 0 by lia. reflexivity. Qed.

Lemma firstn_app_le {A} (k : nat) (a b : list A) : k <= length a -> firstn k (a ++ b) = firstn k a.
Proof. intros H. rewrite firstn_app. replace (k - length a) with 0 by lia. apply app_nil_r. Qed.

Lemma firstn_exact {A} (n : nat) (a b : list A) : length a = n -> firstn n (a ++ b) = a.
Proof. intros <-. apply firstn_app_len. Qed.

Lemma skipn_exact {A} (n : nat) (a b : list A) : length a = n -> skipn n (a ++ b) = b.
Proof. intros <-. apply skipn_app_len. Qed.

Lemma skipn_S_app_len {A} (a : list A) y b : skipn (S (length a)) (a ++ y :: b) = b.
Proof. induction a as [|x a IH]; [reflexivity|exact IH]. Qed.

Lemma nth_error_app_len {A} (a b : list A) : nth_error (a ++ b) (length a) = hd_error b.
Proof. rewrite nth_error_app2, Nat.sub_diag by apply le_n. destruct b; reflexivity. Qed.

Lemma skipn_skipn' {A} (n m : nat) (l : list A) : skipn n (skipn m l) = skipn (m + n) l.
Proof. revert l. induction m as [|m IH]; intros [|x l]; cbn [skipn plus]; try apply IH; try reflexivity. apply skipn_nil. Qed.

Lemma In_firstn {A} n (l : list A) x : In x (firstn n l) -> In x l.
Proof. intros H. rewrite <- (firstn_skipn n l). apply in_or_app. left. exact H. Qed.

Lemma NoDup_firstn {A} n (l : list A) : NoDup l -> NoDup (firstn n l).
Proof.
  revert n. induction l as [|a l IH]; intros [|n] H; cbn [firstn]; try constructor; inversion H; subst; [|auto].
  intros Hin. apply In_firstn in Hin. tauto.
Qed.

Lemma Forall_firstn {A} (P : A -> Prop) k l : Forall P l -> Forall P (firstn k l).
Proof. intros H. rewrite <- (firstn_skipn k l) in H. apply Forall_app in H. tauto. Qed.

Lemma Forall_skipn {A} (P : A -> Prop) k l : Forall P l -> Forall P (skipn k l).
Proof. intros H. rewrite <- (firstn_skipn k l) in H. apply Forall_app in H. tauto. Qed.

Lemma Forall2_length {A B} (P : A -> B -> Prop) l r : Forall2 P l r -> length l = length r.
Proof. intros H. induction H; cbn; congruence. Qed.

Lemma Forall2_impl {A B} (P Q : A -> B -> Prop) l r : (forall a b, P a b -> Q a b) -> Forall2 P l r -> Forall2 Q l r.
Proof. intros HPQ H. induction H; constructor; auto. Qed.

Lemma Forall2_map_eq {A B C} (f : A -> C) (g : B -> C) l r : Forall2 (fun a b => f a = g b) l r -> map f l = map g r.
Proof. intros H. induction H; cbn; congruence. Qed.

Lemma nth_error_ext {A} (a b : list A) : (forall j, nth_error a j = nth_error b j) -> a = b.
Proof.
  revert b. induction a as [|x a IH]; intros [|y b] H; try (specialize (H 0); discriminate); [reflexivity|].
  injection (H 0) as <-. f_equal. apply IH. intros j. exact (H (S j)).
Qed.

(* Shutdown, LegacyPool, FutureOnce, HostState and FutB each define [remove_nth] with this body: the constants are
   convertible with [remove_at], so the lemmas below apply to them as they stand. *)

Fixpoint remove_at {A} (k : nat) (l : list A) : list A :=
  match l, k with [], _ => [] | _ :: t, O => t | x :: t, S k' => x :: remove_at k' t end.

Lemma remove_at_split {A} (k : nat) (l : list A) x : nth_error l k = Some x ->
  exists a b, l = a ++ x :: b /\ remove_at k l = a ++ b.
Proof.
  revert k. induction l as [|y l IH]; intros [|k] Hk; cbn in *; try discriminate.
  - injection Hk as ->. exists [], l. split; reflexivity.
  - destruct (IH k Hk) as (a & b & -> & E). exists (y :: a), b. cbn. rewrite E. destruct (a ++ x :: b); split; reflexivity.
Qed.

Lemma In_remove_at {A} (k : nat) (l : list A) x : In x (remove_at k l) -> In x l.
Proof. revert k. induction l as [|y l IH]; intros [|k]; cbn; auto. intros [H|H]; eauto. Qed.

Lemma In_removed_or {A} (k : nat) (l : list A) t x : nth_error l k = Some t -> In x l -> x = t \/ In x (remove_at k l).
Proof.
  intros (a & b & -> & ->)%remove_at_split. rewrite !in_app_iff. cbn. intuition auto.
Qed.

(* Pool's [upd], FutureOnce's and Encryption's [upd_nth] have this body. *)
Fixpoint update_at {A} (k : nat) (f : A -> A) (l : list A) : list A :=
  match l, k with [], _ => [] | x :: t, O => f x :: t | x :: t, S k' => x :: update_at k' f t end.

Lemma length_update_at {A} k (f : A -> A) l : length (update_at k f l) = length l.
Proof. revert k. induction l as [|x l IH]; intros [|k]; cbn; auto. Qed.

Lemma nth_error_update_at {A} k j (f : A -> A) l :
  nth_error (update_at k f l) j = if Nat.eqb j k then option_map f (nth_error l j) else nth_error l j.
Proof.
  revert k j. induction l as [|x l IH]; intros [|k] [|j]; cbn; try reflexivity; [destruct (Nat.eqb j k); reflexivity|apply IH].
Qed.

Lemma update_at_twice {A} k (f g : A -> A) l : update_at k g (update_at k f l) = update_at k (fun x => g (f x)) l.
Proof. revert k. induction l as [|x l IH]; intros [|k]; cbn; try rewrite IH; reflexivity. Qed.

Lemma map_update_at {A B} (p : A -> B) (f : A -> A) k l : (forall x, p (f x) = p x) -> map p (update_at k f l) = map p l.
Proof. intros Hf. revert k. induction l as [|x l IH]; intros [|k]; cbn; try rewrite Hf; try rewrite IH; reflexivity. Qed.

(* Membership and equality of lists decided by a test on the elements.  The models define both many times over (e.g.
   [Conn.mem], [Handshake.memZ], [Pool.mem]; [zlist_eqb], [list_eqb], [bytes_eqb], [str_eqb], SortedSet's [list_eqb]); the
   copies are the same [fix], hence convertible with [memb] and [eq_listb] at their element test, and [memb_In],
   [eq_listb_spec] prove the specification of each by [exact]. *)

Section Memb.
  Context {A : Type} (eqb : A -> A -> bool).

  Fixpoint memb (x : A) (l : list A) : bool :=
    match l with [] => false | y :: t => eqb x y || memb x t end.

  Lemma memb_In : (forall x y, eqb x y = true <-> x = y) -> forall x l, memb x l = true <-> In x l.
  Proof.
    intros E x. induction l as [|y t IH]; cbn [memb In]; [split; [discriminate|tauto]|].
    rewrite Bool.orb_true_iff, E, IH. split; intros [H|H]; auto.
  Qed.
End Memb.

Section EqListb.
  Context {A : Type} (eqb : A -> A -> bool).

  Fixpoint eq_listb (a b : list A) : bool :=
    match a, b with
    | [], [] => true
    | x :: a', y :: b' => eqb x y && eq_listb a' b'
    | _, _ => false
    end.

  Lemma eq_listb_spec : (forall x y, eqb x y = true <-> x = y) -> forall a b, eq_listb a b = true <-> a = b.
  Proof.
    intros E. induction a as [|x a IH]; intros [|y b]; cbn [eq_listb]; try (split; discriminate); [tauto|].
    rewrite Bool.andb_true_iff, E, IH. split; [intros [-> ->]; reflexivity|intros [= -> ->]; split; reflexivity].
  Qed.
End EqListb.
