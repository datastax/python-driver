(* C31: each call returns max (clock, previous + 1) and makes it the new state, so every later value is above it. *)
From Coq Require Import ZArith List Bool Lia.
From Verif Require Import PyBase Timestamps Timestamp ListFacts.
Import ListNotations.
Local Open Scope Z_scope.

Lemma Forall2_nth_error {A B} (R : A -> B -> Prop) l r : Forall2 R l r ->
  forall i a b, nth_error l i = Some a -> nth_error r i = Some b -> R a b.
Proof.
  induction 1 as [|x y l r H _ IH]; intros [|i] a b Ha Hb; try discriminate; [|exact (IH i a b Ha Hb)].
  injection Ha as <-. injection Hb as <-. exact H.
Qed.

(* the one lemma that unfolds the generated next_timestamp *)
Lemma call_spec last now : call last now = (Z.max now (last + 1), Z.max now (last + 1)).
Proof.
  unfold call, next_timestamp. destruct (Z.gtb_spec now last); [rewrite Z.max_l by lia|rewrite Z.max_r by lia]; reflexivity.
Qed.

Lemma run_cons last now rest : run last (now :: rest) = Z.max now (last + 1) :: run (Z.max now (last + 1)) rest.
Proof. cbn [run]. rewrite call_spec. reflexivity. Qed.

Lemma run_all_gt : forall clock last x, In x (run last clock) -> last < x.
Proof.
  induction clock as [|now rest IH]; intros last x H; [inversion H|].
  rewrite run_cons in H. destruct H as [<-|H%IH]; lia.
Qed.

Lemma run_pairwise : forall clock last i j a b, (i < j)%nat ->
  nth_error (run last clock) i = Some a -> nth_error (run last clock) j = Some b -> a < b.
Proof.
  induction clock as [|now rest IH]; intros last i j a b Hij Hi Hj; [destruct i; discriminate|].
  rewrite run_cons in Hi, Hj. destruct j as [|j]; [inversion Hij|]. destruct i as [|i].
  - injection Hi as <-. exact (run_all_gt rest _ b (nth_error_In _ j Hj)).
  - exact (IH _ i j a b (proj2 (Nat.succ_lt_mono i j) Hij) Hi Hj).
Qed.

(* call by call: one value per reading of the clock, none behind its reading *)
Lemma run_not_behind : forall clock last, Forall2 Z.le clock (run last clock).
Proof.
  induction clock as [|now rest IH]; intros last; [constructor|]. rewrite run_cons. constructor; [apply Z.le_max_l|apply IH].
Qed.
