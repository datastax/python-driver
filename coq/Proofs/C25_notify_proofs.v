(* C25: a step that marks a host up emits exactly one listener notification (on_up or on_add) for it: every step
   satisfies G; most operations satisfy the stronger Q, and Q before or after G is G. *)
From Coq Require Import ZArith List Bool Arith Lia.
From Verif Require Import ListFacts HostState.
Import ListNotations.

(* the listener notes of kind 0 (on_up) and 2 (on_add) about host h, and their number in a list *)
Definition isl (h : nat) (n : note) : bool :=
  match n with NL 0 h' => h' =? h | NL 2 h' => h' =? h | _ => false end.
Definition lc (h : nat) (l : list note) : nat := length (filter (isl h) l).
Definition upof (s : st) (h : nat) : nat := up (hosts s h).

(* Q: nobody becomes up, no listener up/add note is added *)
Definition Q (s s' : st) : Prop :=
  (forall h, upof s' h = 1 -> upof s h = 1) /\ (forall h, lc h (out s') = lc h (out s)).
(* G: whoever becomes up gets exactly one more listener note *)
Definition G (s s' : st) : Prop :=
  forall h, upof s h <> 1 -> upof s' h = 1 -> lc h (out s') = S (lc h (out s)).

Lemma Q_refl s : Q s s. Proof. split; auto. Qed.
Lemma Q_trans a b c : Q a b -> Q b c -> Q a c.
Proof. intros [A1 A2] [B1 B2]. split; intros h; [auto | rewrite B2; auto]. Qed.
Lemma G_of_Q s s' : Q s s' -> G s s'.
Proof. intros [A1 A2] h Hn Hu. exfalso. auto. Qed.
Lemma G_then_Q a b c : G a b -> Q b c -> G a c.
Proof. intros HG [B1 B2] h Hn Hu. rewrite B2. apply HG; auto. Qed.
Lemma Q_then_G a b c : Q a b -> G b c -> G a c.
Proof. intros [A1 A2] HG h Hn Hu. rewrite <- A2. apply HG; auto. Qed.

Lemma Q_if (c : bool) s a b : Q s a -> Q s b -> Q s (if c then a else b).
Proof. destruct c; auto. Qed.
Lemma G_if (c : bool) s a b : G s a -> G s b -> G s (if c then a else b).
Proof. destruct c; auto. Qed.

Definition nomark (f : hst -> hst) : Prop := forall x, up (f x) = 1 -> up x = 1.

Lemma Q_updh s h f : nomark f -> Q s (updh s h f).
Proof.
  intros Hf. split.
  - intros x. unfold upof, updh; simpl. destruct (x =? h); auto.
  - reflexivity.
Qed.
Lemma Q_same s s' : hosts s' = hosts s -> out s' = out s -> Q s s'.
Proof. intros E1 E2. unfold Q, upof. rewrite E1, E2. auto. Qed.
Lemma Q_emit s n : (forall h, isl h n = false) -> Q s (emit s n).
Proof. intros Hn. split; [auto|]. intros h. unfold lc, emit; simpl. rewrite Hn. reflexivity. Qed.

Lemma nm_reg v : nomark (h_reg v). Proof. intros x; auto. Qed.
Lemma nm_handling v : nomark (h_handling v). Proof. intros x; auto. Qed.
Lemma nm_up0 : nomark (h_up 0). Proof. intros x; discriminate. Qed.
Lemma nm_up2 : nomark (h_up 2). Proof. intros x; discriminate. Qed.
Lemma nm_present v : nomark (h_present v). Proof. intros x; auto. Qed.
Lemma nm_comp f g : nomark f -> nomark g -> nomark (fun x => f (g x)).
Proof. intros Hf Hg x H. auto. Qed.

Lemma Q_cancel_opt s o : Q s (cancel_opt s o).
Proof. destruct o; [apply Q_same; reflexivity | apply Q_refl]. Qed.
Lemma Q_enq s ts : Q s (enq s ts). Proof. apply Q_same; reflexivity. Qed.
Lemma Q_remove_pools s h cb : Q s (remove_pools s h cb).
Proof. apply Q_same; reflexivity. Qed.
Lemma Q_add_pools s h a g : Q s (add_pools s h a g).
Proof. unfold add_pools. destruct (ignd s h); [apply Q_refl | apply Q_enq]. Qed.
Lemma Q_ucp_one s sid : Q s (ucp_one s sid).
Proof. apply Q_same; reflexivity. Qed.
Lemma Q_ucp_all s : Q s (ucp_all s).
Proof.
  apply (fold_left_inv ucp_one (Q s)); [| apply Q_refl]. intros a sid Ha. exact (Q_trans _ _ _ Ha (Q_ucp_one a sid)).
Qed.

Lemma lc_cons_hit h l k : (k = 0 \/ k = 2) -> lc h (NL k h :: l) = S (lc h l).
Proof. intros [-> | ->]; unfold lc; simpl; rewrite Nat.eqb_refl; reflexivity. Qed.
Lemma lc_cons_miss h h' l k : h' <> h -> lc h (NL k h' :: l) = lc h l.
Proof.
  intros Hn. apply Nat.eqb_neq in Hn. unfold lc; simpl.
  destruct k as [|[|[|k]]]; rewrite ?Hn; reflexivity.
Qed.

Lemma G_mark s h k F : (k = 0 \/ k = 2) -> G s (emit (updh s h F) (NL k h)).
Proof.
  intros Hk x Hn Hu. unfold upof, updh, emit in *; simpl in *.
  destruct (x =? h) eqn:E.
  - apply Nat.eqb_eq in E; subst. apply lc_cons_hit; auto.
  - contradiction.
Qed.

Lemma G_emit_only s n : G s (emit s n).
Proof. intros x Hn Hu. exfalso. apply Hn. exact Hu. Qed.

Lemma Q_set_nextg s v : Q s (set_nextg s v). Proof. apply Q_same; reflexivity. Qed.
Lemma Q_set_gfail s v : Q s (set_gfail s v). Proof. apply Q_same; reflexivity. Qed.
Lemma Q_set_order s v : Q s (set_order s v). Proof. apply Q_same; reflexivity. Qed.
Lemma Q_set_queue s v : Q s (set_queue s v). Proof. apply Q_same; reflexivity. Qed.
Lemma Q_set_timers s v : Q s (set_timers s v). Proof. apply Q_same; reflexivity. Qed.
Lemma Q_set_nrecs s v : Q s (set_nrecs s v). Proof. apply Q_same; reflexivity. Qed.
Lemma Q_updr s r f : Q s (updr s r f). Proof. apply Q_same; reflexivity. Qed.
Lemma Q_set_probes s v : Q s (set_probes s v). Proof. apply Q_same; reflexivity. Qed.
Lemma Q_set_epools s v : Q s (set_epools s v). Proof. apply Q_same; reflexivity. Qed.
Lemma Q_set_eign s v : Q s (set_eign s v). Proof. apply Q_same; reflexivity. Qed.
Lemma Q_upd_pools s h f : Q s (upd_pools s h f). Proof. apply Q_same; reflexivity. Qed.

Create HintDb q discriminated.
#[local] Hint Extern 1 (nomark (fun _ => _)) => apply nm_comp : q.
#[local] Hint Extern 1 (isl _ _ = false) => reflexivity : q.
#[local] Hint Resolve nm_reg nm_handling nm_up0 nm_up2 nm_present Q_updh Q_emit Q_cancel_opt
  Q_enq Q_remove_pools Q_add_pools Q_ucp_one Q_set_nextg Q_set_gfail Q_set_order Q_set_queue Q_set_timers
  Q_updr Q_set_probes Q_set_eign Q_upd_pools Q_set_nrecs : q.
(* Q of a composition of the operations above: the outermost is a hint, the rest is Q again *)
Ltac q := repeat first [apply Q_refl | eapply Q_trans; [| solve [auto with q]]].

Lemma Q_start s h a : Q s (start_reconnector s h a).
Proof. unfold start_reconnector. do 2 (apply Q_if; [apply Q_refl|]). q. Qed.
#[local] Hint Resolve Q_start : q.

Lemma G_on_up s h : G s (on_up s h).
Proof.
  unfold on_up. do 2 (apply G_if; [apply G_of_Q, Q_refl|]). apply G_if.
  - apply G_of_Q. q.
  - eapply Q_then_G; [| apply G_mark; auto]. q.
Qed.

Lemma G_finalize_add s h b : G s (finalize_add s h b).
Proof.
  unfold finalize_add. eapply G_then_Q; [| apply Q_ucp_all]. destruct b.
  - apply G_mark; auto.
  - apply G_emit_only.
Qed.

Lemma G_on_add s h : G s (on_add s h).
Proof.
  unfold on_add. apply G_if; [| apply G_if].
  - eapply Q_then_G; [| apply G_finalize_add]. q.
  - apply G_of_Q. q.
  - eapply Q_then_G; [| apply G_finalize_add]. q.
Qed.

Lemma Q_on_remove s h : Q s (on_remove s h).
Proof. unfold on_remove. q. Qed.

Lemma Q_on_down_task s h a e : Q s (on_down_task s h a e).
Proof.
  unfold on_down_task. apply Q_if; [apply Q_refl | apply Q_if]; q.
Qed.

Lemma Q_cleanup s h : Q s (cleanup s h).
Proof. unfold cleanup. q. Qed.

Lemma G_grp_done s h g res : G s (grp_done s h g res).
Proof.
  unfold grp_done. destruct g as [|n|n]; [apply G_of_Q, Q_refl | |];
    set (s1 := if res then s else set_gfail s (n :: gfail s));
    (assert (H1 : Q s s1) by (apply Q_if; q)); apply (Q_then_G _ _ _ H1);
    (apply G_if; [apply G_of_Q, Q_refl|]); apply G_if.
  - (* GUp, a creation failed *) apply G_of_Q. eapply Q_trans; [apply Q_cleanup|]. q.
  - (* GUp, all created *)
    eapply G_then_Q; [| apply Q_ucp_all]. eapply G_then_Q; [| apply Q_updh, nm_handling]. apply G_mark; auto.
  - (* GAdd, a creation failed *) apply G_of_Q, Q_refl.
  - (* GAdd, all created *) apply G_finalize_add.
Qed.

Lemma G_run_task s t o : G s (run_task s t o).
Proof.
  destruct t; simpl.
  - apply G_of_Q, Q_on_down_task.
  - unfold run_addpool. destruct o; (eapply Q_then_G; [| apply G_grp_done]); q.
  - destruct cb; apply G_of_Q; q.
Qed.

Lemma G_probe_finish s r o : G s (probe_finish s r o).
Proof.
  unfold probe_finish. destruct o.
  - destruct (rcanc (recs s r)); [apply G_of_Q, Q_refl|].
    eapply G_then_Q; [| apply Q_updh, nm_reg].
    destruct (radd (recs s r)); [apply G_on_add | apply G_on_up].
  - apply G_of_Q. destruct (rleft (recs s r)) as [[|n]|]; q.
  - apply G_of_Q. q.
Qed.

Lemma G_reconnect s r o : G s (reconnect s r o).
Proof.
  unfold reconnect. destruct (rcanc (recs s r)); [apply G_of_Q, Q_refl|].
  eapply Q_then_G; [| apply G_probe_finish]. q.
Qed.

Lemma Q_probe_start s r : Q s (probe_start s r).
Proof. unfold probe_start. destruct (rcanc (recs s r)); q. Qed.

Lemma G_step_ s e : G s (step_ s e).
Proof.
  destruct e as [h|h|h|h|h|k o|k o|k|j o|e0 b]; simpl.
  - (* EFail *) destruct (known s h); apply G_of_Q; q.
  - (* EStatusDown *) destruct (known s h); apply G_of_Q; q.
  - (* EStatusUp *) destruct (known s h); [apply G_on_up | apply G_of_Q, Q_refl].
  - (* EAdd *) destruct ((present (hosts s h) =? 0) && ((h <? neps s) || (present (hosts s (h - neps s)) =? 2))); [| apply G_of_Q, Q_refl].
    eapply Q_then_G; [| apply G_on_add]. q.
  - (* ERemove *) destruct (present (hosts s h) =? 1); apply G_of_Q; [apply Q_on_remove | apply Q_refl].
  - (* EReconnect *) destruct (nth_error (timers s) k); [| apply G_of_Q, Q_refl].
    eapply Q_then_G; [| apply G_reconnect]. q.
  - (* ERun *) destruct (nth_error (queue s) k); [| apply G_of_Q, Q_refl].
    eapply Q_then_G; [| apply G_run_task]. q.
  - (* EProbeStart *) destruct (nth_error (timers s) k); [| apply G_of_Q, Q_refl].
    apply G_of_Q. eapply Q_trans; [| apply Q_probe_start]. q.
  - (* EProbeFinish *) destruct (nth_error (probes s) j); [| apply G_of_Q, Q_refl].
    eapply Q_then_G; [| apply G_probe_finish]. q.
  - (* ESetIgn *) apply G_of_Q. q.
Qed.

Lemma lc_rev h l : lc h (rev l) = lc h l.
Proof.
  unfold lc. induction l; simpl; auto. rewrite filter_app, app_length. simpl.
  destruct (isl h a); simpl; rewrite IHl; lia.
Qed.
