(* C28 -- proofs about Model/TypeDesc.v.  Each parser (lookup_casstype, cqltype_to_python) is one machine on characters, scanner and token
   machine together ([cass_go], [cql_go]); "this text pushes that" is an equation between two runs, composed by rewriting, with one induction
   over type trees per parser.  Finite facts (character classes, the tables of simple types) are settled by one evaluation each. *)
From Coq Require Import List Bool Ascii String NArith Arith Lia.
From Verif Require Import TypeDesc ListFacts.
Import ListNotations.
Local Open Scope list_scope.

Section ty_ind2.
  Variable P : ty -> Prop.
  Hypothesis HS : forall s, P (TSimple s).
  Hypothesis HL : forall a, P a -> P (TList a).
  Hypothesis HSet : forall a, P a -> P (TSet a).
  Hypothesis HM : forall k v, P k -> P v -> P (TMap k v).
  Hypothesis HT : forall ts, Forall P ts -> P (TTuple ts).
  Hypothesis HU : forall ks n fn ft, Forall P ft -> P (TUdt ks n fn ft).
  Hypothesis HV : forall a d, P a -> P (TVector a d).
  Hypothesis HF : forall a, P a -> P (TFrozen a).
  Hypothesis HR : forall a, P a -> P (TReversed a).

  Fixpoint ty_ind2 (t : ty) : P t :=
    let fix all (l : list ty) : Forall P l :=
      match l with
      | [] => Forall_nil P
      | x :: l' => Forall_cons x (ty_ind2 x) (all l')
      end in
    match t with
    | TSimple s => HS s
    | TList a => HL a (ty_ind2 a)
    | TSet a => HSet a (ty_ind2 a)
    | TMap k v => HM k v (ty_ind2 k) (ty_ind2 v)
    | TTuple ts => HT ts (all ts)
    | TUdt ks n fn ft => HU ks n fn ft (all ft)
    | TVector a d => HV a d (ty_ind2 a)
    | TFrozen a => HF a (ty_ind2 a)
    | TReversed a => HR a (ty_ind2 a)
    end.
End ty_ind2.

Lemma str_eqb_refl : forall a, str_eqb a a = true.
Proof. intros a. apply (eq_listb_spec Ascii.eqb Ascii.eqb_eq). reflexivity. Qed.

Lemma str_eqb_eq : forall a b, str_eqb a b = true -> a = b.
Proof. intros a b. apply (eq_listb_spec Ascii.eqb Ascii.eqb_eq). Qed.

Lemma join_cons : forall sep x l, join sep (x :: l) = x ++ flat_map (fun y => sep ++ y) l.
Proof.
  intros sep x l. revert x. induction l as [|a l IHl]; intros x.
  - simpl. rewrite app_nil_r. reflexivity.
  - change (join sep (x :: a :: l)) with (x ++ sep ++ join sep (a :: l)).
    rewrite IHl. simpl. rewrite <- app_assoc. reflexivity.
Qed.

Lemma opt_all_map : forall {A B} (f : A -> option B) (g : A -> B) l,
  Forall (fun x => f x = Some (g x)) l -> opt_all (map f l) = Some (map g l).
Proof.
  intros A B f g l H. induction H; simpl; auto. rewrite H, IHForall. reflexivity.
Qed.

Lemma opt_all_some : forall {A B} (f : A -> option B) l, Forall (fun x => exists y, f x = Some y) l -> exists r, opt_all (map f l) = Some r.
Proof. intros A B f l H. induction H as [|x l [y Hy] _ [r Hr]]; [exists []; reflexivity|]. exists (y :: r). simpl. rewrite Hy, Hr. reflexivity. Qed.

Lemma forallb_impl : forall {A} (f g : A -> bool) l, (forall x, f x = true -> g x = true) -> forallb f l = true -> forallb g l = true.
Proof. intros A f g l H. rewrite !forallb_forall. auto. Qed.

Lemma Forall_guard : forall (A : Type) (f : A -> bool) (P : A -> Prop) l, Forall (fun x => f x = true -> P x) l -> forallb f l = true -> Forall P l.
Proof. intros A f P l H Hf. rewrite forallb_forall in Hf. rewrite Forall_forall in *. auto. Qed.

Definition allb (f : bool -> bool) : bool := f true && f false.

Lemma allb_spec : forall f, allb f = true -> forall b, f b = true.
Proof. intros f H b. apply andb_true_iff in H. destruct b; apply H. Qed.

Definition all_ascii (p : ascii -> bool) : bool :=
  allb (fun a => allb (fun b => allb (fun c => allb (fun d => allb (fun e => allb (fun f => allb (fun g => allb (fun h =>
    p (Ascii a b c d e f g h))))))))).

Lemma class_incl : forall p q : ascii -> bool,
  all_ascii (fun c => implb (p c) (q c)) = true -> forall c, p c = true -> q c = true.
Proof.
  intros p q H [a b c d e f g h] Hp. unfold all_ascii in H.
  apply allb_spec with (b := a) in H. apply allb_spec with (b := b) in H. apply allb_spec with (b := c) in H.
  apply allb_spec with (b := d) in H. apply allb_spec with (b := e) in H. apply allb_spec with (b := f) in H.
  apply allb_spec with (b := g) in H. apply allb_spec with (b := h) in H. rewrite Hp in H. exact H.
Qed.

Lemma simple_all : forall p : simple -> bool, forallb p all_simple = true -> forall s, p s = true.
Proof.
  intros p H s. cbn [all_simple forallb] in H. repeat (apply andb_true_iff in H; destruct H as [? H]). destruct s; assumption.
Qed.

Definition wordc (cl : ascii -> cclass) (c : ascii) : bool := match cl c with KWord => true | _ => false end.
Definition delimc (cl : ascii -> cclass) (c : ascii) : bool := match cl c with KPunct | KSkip => true | _ => false end.
Definition skipc (cl : ascii -> cclass) (c : ascii) : bool := match cl c with KSkip => true | _ => false end.
Definition is_lhex (c : ascii) : bool := is_digit c || between 97 102 c.
(* the next three are used far below; they stand here so that [alnum_class] can establish the four inclusions of [is_alnum_] in one
   sweep over the 256 characters (coqchk pays for each sweep) *)
(* split_tok keeps such a character in the part it is reading *)
Definition nosepc (c : ascii) : bool := negb (code c =? 58)%N && negb (code c =? 61)%N.
(* cql_lex outside quotes accumulates it *)
Definition cql_wordc (c : ascii) : bool := negb (code c =? 34)%N && wordc cql_class c.
(* a token that starts with it is a name for py_run *)
Definition namec (c : ascii) : bool := negb ((code c =? 60) || (code c =? 62) || (code c =? 44))%N.

Lemma alnum_class : forall c, is_alnum_ c = true ->
  wordc cass_class c = true /\ nosepc c = true /\ cql_wordc c = true /\ namec c = true.
Proof.
  intros c H. apply (class_incl _ (fun c => wordc cass_class c && (nosepc c && (cql_wordc c && namec c)))) in H;
    [|vm_compute; reflexivity].
  apply andb_true_iff in H. destruct H as [H1 H]. apply andb_true_iff in H. destruct H as [H2 H].
  apply andb_true_iff in H. tauto.
Qed.

Lemma alnum_word : forall w, forallb is_alnum_ w = true -> forallb (wordc cass_class) w = true.
Proof. intros w. apply forallb_impl. intros c H. destruct (alnum_class c H) as (Hw & _). exact Hw. Qed.

Lemma alnum_nosep : forall w, forallb is_alnum_ w = true -> forallb nosepc w = true.
Proof. intros w. apply forallb_impl. intros c H. destruct (alnum_class c H) as (_ & Hn & _). exact Hn. Qed.

Lemma lhex_class : forall c, is_lhex c = true -> is_alnum_ c = true /\ (code c =? 95)%N = false.
Proof.
  intros c H. apply (class_incl _ (fun c => is_alnum_ c && negb (code c =? 95)%N)) in H; [|vm_compute; reflexivity].
  apply andb_true_iff in H. destruct H as [H1 H2]. apply negb_true_iff in H2. tauto.
Qed.

Lemma lhex_alnum : forall w, forallb is_lhex w = true -> forallb is_alnum_ w = true.
Proof. intros w. apply forallb_impl. intros c H. destruct (lhex_class c H) as [Ha _]. exact Ha. Qed.

Lemma digit_alnum : forall w, forallb is_digit w = true -> forallb is_alnum_ w = true.
Proof. intros w. apply forallb_impl. intros c H. unfold is_alnum_. rewrite H. reflexivity. Qed.

Lemma marshal_simple_ok : forall s, forallb is_alnum_ (marshal_simple s) = true /\ assoc (marshal_simple s) registry <> None.
Proof.
  intros s. assert (H : forallb (fun s => forallb is_alnum_ (marshal_simple s) &&
      match assoc (marshal_simple s) registry with Some _ => true | None => false end) all_simple = true) by (vm_compute; reflexivity).
  apply simple_all with (s := s), andb_true_iff in H. destruct H as [H1 H2]. split; [assumption|]. destruct (assoc _ _); [discriminate|discriminate H2].
Qed.

Lemma cql_simple_ok : forall s,
  forallb is_alnum_ (cql_simple s) = true /\ cql_simple s <> [] /\ str_eqb (cql_simple s) frozen_kw = false.
Proof.
  intros s. assert (H : forallb (fun s => forallb is_alnum_ (cql_simple s) &&
      negb (str_eqb (cql_simple s) []) && negb (str_eqb (cql_simple s) frozen_kw)) all_simple = true) by (vm_compute; reflexivity).
  apply simple_all with (s := s), andb_true_iff in H. destruct H as [H H3]. apply andb_true_iff in H. destruct H as [H1 H2].
  apply negb_true_iff in H2, H3. repeat split; [assumption| |assumption]. intros E. rewrite E in H2. discriminate.
Qed.

(* what lexg (with any class function) and cql_lex (outside quotes) have in common: how words are accumulated and end at a
   delimiter; what a bracket, a separator or a quote does is each machine's own *)
Record scanner := {
  scan : str -> str -> option (list str);
  word : ascii -> bool;
  delim : ascii -> bool;
  scan_nil : forall acc, scan [] acc = Some (flush acc []);
  scan_word : forall c s acc, word c = true -> scan (c :: s) acc = scan s (acc ++ [c]);
  scan_delim : forall c s acc, delim c = true -> scan (c :: s) acc = option_map (flush acc) (scan (c :: s) [])
}.

Section Scanner.
  Variable S : scanner.

  Definition delimited (rest : str) : Prop := match rest with [] => True | c :: _ => delim S c = true end.

  Lemma scan_words : forall w rest acc, forallb (word S) w = true -> scan S (w ++ rest) acc = scan S rest (acc ++ w).
  Proof.
    induction w as [|c w IH]; intros rest acc H; simpl.
    - rewrite app_nil_r. reflexivity.
    - simpl in H. apply andb_true_iff in H. destruct H as [Hc Hw].
      rewrite scan_word, IH, <- app_assoc by assumption. reflexivity.
  Qed.

  Lemma scan_token : forall w rest, forallb (word S) w = true -> w <> [] -> delimited rest ->
    scan S (w ++ rest) [] = option_map (cons w) (scan S rest []).
  Proof.
    intros w rest Hw Hne D. rewrite scan_words by assumption. cbn [app]. destruct w as [|a l]; [contradiction|].
    destruct rest as [|c rest]; [rewrite !scan_nil; reflexivity|]. rewrite scan_delim by assumption.
    destruct (scan S (c :: rest) []); reflexivity.
  Qed.
End Scanner.

Lemma lexg_word_law : forall cl c s acc, wordc cl c = true -> lexg cl (c :: s) acc = lexg cl s (acc ++ [c]).
Proof. intros cl c s acc H. unfold wordc in H. simpl. destruct (cl c); try discriminate. reflexivity. Qed.

Lemma lexg_delim_law : forall cl c s acc, delimc cl c = true ->
  lexg cl (c :: s) acc = option_map (flush acc) (lexg cl (c :: s) []).
Proof.
  intros cl c s acc H. unfold delimc in H. simpl. destruct (cl c); try discriminate; destruct (lexg cl s []); reflexivity.
Qed.

Definition lexer (cl : ascii -> cclass) : scanner :=
  {| scan := lexg cl; word := wordc cl; delim := delimc cl;
     scan_nil := fun _ => eq_refl; scan_word := lexg_word_law cl; scan_delim := lexg_delim_law cl |}.

Lemma hexchar_spec : forall n, (n < 16)%N ->
  is_lhex (hexchar n) = true /\ unhex_digit (hexchar n) = Some n /\ (code (hexchar n) =? 48)%N = (n =? 0)%N.
Proof.
  intros n H.
  assert (Hn : In n (map N.of_nat (seq 0 16))).
  { apply in_map_iff. exists (N.to_nat n). split; [apply N2Nat.id|]. apply in_seq. lia. }
  simpl in Hn. repeat (destruct Hn as [<-|Hn]; [split; [|split]; reflexivity|]). contradiction.
Qed.

Lemma hexchar_lhex : forall n, (n < 16)%N -> is_lhex (hexchar n) = true.
Proof. intros n H. apply (hexchar_spec n H). Qed.

Lemma unhex_hexchar : forall n, (n < 16)%N -> unhex_digit (hexchar n) = Some n.
Proof. intros n H. apply (hexchar_spec n H). Qed.

Lemma hexchar_zero : forall n, (n < 16)%N -> (code (hexchar n) =? 48)%N = (n =? 0)%N.
Proof. intros n H. apply (hexchar_spec n H). Qed.

Lemma nibbles : forall c, (code c / 16 < 16 /\ code c mod 16 < 16)%N.
Proof.
  intros c. split; [|apply N.mod_lt; discriminate].
  apply N.div_lt_upper_bound; [discriminate|]. exact (N_ascii_bounded c).
Qed.

Lemma hex_of_lhex : forall s, forallb is_lhex (hex_of s) = true.
Proof.
  induction s as [|c s IH]; simpl; auto. destruct (nibbles c) as [Hh Hl].
  rewrite IH, (hexchar_lhex _ Hh), (hexchar_lhex _ Hl). reflexivity.
Qed.

Lemma hex_alnum : forall s, forallb is_alnum_ (hex_of s) = true.
Proof. intros s. apply lhex_alnum, hex_of_lhex. Qed.

Lemma name_from_hex_of : forall s, forallb (fun c => code c <? 128)%N s = true -> name_from_hex (hex_of s) = Some s.
Proof.
  induction s as [|c s IH]; [reflexivity|]. cbn [forallb hex_of flat_map app name_from_hex]. fold (hex_of s).
  intros H. apply andb_true_iff in H. destruct H as [Hc Hs]. destruct (nibbles c) as [Hh Hl].
  rewrite (unhex_hexchar _ Hh), (unhex_hexchar _ Hl), (IH Hs).
  assert (Hd : (code c / 16 <? 8)%N = true).
  { apply N.ltb_lt in Hc. apply N.ltb_lt. apply N.div_lt_upper_bound; [discriminate|]. exact Hc. }
  rewrite Hd, <- N.div_mod by discriminate. unfold code. rewrite ascii_N_embedding. reflexivity.
Qed.

Lemma hex_nonempty : forall n, n <> [] -> hex_of n <> [].
Proof. intros n H. destruct n; [contradiction|]. simpl. discriminate. Qed.

Definition LP : str := lit "(".
Definition RP : str := lit ")".

Notation cass_scanner := (lexer cass_class).

Lemma prefix_word : forallb (wordc cass_class) prefix = true.
Proof. reflexivity. Qed.

Lemma wf_keyspace_inv : forall ks, wf_keyspace ks = true ->
  forallb is_alnum_ ks = true /\ ks <> [] /\ forall d, int_parse ks = Some d -> d = ks.
Proof.
  intros ks H. unfold wf_keyspace in H. apply andb_true_iff in H. destruct H as [H H3].
  apply andb_true_iff in H. destruct H as [H1 H2]. repeat split; [assumption|intros E; subst; discriminate|].
  intros d E. rewrite E in H3. apply str_eqb_eq, H3.
Qed.

Lemma wf_dim_inv : forall d, wf_dim d = true -> d <> [] /\ forallb is_digit d = true /\ strip_zeros d = d.
Proof.
  intros d H. unfold wf_dim in H. apply andb_true_iff in H. destruct H as [H H3].
  apply andb_true_iff in H. destruct H as [H1 H2]. repeat split; [|assumption|apply str_eqb_eq; assumption].
  intros E. subst. discriminate.
Qed.

Lemma wf_dim_alnum : forall d, wf_dim d = true -> forallb is_alnum_ d = true /\ d <> [].
Proof. intros d H. destruct (wf_dim_inv d H) as (Hn & Hd & _). split; [apply digit_alnum, Hd|assumption]. Qed.

Lemma wf_name_inv : forall n, wf_name n = true -> n <> [] /\ forallb (fun c => code c <? 128)%N n = true.
Proof. intros [|c n] H; [discriminate|]. apply andb_true_iff in H. split; [discriminate|apply H]. Qed.

Lemma wf_udt_inv : forall ks n fn ft, wf (TUdt ks n fn ft) = true ->
  wf_keyspace ks = true /\ wf_name n = true /\ forallb (forallb (fun c => code c <? 128)%N) fn = true
  /\ List.length fn = List.length ft /\ forallb wf ft = true.
Proof.
  intros ks n fn ft H. cbn [wf] in H.
  apply andb_true_iff in H. destruct H as [H H5]. apply andb_true_iff in H. destruct H as [H H4].
  apply andb_true_iff in H. destruct H as [H H3]. apply andb_true_iff in H. destruct H as [H1 H2].
  apply Nat.eqb_eq in H4. auto.
Qed.

Lemma split_nosep : forall w s first cur, forallb nosepc w = true -> split_tok (w ++ s) first cur = split_tok s first (cur ++ w).
Proof.
  induction w as [|c w IH]; intros s first cur H.
  - simpl. rewrite app_nil_r. reflexivity.
  - simpl in H. apply andb_true_iff in H. destruct H as [Hc Hw].
    unfold nosepc in Hc. apply andb_true_iff in Hc. destruct Hc as [H1 H2].
    apply negb_true_iff in H1. apply negb_true_iff in H2.
    simpl. rewrite H1, H2. rewrite IH by assumption. rewrite <- app_assoc. reflexivity.
Qed.

(* the [hexname:] a UDT field's type is written after; the name is in lower-case hex *)
Definition pre_of (nm : option str) : str := match nm with None => [] | Some h => h ++ lit ":" end.
Definition name_ok (nm : option str) : Prop := match nm with None => True | Some h => forallb is_lhex h = true end.

Lemma split_pre : forall nm w, name_ok nm -> forallb nosepc w = true -> split_tok (pre_of nm ++ w) None [] = (nm, w).
Proof.
  intros [h|] w Hn Hw; simpl pre_of.
  - rewrite <- app_assoc, split_nosep by (apply alnum_nosep, lhex_alnum, Hn). simpl.
    rewrite <- (app_nil_r w) at 1. rewrite split_nosep by assumption. reflexivity.
  - simpl. rewrite <- (app_nil_r w) at 1. rewrite split_nosep by assumption. reflexivity.
Qed.

Lemma pre_word : forall nm, name_ok nm -> forallb (wordc cass_class) (pre_of nm) = true.
Proof. intros [h|] H; [|reflexivity]. simpl. rewrite forallb_app, (alnum_word _ (lhex_alnum _ H)). reflexivity. Qed.

Lemma digits_all : forall s p acc, forallb is_digit s = true -> (s <> [] \/ p = true) -> digits_groups s p acc = Some (acc ++ s).
Proof.
  induction s as [|c s IH]; intros p acc H Hp; simpl.
  - destruct Hp as [Hp|Hp]; [contradiction|]. subst. rewrite app_nil_r. reflexivity.
  - simpl in H. apply andb_true_iff in H. destruct H as [Hc Hs]. rewrite Hc.
    rewrite IH; auto. rewrite <- app_assoc. reflexivity.
Qed.

Lemma int_parse_dim : forall d, wf_dim d = true -> int_parse d = Some d.
Proof.
  intros d H. destruct (wf_dim_inv d H) as (Hn & Hd & Hz).
  unfold int_parse. rewrite digits_all by auto. simpl. rewrite Hz. reflexivity.
Qed.

Lemma digits_lhex : forall s p acc d, forallb is_lhex s = true -> digits_groups s p acc = Some d -> d = acc ++ s.
Proof.
  induction s as [|c s IH]; intros p acc d H E; simpl in E.
  - destruct p; inversion E. rewrite app_nil_r. reflexivity.
  - simpl in H. apply andb_true_iff in H. destruct H as [Hc Hs].
    destruct (is_digit c).
    + apply IH in E; auto. rewrite E. rewrite <- app_assoc. reflexivity.
    + rewrite (proj2 (lhex_class c Hc)) in E. discriminate.
Qed.

Lemma int_parse_hex : forall c s d, forallb is_lhex (c :: s) = true -> (code c =? 48)%N = false ->
  int_parse (c :: s) = Some d -> d = c :: s.
Proof.
  intros c s d H Hc E. unfold int_parse in E.
  destruct (digits_groups (c :: s) false []) as [x|] eqn:Ed; [|discriminate].
  apply digits_lhex in Ed; auto. simpl in Ed. subst x. inversion E. destruct s; simpl; [|rewrite Hc]; reflexivity.
Qed.

Lemma is_prefix_app : forall p s, is_prefix p s = true -> exists r, s = p ++ r.
Proof.
  induction p as [|x p IH]; intros s H.
  - exists s. reflexivity.
  - destruct s as [|y s]; [discriminate|]. simpl in H. apply andb_true_iff in H. destruct H as [H1 H2].
    apply Ascii.eqb_eq in H1. subst. destruct (IH _ H2) as [r Hr]. exists r. simpl. rewrite Hr. reflexivity.
Qed.

Lemma no_prefix_alnum : forall ks, forallb is_alnum_ ks = true -> is_prefix prefix ks = false.
Proof.
  intros ks H. destruct (is_prefix prefix ks) eqn:E; auto.
  apply is_prefix_app in E. destruct E as [r Hr]. subst ks. rewrite forallb_app in H.
  apply andb_true_iff in H. destruct H as [H _]. vm_compute in H. discriminate.
Qed.

Definition tok_cls (tok : str) : cls := match int_parse tok with Some d => CInt d | None => lookup_simple tok end.

(* udt_apply writes an int among its parameters back as text; otherwise it takes the class's printed or registered name *)
Definition as_text (k : cls) : option str := match k with CInt d => Some d | _ => drv_cass false k end.
Definition as_name (u : cls) : option str := match u with CInt d => Some d | _ => cassname_of u end.

Lemma tok_back : forall w, forallb is_alnum_ w = true -> (forall d, int_parse w = Some d -> d = w) ->
  as_text (tok_cls w) = Some w /\ as_name (tok_cls w) = Some w.
Proof.
  intros w Hw Hd. unfold tok_cls. destruct (int_parse w) as [d|]; [rewrite (Hd d eq_refl); split; reflexivity|].
  unfold lookup_simple, trim_prefix. rewrite (no_prefix_alnum _ Hw). destruct (assoc w registry); split; reflexivity.
Qed.

Lemma hexname_back : forall n, wf_name n = true -> as_name (tok_cls (hex_of n)) = Some (hex_of n).
Proof.
  intros n H. apply tok_back; [apply hex_alnum|]. intros d. pose proof (hex_of_lhex n) as HL.
  destruct n as [|c0 n]; [discriminate|]. unfold wf_name in H. apply andb_true_iff in H. destruct H as [H1 _]. apply N.leb_le in H1.
  change (hex_of (c0 :: n)) with (hexchar (code c0 / 16) :: hexchar (code c0 mod 16) :: hex_of n) in *.
  (* the first hex digit is not 0, so an all-digit name is its own numeral *)
  apply int_parse_hex; [exact HL|]. rewrite (hexchar_zero _ (proj1 (nibbles c0))). apply N.eqb_neq. intros E.
  pose proof (N.div_mod (code c0) 16 ltac:(discriminate)) as Hdm. pose proof (proj2 (nibbles c0)). lia.
Qed.

Lemma field_names_hex : forall fn, forallb (forallb (fun c => code c <? 128)%N) fn = true ->
  field_names (map (fun f => Some (hex_of f)) fn) = POk fn.
Proof.
  induction fn as [|f fn IH]; simpl; auto. intros H. apply andb_true_iff in H. destruct H as [H1 H2].
  rewrite name_from_hex_of by assumption. rewrite IH by assumption. reflexivity.
Qed.

Fixpoint parsed (t : ty) : cls :=
  match t with
  | TSimple s => CReg (marshal_simple s)
  | TList a => CApp (lit "ListType") [parsed a] [None]
  | TSet a => CApp (lit "SetType") [parsed a] [None]
  | TMap k v => CApp (lit "MapType") [parsed k; parsed v] [None; None]
  | TTuple ts => CApp (lit "TupleType") (map parsed ts) (map (fun _ => None) ts)
  | TUdt ks name fn ft => CUdt ks name fn (map parsed ft)
  | TVector a d => CVec (lit "VectorType(" ++ d ++ lit ")") (parsed a) (CInt d)
  | TFrozen a => CApp (lit "FrozenType") [parsed a] [None]
  | TReversed a => CApp (lit "ReversedType") [parsed a] [None]
  end.

(* VectorType.apply_parameters refuses a number as its subtype *)
Lemma parsed_not_int : forall t, is_int (parsed t) = false.
Proof. destruct t; reflexivity. Qed.

(* apply_parameters names the new class after its subtypes: they must all have a name *)
Definition all_named (cs : list cls) : Prop := exists r, opt_all (map (drv_cass false) cs) = Some r.

Lemma named_class : forall n cs ns, all_named cs -> exists s, drv_cass false (CApp n cs ns) = Some s.
Proof. intros n cs ns [r Hr]. cbn [drv_cass andb]. destruct cs; [eexists; reflexivity|]. rewrite Hr. eexists. reflexivity. Qed.

Lemma parsed_cass : forall t, exists s, drv_cass false (parsed t) = Some s.
Proof.
  apply ty_ind2; intros; cbn [parsed]; try (eexists; reflexivity).
  - (* TList *) apply named_class, opt_all_some. auto.
  - (* TSet *) apply named_class, opt_all_some. auto.
  - (* TMap *) apply named_class, opt_all_some. auto.
  - apply named_class, opt_all_some, Forall_map. assumption.
  - apply (named_class (lit "UserType") _ []), opt_all_some, Forall_map. assumption.
  - (* TFrozen *) apply named_class, opt_all_some. auto.
  - (* TReversed *) apply named_class, opt_all_some. auto.
Qed.

Lemma parsed_named : forall ts, all_named (map parsed ts).
Proof. intros ts. apply opt_all_some, Forall_map, Forall_forall. intros t _. apply parsed_cass. Qed.

Lemma apply_default : forall n tn ar subs names, assoc n registry = Some (KDefault tn ar) ->
  match ar with Some k => List.length subs = k | None => True end -> all_named subs ->
  apply_params (CReg n) subs names = POk (CApp n subs names).
Proof.
  intros n tn ar subs names Hn Ha [r Hr]. unfold apply_params, default_apply. rewrite Hn, Hr.
  destruct ar as [k|]; [subst k; rewrite Nat.eqb_refl|]; reflexivity.
Qed.

Lemma udt_apply_ok : forall k u fts names ks h name fns,
  as_text k = Some ks -> as_name u = Some h ->
  name_from_hex h = Some name -> field_names (skipn 2 names) = POk fns ->
  udt_apply (k :: u :: fts) names = POk (CUdt ks name fns fts).
Proof. intros k u fts names ks h name fns H H0 H1 H2. unfold udt_apply. fold (as_text k) (as_name u). rewrite H, H0, H1, H2. reflexivity. Qed.

(* lookup_casstype as one machine on characters: the scanner feeding the stack of frames *)
Definition cass_go (s : str) (stack : list frame) : pres cls :=
  match scan cass_scanner s [] with None => PValueError | Some toks => run toks stack end.

Lemma word_no_bracket : forall w, forallb (wordc cass_class) w = true -> w <> [] -> str_eqb w LP = false /\ str_eqb w RP = false.
Proof.
  intros w H Hn. destruct w as [|c w]; [contradiction|]. simpl in H. apply andb_true_iff in H. destruct H as [Hc _].
  split; simpl.
  - destruct (Ascii.eqb_spec c "("%char); [subst; discriminate|reflexivity].
  - destruct (Ascii.eqb_spec c ")"%char); [subst; discriminate|reflexivity].
Qed.

Lemma cass_go_word : forall w rest fr st, forallb (wordc cass_class) w = true -> w <> [] -> delimited cass_scanner rest ->
  cass_go (w ++ rest) (fr :: st) = cass_go rest (push_tok w fr :: st).
Proof.
  intros w rest fr st Hw Hn D. destruct (word_no_bracket w Hw Hn) as [H1 H2]. unfold cass_go. rewrite (scan_token cass_scanner) by assumption.
  destruct (scan cass_scanner rest []); [|reflexivity]. unfold LP, RP in *. cbn [option_map run]. rewrite H1, H2. reflexivity.
Qed.

Lemma cass_go_lp : forall rest st, cass_go (LP ++ rest) st = cass_go rest (([], []) :: st).
Proof. intros rest st. unfold cass_go. simpl. destruct (lexg cass_class rest []); reflexivity. Qed.

Lemma cass_go_rp : forall rest types names p pt pn st c, apply_params p (rev types) (rev names) = POk c ->
  cass_go (RP ++ rest) ((types, names) :: (p :: pt, pn) :: st) = cass_go rest ((c :: pt, pn) :: st).
Proof.
  intros rest types names p pt pn st c Ha. unfold cass_go. simpl. destruct (lexg cass_class rest []); [|reflexivity].
  cbn [flush run]. change (str_eqb [")"%char] (lit "(")) with false. change (str_eqb [")"%char] (lit ")")) with true.
  cbn iota. rewrite Ha. reflexivity.
Qed.

Definition skips (sep : str) : Prop := sep <> [] /\ forallb (skipc cass_class) sep = true.

Lemma cass_go_skip : forall sep rest st, skips sep -> cass_go (sep ++ rest) st = cass_go rest st.
Proof.
  intros sep rest st [_ H]. unfold cass_go. induction sep as [|c sep IH]; [reflexivity|]. simpl in *. unfold skipc in H.
  destruct (cass_class c); try discriminate. rewrite <- (IH H). destruct (lexg cass_class (sep ++ rest) []); reflexivity.
Qed.

Lemma skips_delimited : forall sep rest, skips sep -> delimited cass_scanner (sep ++ rest).
Proof.
  intros [|c sep] rest [Hn H]; [contradiction|]. simpl in *. unfold skipc, delimc in *. destruct (cass_class c); try discriminate. reflexivity.
Qed.

(* the text [x], read after the field name [nm] with its colon and before a delimiter, pushes the class [c] with that name on the
   frame being filled; [closes]: [x] pushes [cs] with [ns] and leaves the bracket that closes the frame *)
Definition parses (nm : option str) (x : str) (c : cls) : Prop :=
  forall rest at_ an st, delimited cass_scanner rest -> cass_go (pre_of nm ++ x ++ rest) ((at_, an) :: st) = cass_go rest ((c :: at_, nm :: an) :: st).
Definition closes (x : str) (cs : list cls) (ns : list (option str)) : Prop :=
  forall rest at_ an st, cass_go (x ++ rest) ((at_, an) :: st) = cass_go (RP ++ rest) ((rev cs ++ at_, rev ns ++ an) :: st).

Lemma closes_nil : closes RP [] [].
Proof. intros ? ? ? ?. reflexivity. Qed.

Lemma closes_after : forall nm x c y cs ns, parses nm x c -> (forall rest, delimited cass_scanner (y ++ rest)) -> closes y cs ns ->
  closes (pre_of nm ++ x ++ y) (c :: cs) (nm :: ns).
Proof.
  intros nm x c y cs ns Hx D Hy rest at_ an st. rewrite <- !app_assoc, Hx, Hy by apply D. cbn [rev]. rewrite <- !app_assoc. reflexivity.
Qed.

Lemma closes_skip : forall sep y cs ns, skips sep -> closes y cs ns -> closes (sep ++ y) cs ns.
Proof. intros sep y cs ns Hs Hy rest at_ an st. rewrite <- app_assoc, cass_go_skip by assumption. apply Hy. Qed.

Lemma closes_one : forall x c, parses None x c -> closes (x ++ RP) [c] [None].
Proof. intros x c H rest at_ an st. rewrite <- app_assoc. apply H. reflexivity. Qed.

Lemma closes_cons : forall sep x c y cs ns, skips sep -> parses None x c -> closes y cs ns ->
  closes (x ++ sep ++ y) (c :: cs) (None :: ns).
Proof.
  intros sep x c y cs ns Hs Hx Hy. apply (closes_after None); [assumption| |apply closes_skip; assumption].
  intros rest. rewrite <- app_assoc. apply skips_delimited, Hs.
Qed.

Lemma comma_skips : skips comma.
Proof. split; [discriminate|reflexivity]. Qed.

Lemma fields_delimited : forall fn ps rest, delimited cass_scanner ((udt_fields fn ps ++ RP) ++ rest).
Proof. intros fn ps rest. destruct fn, ps; reflexivity. Qed.

Section Sequences.
  Variables (A : Type) (pr : A -> str) (f : A -> cls).

  Lemma closes_join : forall l, Forall (fun a => parses None (pr a) (f a)) l ->
    closes (join comma (map pr l) ++ RP) (map f l) (map (fun _ => None) l).
  Proof.
    intros l H. induction H as [|x l Hx Hl IH]; [exact closes_nil|].
    destruct l as [|y l']; [exact (closes_one _ _ Hx)|].
    change (join comma (map pr (x :: y :: l'))) with (pr x ++ comma ++ join comma (map pr (y :: l'))).
    rewrite <- !app_assoc. exact (closes_cons comma _ _ _ _ _ comma_skips Hx IH).
  Qed.

  Lemma closes_fields : forall l, Forall (fun a => forall nm, name_ok nm -> parses nm (pr a) (f a)) l ->
    forall fn, List.length fn = List.length l -> closes (udt_fields fn (map pr l) ++ RP) (map f l) (map (fun n => Some (hex_of n)) fn).
  Proof.
    intros l H. induction H as [|x l Hx Hl IH]; intros fn Hlen.
    - destruct fn; [exact closes_nil|discriminate].
    - destruct fn as [|n fn]; [discriminate|]. inversion Hlen as [Hlen'].
      cbn [map udt_fields]. rewrite <- !app_assoc. apply (closes_skip comma); [exact comma_skips|].
      (* [hex_of n ++ ":"] is [pre_of (Some (hex_of n))], the form [closes_after] takes *)
      rewrite (app_assoc (hex_of n)).
      apply (closes_after (Some (hex_of n))); [apply Hx, hex_of_lhex|apply fields_delimited|apply IH, Hlen'].
  Qed.
End Sequences.

Lemma parses_tok : forall nm w, name_ok nm -> forallb (wordc cass_class) w = true -> forallb nosepc w = true -> w <> [] ->
  parses nm w (tok_cls w).
Proof.
  intros nm w Hnm Hw Hs Hn rest at_ an st D.
  assert (Hpw : forallb (wordc cass_class) (pre_of nm ++ w) = true) by (rewrite forallb_app, (pre_word nm Hnm); exact Hw).
  assert (Hne : pre_of nm ++ w <> []) by (intros [_ E]%app_eq_nil; contradiction).
  rewrite app_assoc, cass_go_word by assumption. unfold push_tok. rewrite (split_pre nm w Hnm Hs). reflexivity.
Qed.

Lemma parses_alnum : forall w, forallb is_alnum_ w = true -> w <> [] -> parses None w (tok_cls w).
Proof. intros w Hw Hn. apply parses_tok; [exact I|apply alnum_word, Hw|apply alnum_nosep, Hw|assumption]. Qed.

Lemma head_tok : forall n, assoc n registry <> None -> tok_cls (prefix ++ n) = CReg n.
Proof.
  intros n Hk.
  (* the 32 characters of the prefix decide all three: its first is no digit, it is its own prefix, and skipping its length leaves [n] *)
  unfold tok_cls, lookup_simple, trim_prefix. change (int_parse (prefix ++ n)) with (@None str).
  change (is_prefix prefix (prefix ++ n)) with true. cbv iota.
  change (skipn (List.length prefix) (prefix ++ n)) with n. destruct (assoc n registry); [reflexivity|contradiction].
Qed.

Lemma parses_head : forall nm n, name_ok nm -> forallb is_alnum_ n = true -> assoc n registry <> None ->
  parses nm (prefix ++ n) (CReg n).
Proof.
  intros nm n Hnm Hn Hk. rewrite <- (head_tok n Hk). apply parses_tok; [assumption| | |discriminate]; rewrite forallb_app.
  - rewrite prefix_word. apply alnum_word, Hn.
  - apply alnum_nosep, Hn.
Qed.

Lemma parses_param : forall nm n x cs ns c, name_ok nm -> forallb is_alnum_ (lit n) = true ->
  closes x cs ns -> apply_params (CReg (lit n)) cs ns = POk c ->
  parses nm (full n ++ LP ++ x) c.
Proof.
  intros nm n x cs ns c Hnm Hn Hx Ha rest at_ an st D.
  assert (Hk : assoc (lit n) registry <> None) by (intros E; unfold apply_params in Ha; rewrite E in Ha; discriminate).
  rewrite <- !app_assoc, (parses_head nm (lit n) Hnm Hn Hk) by reflexivity.
  rewrite cass_go_lp, Hx. apply cass_go_rp. rewrite !app_nil_r, !rev_involutive. exact Ha.
Qed.

Definition cass_ok (t : ty) : Prop :=
  wf t = true -> forall nm, name_ok nm -> parses nm (spec_cass_print t) (parsed t).

Lemma parses_unary : forall n a tn, forallb is_alnum_ (lit n) = true -> assoc (lit n) registry = Some (KDefault tn (Some 1%nat)) ->
  cass_ok a -> wf a = true -> forall nm, name_ok nm ->
  parses nm (full n ++ LP ++ spec_cass_print a ++ RP) (CApp (lit n) [parsed a] [None]).
Proof.
  intros n a tn Hn Ha IH Hwf nm Hnm. apply (parses_param nm n _ [parsed a] [None]); auto.
  - apply closes_one. exact (IH Hwf None I).
  - apply (apply_default _ _ _ _ _ Ha); [reflexivity|apply (parsed_named [a])].
Qed.

Lemma cass_ty : forall t, cass_ok t.
Proof.
  apply ty_ind2; unfold cass_ok; cbn [spec_cass_print parsed wf].
  - intros s _ nm Hn. apply parses_head; [assumption| |]; apply marshal_simple_ok.
  - intros a IH Hwf. eapply (parses_unary "ListType"); [reflexivity|reflexivity|exact IH|exact Hwf].
  - intros a IH Hwf. eapply (parses_unary "SetType"); [reflexivity|reflexivity|exact IH|exact Hwf].
  - intros k v IHk IHv Hwf nm Hn. apply andb_true_iff in Hwf. destruct Hwf as [Hk Hv].
    apply (parses_param nm "MapType" _ [parsed k; parsed v] [None; None]); [assumption|reflexivity| |].
    + apply closes_cons; [exact comma_skips|exact (IHk Hk None I)|]. apply closes_one. exact (IHv Hv None I).
    + apply (apply_default _ (lit "map") (Some 2%nat)); [reflexivity|reflexivity|apply (parsed_named [k; v])].
  - intros ts IH Hwf nm Hn.
    apply (parses_param nm "TupleType" _ (map parsed ts) (map (fun _ => None) ts)); [assumption|reflexivity| |].
    + apply closes_join. apply (Forall_guard _ _ _ _ IH) in Hwf. revert Hwf. apply Forall_impl. intros t Ht. exact (Ht None I).
    + apply (apply_default _ (lit "tuple") None); [reflexivity|exact I|apply parsed_named].
  - intros ks n fn ft IH Hwf nm Hn. apply wf_udt_inv in Hwf. destruct Hwf as (Hks & Hname & Hfn & Hlen & Hft).
    destruct (wf_keyspace_inv _ Hks) as (Hka & Hkn & Hkc). destruct (wf_name_inv _ Hname) as [Hnn Hna].
    apply (parses_param nm "UserType" _ (tok_cls ks :: tok_cls (hex_of n) :: map parsed ft)
             (None :: None :: map (fun f => Some (hex_of f)) fn)); [assumption|reflexivity| |].
    + apply closes_cons; [exact comma_skips|apply parses_alnum; assumption|].
      apply (closes_after None); [apply parses_alnum; [apply hex_alnum|apply hex_nonempty, Hnn]|apply fields_delimited|].
      apply closes_fields; [exact (Forall_guard _ _ _ _ IH Hft)|assumption].
    + apply (udt_apply_ok _ _ _ _ ks (hex_of n) n fn).
      * apply tok_back; assumption.
      * apply hexname_back. assumption.
      * apply name_from_hex_of, Hna.
      * apply field_names_hex. assumption.
  - intros a d IH Hwf nm Hn. apply andb_true_iff in Hwf. destruct Hwf as [Ha Hd].
    destruct (wf_dim_alnum _ Hd) as [Hda Hdn].
    apply (parses_param nm "VectorType" _ [parsed a; CInt d] [None; None]); [assumption|reflexivity| |].
    + apply (closes_cons (lit " , ")); [split; [discriminate|reflexivity]|exact (IH Ha None I)|].
      apply closes_one. replace (CInt d) with (tok_cls d) by (unfold tok_cls; rewrite (int_parse_dim _ Hd); reflexivity).
      apply parses_alnum; assumption.
    + unfold apply_params, vector_apply. simpl. rewrite parsed_not_int. reflexivity.
  - intros a IH Hwf. apply andb_true_iff in Hwf. destruct Hwf as [_ Hwf]. eapply (parses_unary "FrozenType"); [reflexivity|reflexivity|exact IH|exact Hwf].
  - intros a IH Hwf. eapply (parses_unary "ReversedType"); [reflexivity|reflexivity|exact IH|exact Hwf].
Qed.

Theorem cass_parse_spec : forall t, wf t = true -> cass_parse (spec_cass_print t) = POk (parsed t).
Proof.
  intros t Hwf. change (cass_go (spec_cass_print t) [([], [])] = POk (parsed t)).
  rewrite <- (app_nil_r (spec_cass_print t)). apply (cass_ty t Hwf None I). exact I.
Qed.

Lemma parsed_cql : forall t, drv_cql (parsed t) = Some (cql_name_gen vector_class_name comma_sp true t).
Proof.
  apply ty_ind2.
  - destruct s; reflexivity.
  - (* TList *) intros a IH. simpl. rewrite IH. reflexivity.
  - (* TSet *) intros a IH. simpl. rewrite IH. reflexivity.
  - intros k v IHk IHv. simpl. rewrite IHk, IHv. simpl. rewrite <- ?app_assoc. reflexivity.
  - intros ts IH. cbn [parsed cql_name_gen].
    assert (E : opt_all (map drv_cql (map parsed ts)) = Some (map (cql_name_gen vector_class_name comma_sp true) ts)).
    { rewrite map_map. apply opt_all_map. assumption. }
    simpl. rewrite E. simpl. rewrite <- ?app_assoc. reflexivity.
  - intros ks n fn ft IH. reflexivity.
  - intros a d IH. simpl. rewrite IH. simpl. rewrite <- ?app_assoc. reflexivity.
  - (* TFrozen *) intros a IH. simpl. rewrite IH. reflexivity.
  - (* TReversed *) intros a IH. simpl. rewrite IH. reflexivity.
Qed.

Lemma vector_free_name : forall v1 v2 sep fz t, vector_free t = true -> cql_name_gen v1 sep fz t = cql_name_gen v2 sep fz t.
Proof.
  intros v1 v2 sep fz t. induction t as [s|a IH|a IH|k v IHk IHv|ts IH|ks n fn ft IH|a d IH|a IH|a IH] using ty_ind2;
    cbn [vector_free cql_name_gen]; intros Hv.
  - reflexivity.
  - rewrite IH; auto.
  - rewrite IH; auto.
  - apply andb_true_iff in Hv. destruct Hv. rewrite IHk, IHv; auto.
  - apply (Forall_guard _ _ _ _ IH) in Hv. rewrite (map_ext_Forall _ _ Hv). reflexivity.
  - reflexivity.
  - discriminate.
  - rewrite IH; auto.
  - rewrite IH; auto.
Qed.

Lemma parsed_codec : forall t, cls_codec (parsed t) = Some (codec t).
Proof.
  apply ty_ind2; cbn [parsed codec].
  - destruct s; reflexivity.
  - (* TList *) intros a IH. simpl. rewrite IH. reflexivity.
  - (* TSet *) intros a IH. simpl. rewrite IH. reflexivity.
  - intros k v IHk IHv. simpl. rewrite IHk, IHv. reflexivity.
  - intros ts IH. simpl. rewrite map_map, (opt_all_map _ codec) by assumption. reflexivity.
  - intros ks n fn ft IH. simpl. rewrite map_map, (opt_all_map _ codec) by assumption. reflexivity.
  - intros a d IH. simpl. rewrite IH. reflexivity.
  - (* TFrozen *) intros a IH. simpl. rewrite IH. reflexivity.
  - (* TReversed *) intros a IH. simpl. rewrite IH. reflexivity.
Qed.

Lemma codec_unwrap : forall t, codec (unwrap t) = codec t.
Proof. induction t using ty_ind2; simpl; auto. Qed.

Lemma unwrap_idem : forall t, unwrap (unwrap t) = unwrap t.
Proof. induction t using ty_ind2; simpl; auto. Qed.

Lemma size_route_parsed : forall t, size_route (parsed t) = parsed (unwrap t).
Proof.
  intros t. induction t using ty_ind2; try reflexivity.
  - (* TTuple: a one-element tuple has the shape size_route looks for, but TupleType is not a wrapper *)
    cbn [parsed unwrap]. destruct ts as [|x [|y l]]; reflexivity.
  - (* TFrozen *) cbn [parsed unwrap size_route]. change (is_wrapper _ && wrapper_size_delegates _) with true. cbn iota. apply IHt.
  - (* TReversed *) cbn [parsed unwrap size_route]. change (is_wrapper _ && wrapper_size_delegates _) with true. cbn iota. apply IHt.
Qed.

Lemma route_size : forall c des pv, route des c pv = (size_route c, pv).
Proof.
  (* cls is nested through list, so [induction] has no hypothesis for a class inside a list; [CApp n [s] nm] is the one shape that recurses *)
  fix IH 1. intros [ | |n [|s [|]] nm| | | ] des pv; try reflexivity.
  cbn [route size_route]. unfold wrapper_size_delegates. rewrite andb_true_r.
  destruct (is_wrapper n); [|reflexivity]. destruct des; apply IH.
Qed.

Lemma route_parsed : forall t des pv, route des (parsed t) pv = (parsed (unwrap t), pv).
Proof. intros t des pv. rewrite route_size, size_route_parsed. reflexivity. Qed.

(* [tailp l]: [l] printed after other elements, each with its leading ", "; [worded l]: [l] starts with a word *)
Definition tailp (l : list pyt) : str := flat_map (py_print_elem false) l.
Definition worded (l : list pyt) : Prop := exists h tl, l = PStr h :: tl.

Lemma print_app : forall l L, worded l -> py_print_elems (l ++ L) = py_print_elems l ++ tailp L.
Proof. intros l L (h & tl & ->). cbn [app py_print_elems]. rewrite flat_map_app, app_assoc. reflexivity. Qed.

Lemma tailp_worded : forall l, worded l -> tailp l = comma_sp ++ py_print_elems l.
Proof. intros l (h & tl & ->). reflexivity. Qed.

Lemma to_py_worded : forall fz t, worded (to_py fz t).
Proof. intros fz t. induction t; cbn [to_py]; try destruct fz; try assumption; eexists _, _; reflexivity. Qed.

Lemma print_seq : forall fz ts,
  py_print_elems (flat_map (to_py fz) ts) = join comma_sp (map (fun t => py_print_elems (to_py fz t)) ts).
Proof.
  intros fz [|x l]; [reflexivity|]. cbn [flat_map map]. rewrite print_app, join_cons by apply to_py_worded. f_equal.
  induction l as [|y l IH]; [reflexivity|]. cbn [flat_map map]. unfold tailp in *. rewrite flat_map_app, IH.
  fold (tailp (to_py fz y)). rewrite tailp_worded by apply to_py_worded. reflexivity.
Qed.

Lemma print_bracket : forall kw l, py_print_elems [PStr kw; PList l] = kw ++ lit "<" ++ py_print_elems l ++ lit ">".
Proof. intros kw l. cbn. rewrite app_nil_r. reflexivity. Qed.

Lemma code_dq : forall c, (code c =? 34)%N = true -> c = dq.
Proof.
  intros c H. apply N.eqb_eq in H. unfold code in H. rewrite <- (ascii_N_embedding c). rewrite H. reflexivity.
Qed.

Lemma wf_name_cases : forall n, wf_cql_name n = true ->
  (n <> [] /\ forallb is_alnum_ n = true /\ str_eqb n frozen_kw = false) \/
  (exists r, n = dq :: r /\ qbody r = true).
Proof.
  intros n H. unfold wf_cql_name in H. apply orb_true_iff in H. destruct H as [H|H].
  - left. unfold plain_name in H. apply andb_true_iff in H. destruct H as [H H3]. apply andb_true_iff in H. destruct H as [H1 H2].
    repeat split; auto.
    + intros E. subst. discriminate.
    + apply negb_true_iff. assumption.
  - right. destruct n as [|c r]; [discriminate|]. simpl in H. apply andb_true_iff in H. destruct H as [Hc Hr].
    exists r. rewrite (code_dq _ Hc). auto.
Qed.

Lemma wf_name_not_frozen : forall n, wf_cql_name n = true -> str_eqb n frozen_kw = false.
Proof.
  intros n H. destruct (wf_name_cases n H) as [(_ & _ & H1)|[r [E _]]]; auto. subst. reflexivity.
Qed.

Lemma wf_dim_not_frozen : forall d, wf_dim d = true -> str_eqb d frozen_kw = false.
Proof.
  intros d Hd. destruct (wf_dim_inv d Hd) as (Hn & Hdig & _). destruct d as [|c d]; [contradiction|].
  cbn in Hdig. apply andb_true_iff in Hdig. destruct Hdig as [Hc _]. simpl.
  destruct (Ascii.eqb_spec c "f"%char); [subst; discriminate|reflexivity].
Qed.

(* what _strip_frozen_from_python computes: every 'frozen' marker, at every depth, replaced by the contents of the list after it *)
Inductive Strip : list pyt -> list pyt -> Prop :=
| St_nil : Strip [] []
| St_frozen : forall inner rest r, Strip (inner ++ rest) r -> Strip (PStr frozen_kw :: PList inner :: rest) r
| St_str : forall s rest r, str_eqb s frozen_kw = false -> Strip rest r -> Strip (PStr s :: rest) (PStr s :: r)
| St_list : forall i i' rest r, Strip i i' -> Strip rest r -> Strip (PList i :: rest) (PList i' :: r).

Lemma Strip_app : forall a a' b b', Strip a a' -> Strip b b' -> Strip (a ++ b) (a' ++ b').
Proof.
  intros a a' b b' Ha Hb. induction Ha; cbn [app]; [assumption| |constructor; assumption..].
  apply St_frozen. rewrite app_assoc. assumption.
Qed.

Lemma pyts_size_app : forall a b, pyts_size (a ++ b) = pyts_size a + pyts_size b.
Proof. induction a; intros; simpl; auto. unfold pyts_size in *. simpl. rewrite IHa. lia. Qed.

Definition elemf (f : nat) (x : pyt) : option pyt :=
  match x with
  | PList i => match strip_py f i with Some i' => Some (PList i') | None => None end
  | PStr s => Some (PStr s)
  end.

Lemma strip_py_eq : forall f l, strip_py (S f) l = match splice (S (pyts_size l)) l with None => None | Some l' => opt_all (map (elemf f) l') end.
Proof. reflexivity. Qed.

(* [l']: what the loop over the top level leaves; the size of [l] bounds the loop's steps and, as [f], the depth still to descend *)
Lemma strip_complete : forall l r, Strip l r -> forall f, pyts_size l <= f ->
  exists l', (forall n, pyts_size l < n -> splice n l = Some l') /\ opt_all (map (elemf f) l') = Some r.
Proof.
  intros l r H. induction H as [|inner rest r _ IH|s rest r Hs _ IH|i i' rest r _ IHi _ IH]; intros f Hf.
  - exists []. split; [intros [|n] Hn; [lia|]|]; reflexivity.
  - change (pyts_size (_ :: _ :: rest)) with (S (S (pyts_size inner) + pyts_size rest)) in *. rewrite pyts_size_app in IH.
    destruct (IH f) as (l' & H1 & H2); [lia|]. exists l'. split; [|assumption].
    intros [|n] Hn; [lia|]. cbn [splice]. rewrite str_eqb_refl. apply H1. lia.
  - change (pyts_size (_ :: rest)) with (S (pyts_size rest)) in *. destruct (IH f) as (l' & H1 & H2); [lia|].
    exists (PStr s :: l'). split; [|simpl; rewrite H2; reflexivity].
    intros [|n] Hn; [lia|]. cbn [splice]. rewrite Hs, H1 by lia. reflexivity.
  - change (pyts_size (_ :: rest)) with (S (pyts_size i) + pyts_size rest) in *. destruct f as [|f]; [lia|].
    destruct (IH (S f)) as (l' & H1 & H2); [lia|]. destruct (IHi f) as (li & H3 & H4); [lia|].
    exists (PList i :: l'). split.
    + intros [|n] Hn; [lia|]. cbn [splice]. rewrite H1 by lia. reflexivity.
    + cbn [map opt_all elemf]. rewrite strip_py_eq, H3, H4, H2 by lia. reflexivity.
Qed.

Theorem strip_spec : forall l r, Strip l r -> strip_frozen_from_python l = Some r.
Proof.
  intros l r H. unfold strip_frozen_from_python. destruct (strip_complete l r H (pyts_size l)) as (l' & H1 & H2); [lia|].
  rewrite strip_py_eq, H1, H2 by lia. reflexivity.
Qed.

Lemma Strip_flat_map : forall (A : Type) (f g : A -> list pyt) l, Forall (fun x => Strip (f x) (g x)) l -> Strip (flat_map f l) (flat_map g l).
Proof. intros A f g l H. induction H; [constructor|]. apply Strip_app; assumption. Qed.

Lemma Strip_bracket : forall kw l l', str_eqb kw frozen_kw = false -> Strip l l' -> Strip [PStr kw; PList l] [PStr kw; PList l'].
Proof. intros kw l l' Hk H. apply St_str; [assumption|]. apply St_list; [assumption|constructor]. Qed.

Lemma Strip_wrap : forall l l', Strip l l' -> Strip [PStr frozen_kw; PList l] l'.
Proof. intros l l' H. apply St_frozen. rewrite app_nil_r. assumption. Qed.

Lemma strip_ty : forall t, wf_cql t = true -> Strip (to_py true t) (to_py false t).
Proof.
  intros t. induction t using ty_ind2; intros Hwf; cbn [to_py wf_cql] in *.
  - apply St_str; [apply cql_simple_ok|constructor].
  - (* TList *) apply Strip_bracket; auto.
  - (* TSet *) apply Strip_bracket; auto.
  - (* TMap *) apply andb_true_iff in Hwf. destruct Hwf. apply Strip_bracket, Strip_app; auto.
  - apply Strip_wrap, Strip_bracket, Strip_flat_map, (Forall_guard _ wf_cql); auto.
  - apply Strip_wrap, St_str; [apply wf_name_not_frozen, Hwf|constructor].
  - apply andb_true_iff in Hwf. destruct Hwf as [Ha Hd]. apply Strip_bracket, Strip_app; auto.
    apply St_str; [apply wf_dim_not_frozen, Hd|constructor].
  - (* TFrozen *) apply Strip_wrap; auto.
  - (* TReversed *) auto.
Qed.

Theorem strip_to_py : forall t, wf_cql t = true -> strip_frozen_from_python (to_py true t) = Some (to_py false t).
Proof. intros t Hwf. apply strip_spec, strip_ty, Hwf. Qed.

Definition LT : str := lit "<".
Definition GT : str := lit ">".

Definition cql_delim (c : ascii) : bool := negb (code c =? 34)%N && delimc cql_class c.

Lemma cql_word_law : forall c s acc, is_alnum_ c = true -> cql_lex (c :: s) acc None = cql_lex s (acc ++ [c]) None.
Proof.
  intros c s acc H. destruct (alnum_class c H) as (_ & _ & Hc & _). apply andb_true_iff in Hc. destruct Hc as [Hq Hw].
  apply negb_true_iff in Hq. unfold wordc in Hw. cbn [cql_lex]. rewrite Hq. destruct (cql_class c); try discriminate. reflexivity.
Qed.

Lemma cql_delim_law : forall c s acc, cql_delim c = true ->
  cql_lex (c :: s) acc None = option_map (flush acc) (cql_lex (c :: s) [] None).
Proof.
  intros c s acc H. apply andb_true_iff in H. destruct H as [Hq Hd]. apply negb_true_iff in Hq.
  unfold delimc in Hd. cbn [cql_lex]. rewrite Hq.
  destruct (cql_class c); try discriminate; destruct (cql_lex s [] None); reflexivity.
Qed.

Definition cql_scanner : scanner :=
  {| scan := fun s acc => cql_lex s acc None; word := is_alnum_; delim := cql_delim;
     scan_nil := fun _ => eq_refl; scan_word := cql_word_law; scan_delim := cql_delim_law |}.

Definition sep_ok (sep : str) : Prop := sep = comma \/ sep = comma_sp.

Lemma qsafe_not_dq : forall c, qsafe c = true -> (code c =? 34)%N = false.
Proof.
  intros c H. unfold qsafe in H. repeat (apply andb_true_iff in H; destruct H as [H _]). apply negb_true_iff in H. assumption.
Qed.

Lemma cql_lex_quoted : forall r rest q0, qbody r = true ->
  cql_lex (r ++ rest) [] (Some q0) = option_map (cons (dq :: q0 ++ r)) (cql_lex rest [] None).
Proof.
  induction r as [|c r IH]; intros rest q0 H; [discriminate|]. destruct r as [|c2 r'].
  - simpl in H. rewrite (code_dq _ H). cbn [app cql_lex]. change (code dq =? 34)%N with true. cbn iota.
    destruct (cql_lex rest [] None); reflexivity.
  - change (qbody (c :: c2 :: r')) with (qsafe c && qbody (c2 :: r')) in H. apply andb_true_iff in H. destruct H as [Hc Hr].
    change ((c :: c2 :: r') ++ rest) with (c :: (c2 :: r') ++ rest). cbn [cql_lex].
    rewrite (qsafe_not_dq _ Hc), Hc. etransitivity; [exact (IH rest (q0 ++ [c]) Hr)|]. rewrite <- app_assoc. reflexivity.
Qed.

Lemma cql_lex_open : forall s, cql_lex (dq :: s) [] None = cql_lex s [] (Some []).
Proof. intros s. cbn [cql_lex]. change (code dq =? 34)%N with true. cbn iota. destruct (cql_lex s [] (Some [])); reflexivity. Qed.

Definition is_name_tok (tok : str) : Prop := str_eqb tok LT = false /\ str_eqb tok GT = false /\ str_eqb tok comma = false.

Lemma name_tok_first : forall c w, namec c = true -> is_name_tok (c :: w).
Proof.
  intros c w H. repeat split; simpl.
  - destruct (Ascii.eqb_spec c "<"); [subst; discriminate H|reflexivity].
  - destruct (Ascii.eqb_spec c ">"); [subst; discriminate H|reflexivity].
  - destruct (Ascii.eqb_spec c ","); [subst; discriminate H|reflexivity].
Qed.

Lemma word_name_tok : forall w, forallb is_alnum_ w = true -> w <> [] -> is_name_tok w.
Proof.
  intros w H Hn. destruct w as [|c w]; [contradiction|]. simpl in H. apply andb_true_iff in H.
  apply name_tok_first, alnum_class, H.
Qed.

Lemma py_run_name : forall tok r st top stack, is_name_tok tok -> st <> AfterElem ->
  py_run (tok :: r) st (top :: stack) = py_run r AfterElem ((PStr tok :: top) :: stack).
Proof.
  intros tok r st top stack (H1 & H2 & H3) Hst. unfold LT, GT, comma in *. cbn [py_run]. rewrite H1, H2, H3.
  destruct st; [contradiction| |]; reflexivity.
Qed.

(* cqltype_to_python as one machine on characters: the scanner feeding py_run's state and stack of lists *)
Definition cql_go (s : str) (st : pstate) (stack : list (list pyt)) : option (list pyt) :=
  match scan cql_scanner s [] with None => None | Some toks => py_run toks st stack end.

Lemma cql_go_word : forall w rest st top stack, forallb is_alnum_ w = true -> w <> [] -> delimited cql_scanner rest -> st <> AfterElem ->
  cql_go (w ++ rest) st (top :: stack) = cql_go rest AfterElem ((PStr w :: top) :: stack).
Proof.
  intros w rest st top stack Hw Hn D Hst. unfold cql_go. rewrite (scan_token cql_scanner) by assumption.
  destruct (scan cql_scanner rest []); [|reflexivity]. apply py_run_name; [apply word_name_tok|]; assumption.
Qed.

Lemma cql_go_quoted : forall r rest st top stack, qbody r = true -> st <> AfterElem ->
  cql_go (dq :: r ++ rest) st (top :: stack) = cql_go rest AfterElem ((PStr (dq :: r) :: top) :: stack).
Proof.
  intros r rest st top stack Hq Hst. unfold cql_go. cbn [scan cql_scanner]. rewrite cql_lex_open, cql_lex_quoted by assumption.
  destruct (cql_lex rest [] None); [|reflexivity]. apply py_run_name; [apply name_tok_first; reflexivity|assumption].
Qed.

Lemma cql_go_lt : forall rest stack, cql_go (LT ++ rest) AfterElem stack = cql_go rest AtStart ([] :: stack).
Proof. intros rest stack. unfold cql_go. simpl. destruct (cql_lex rest [] None); reflexivity. Qed.

Lemma cql_go_gt : forall rest st inner outer stack, st <> AfterComma ->
  cql_go (GT ++ rest) st (inner :: outer :: stack) = cql_go rest AfterElem ((PList (rev inner) :: outer) :: stack).
Proof.
  intros rest st inner outer stack Hst. unfold cql_go. simpl. destruct (cql_lex rest [] None); [|reflexivity].
  destruct st; [reflexivity|contradiction|reflexivity].
Qed.

Lemma cql_go_sep : forall sep rest stack, sep_ok sep -> cql_go (sep ++ rest) AfterElem stack = cql_go rest AfterComma stack.
Proof. intros sep rest stack [E|E]; subst; unfold cql_go; simpl; destruct (cql_lex rest [] None); reflexivity. Qed.

(* the text [x], where an element may start and before a delimiter, adds the elements [ps] to the list being read;
   [encloses]: [x] does so and leaves the bracket that closes the list *)
Definition yields (x : str) (ps : list pyt) : Prop :=
  forall rest st top stack, st <> AfterElem -> delimited cql_scanner rest ->
  cql_go (x ++ rest) st (top :: stack) = cql_go rest AfterElem ((rev ps ++ top) :: stack).
Definition encloses (x : str) (ps : list pyt) : Prop :=
  forall rest st top stack, st <> AfterElem ->
  cql_go (x ++ rest) st (top :: stack) = cql_go (GT ++ rest) AfterElem ((rev ps ++ top) :: stack).

Lemma yields_word : forall w, forallb is_alnum_ w = true -> w <> [] -> yields w [PStr w].
Proof. intros w Hw Hn rest st top stack Hst D. apply cql_go_word; assumption. Qed.

Lemma yields_name : forall n, wf_cql_name n = true -> yields n [PStr n].
Proof.
  intros n H. destruct (wf_name_cases n H) as [(H1 & H2 & _)|[r [E Hq]]]; [apply yields_word; assumption|].
  subst. intros rest st top stack Hst _. apply cql_go_quoted; assumption.
Qed.

Lemma yields_bracket : forall kw x ps, forallb is_alnum_ kw = true -> kw <> [] -> encloses x ps -> yields (kw ++ LT ++ x) [PStr kw; PList ps].
Proof.
  intros kw x ps Hk Hn Hx rest st top stack Hst D. rewrite <- !app_assoc, cql_go_word, cql_go_lt, Hx, cql_go_gt by (assumption || discriminate || reflexivity).
  rewrite app_nil_r, rev_involutive. reflexivity.
Qed.

(* no [encloses GT []]: after a separator the machine refuses the bracket *)
Lemma yields_empty : forall kw, forallb is_alnum_ kw = true -> kw <> [] -> yields (kw ++ LT ++ GT) [PStr kw; PList []].
Proof.
  intros kw Hk Hn rest st top stack Hst D. rewrite <- !app_assoc, cql_go_word, cql_go_lt, cql_go_gt by (assumption || discriminate || reflexivity).
  reflexivity.
Qed.

Lemma encloses_one : forall x ps, yields x ps -> encloses (x ++ GT) ps.
Proof. intros x ps H rest st top stack Hst. rewrite <- app_assoc. apply H; [assumption|reflexivity]. Qed.

Section CqlName.
  Variable sep : str.
  Variable fz : bool.
  Hypothesis Hsep : sep_ok sep.

  Lemma encloses_cons : forall x p y q, yields x p -> encloses y q -> encloses (x ++ sep ++ y) (p ++ q).
  Proof.
    intros x p y q Hx Hy rest st top stack Hst. rewrite <- !app_assoc, Hx by (assumption || (destruct Hsep; subst; reflexivity)).
    rewrite cql_go_sep, Hy, rev_app_distr, <- app_assoc by (assumption || discriminate). reflexivity.
  Qed.

  Lemma encloses_join : forall (A : Type) (pr : A -> str) (py : A -> list pyt) a l, Forall (fun t => yields (pr t) (py t)) (a :: l) ->
    encloses (join sep (map pr (a :: l)) ++ GT) (flat_map py (a :: l)).
  Proof.
    intros A pr py a l. revert a. induction l as [|b l IH]; intros a H; inversion_clear H as [|? ? Ha Hl].
    - cbn [map join flat_map]. rewrite app_nil_r. apply encloses_one, Ha.
    - change (join sep (map pr (a :: b :: l))) with (pr a ++ sep ++ join sep (map pr (b :: l))).
      rewrite <- !app_assoc. apply encloses_cons; [assumption|apply IH, Hl].
  Qed.

  Lemma yields_wrap : forall x ps, yields x ps ->
    yields (if fz then lit "frozen<" ++ x ++ lit ">" else x) (if fz then [PStr frozen_kw; PList ps] else ps).
  Proof.
    intros x ps H. destruct fz; [|assumption]. apply (yields_bracket frozen_kw); [reflexivity|discriminate|apply encloses_one, H].
  Qed.

  Definition cql_ok (t : ty) : Prop := wf_cql t = true -> yields (cql_name_gen (lit "vector") sep fz t) (to_py fz t).

  Lemma cql_ty : forall t, cql_ok t.
  Proof.
    apply ty_ind2; unfold cql_ok; cbn [cql_name_gen to_py wf_cql].
    - intros s _. apply yields_word; apply cql_simple_ok.
    - intros a IH Hwf. apply (yields_bracket (lit "list")); [reflexivity|discriminate|apply encloses_one; auto].
    - intros a IH Hwf. apply (yields_bracket (lit "set")); [reflexivity|discriminate|apply encloses_one; auto].
    - intros k v IHk IHv Hwf. apply andb_true_iff in Hwf. destruct Hwf as [Hk Hv].
      apply (yields_bracket (lit "map")); [reflexivity|discriminate|]. apply encloses_cons; [|apply encloses_one]; auto.
    - intros ts IH Hwf. apply yields_wrap. apply (Forall_guard _ _ _ _ IH) in Hwf.
      destruct ts as [|a l]; [apply (yields_empty (lit "tuple")); [reflexivity|discriminate]|].
      apply (yields_bracket (lit "tuple")); [reflexivity|discriminate|]. apply encloses_join, Hwf.
    - intros ks n fn ft IH Hwf. apply yields_wrap, yields_name, Hwf.
    - intros a d IH Hwf. apply andb_true_iff in Hwf. destruct Hwf as [Ha Hd]. destruct (wf_dim_alnum _ Hd) as [Hda Hdn].
      apply (yields_bracket (lit "vector")); [reflexivity|discriminate|].
      apply encloses_cons; [auto|]. apply encloses_one, yields_word; assumption.
    - intros a IH Hwf. apply yields_wrap, IH, Hwf.
    - intros a IH Hwf. apply IH, Hwf.
  Qed.
End CqlName.

Theorem parse_cql_name : forall sep fz t, sep_ok sep -> wf_cql t = true ->
  cqltype_to_python (cql_name_gen (lit "vector") sep fz t) = Some (to_py fz t).
Proof.
  intros sep fz t Hsep Hwf. change (cql_go (cql_name_gen (lit "vector") sep fz t) AtStart [[]] = Some (to_py fz t)).
  rewrite <- (app_nil_r (cql_name_gen _ sep fz t)), (cql_ty sep fz Hsep t Hwf) by (discriminate || exact I).
  unfold cql_go. simpl. rewrite app_nil_r, rev_involutive. reflexivity.
Qed.

Lemma str_eqb_neq : forall a b, a <> b -> str_eqb a b = false.
Proof. intros a b H. destruct (str_eqb a b) eqn:E; auto. apply str_eqb_eq in E. contradiction. Qed.

Lemma forallb_Forall : forall {A} (f : A -> bool) l, forallb f l = true -> Forall (fun x => f x = true) l.
Proof. exact @ListFacts.forallb_Forall. Qed.

Lemma typename_simple : forall s, typename_of (marshal_simple s) = cql_simple s.
Proof. destruct s; reflexivity. Qed.
