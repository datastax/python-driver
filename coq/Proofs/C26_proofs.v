(* C26: the driver's lookup (bisect_left + wrap + dict) returns the row of its replica map at the ring position where
   Cassandra's iterator starts, and that row holds Cassandra's replicas. *)
From Coq Require Import ZArith List Bool Lia.
From Verif Require Import RingBase Ring PlacementSpec RingCache C26_lists C26_nts.
Import ListNotations.
Local Open Scope Z_scope.

(* the ring that refutes the statement for the code before the fix:
   hosts 1,2,4 in rack 1, host 3 in rack 2, one dc; host 2 owns two consecutive tokens *)
Definition witness_loc : topo_t := topo_of [(1,(0,1)); (2,(0,1)); (3,(0,2)); (4,(0,1))].
Definition witness_ring : ring_t := [(0,1); (10,2); (20,2); (30,3); (40,4)].

(* what bisect_left returns on a sorted ring: first_token_index before the wrap (len(ring) where that says 0) *)
Definition bisect_point (ring : ring_t) (t : Z) : nat := match first_ge ring t with Some k => k | None => length ring end.

Lemma first_ge_bound : forall ring t k, first_ge ring t = Some k -> (k < length ring)%nat.
Proof.
  induction ring as [|[tk h] r IH]; intros t k H; cbn [first_ge length] in *; [discriminate|].
  destruct (t <=? tk); [inversion H; lia|]. destruct (first_ge r t) as [k'|] eqn:E; [|discriminate].
  inversion H. specialize (IH t k' E). lia.
Qed.

Lemma first_token_index_lt : forall ring t, ring <> [] -> (first_token_index ring t < length ring)%nat.
Proof.
  intros ring t Hne. unfold first_token_index. destruct (first_ge ring t) as [k|] eqn:E; [apply (first_ge_bound _ _ _ E)|].
  destruct ring; [congruence | cbn; lia].
Qed.

Lemma nth_lt_bisect_point : forall ring t m, strictly_sorted (map fst ring) = true -> (m < length ring)%nat ->
  (nth m (map fst ring) 0 <? t) = Nat.ltb m (bisect_point ring t).
Proof.
  induction ring as [|[tk h] r IH]; intros t m Hs Hm; cbn [length] in Hm; [lia|].
  cbn [map fst] in *. destruct (strictly_sorted_cons _ _ Hs) as [Hf Hs'].
  unfold bisect_point. cbn [first_ge length]. destruct (t <=? tk) eqn:E.
  - apply Z.leb_le in E. apply Z.ltb_ge. destruct m as [|m]; cbn [nth]; [assumption|].
    assert (tk < nth m (map fst r) 0) by (apply Hf, nth_In; rewrite map_length; lia). lia.
  - apply Z.leb_gt in E.
    replace (match option_map S (first_ge r t) with Some k => k | None => S (length r) end) with (S (bisect_point r t))
      by (unfold bisect_point; destruct (first_ge r t); reflexivity).
    destruct m as [|m]; cbn [nth]; [apply Z.ltb_lt; assumption|]. apply IH; [assumption | lia].
Qed.

Lemma bisect_loop_point : forall fuel (a : list Z) x p lo hi,
  (forall m, (m < length a)%nat -> (nth m a 0 <? x) = Nat.ltb m p) ->
  (lo <= p <= hi)%nat -> (hi <= length a)%nat -> (hi - lo < fuel)%nat ->
  bisect_loop fuel a x lo hi = p.
Proof.
  induction fuel as [|f IH]; intros a x p lo hi Hp Hlo Hn Hf; [lia|].
  cbn [bisect_loop]. destruct (Nat.ltb lo hi) eqn:E; [|apply Nat.ltb_ge in E; lia].
  apply Nat.ltb_lt in E.
  assert (Hm : (lo <= Nat.div (lo + hi) 2 < hi)%nat).
  { pose proof (Nat.div_mod (lo + hi) 2 ltac:(lia)). pose proof (Nat.mod_upper_bound (lo + hi) 2 ltac:(lia)). lia. }
  rewrite Hp by lia. destruct (Nat.ltb_spec (Nat.div (lo + hi) 2) p); apply IH; try assumption; lia.
Qed.

Lemma bisect_left_point : forall ring x, strictly_sorted (map fst ring) = true -> bisect_left (map fst ring) x = bisect_point ring x.
Proof.
  intros ring x Hs. unfold bisect_left.
  assert (bisect_point ring x <= length ring)%nat.
  { unfold bisect_point. destruct (first_ge ring x) as [k|] eqn:E; [apply first_ge_bound in E|]; lia. }
  apply bisect_loop_point; rewrite ?map_length; try lia.
  intros m Hm. apply nth_lt_bisect_point; assumption.
Qed.

Lemma first_ge_nth : forall ring k, strictly_sorted (map fst ring) = true -> (k < length ring)%nat ->
  first_ge ring (nth k (map fst ring) 0) = Some k.
Proof.
  induction ring as [|[tk h] r IH]; intros k Hs Hk; cbn [length] in Hk; [lia|].
  cbn [map fst] in *. destruct (strictly_sorted_cons _ _ Hs) as [Hf Hs'].
  cbn [first_ge]. destruct k as [|k]; cbn [nth]; [rewrite Z.leb_refl; reflexivity|].
  assert (tk < nth k (map fst r) 0) by (apply Hf, nth_In; rewrite map_length; lia).
  replace (nth k (map fst r) 0 <=? tk) with false by (symmetry; apply Z.leb_gt; assumption).
  rewrite IH by (assumption || lia). reflexivity.
Qed.

Lemma first_token_index_nth : forall ring k, strictly_sorted (map fst ring) = true -> (k < length ring)%nat ->
  first_token_index ring (nth k (map fst ring) 0) = k.
Proof. intros ring k Hs Hk. unfold first_token_index. rewrite first_ge_nth by assumption. reflexivity. Qed.

Lemma first_ge_find : forall ring t,
  find (fun tk => t <=? tk) (map fst ring) = option_map (fun k => nth k (map fst ring) 0) (first_ge ring t).
Proof.
  induction ring as [|[tk h] r IH]; intros t; [reflexivity|]. cbn [map fst find first_ge].
  destruct (t <=? tk); [reflexivity|]. rewrite IH. destruct (first_ge r t); reflexivity.
Qed.

(* the fact holds of any ring (the first token >= t is the first token >= itself); sortedness is used only to reach it
   through first_ge_nth *)
Lemma first_token_index_find : forall ring t, strictly_sorted (map fst ring) = true ->
  first_token_index ring t =
  first_token_index ring (match find (fun tk => t <=? tk) (map fst ring) with Some tk => tk | None => hd 0 (map fst ring) end).
Proof.
  intros ring t Hs. rewrite first_ge_find. unfold first_token_index at 1.
  destruct (first_ge ring t) as [k|] eqn:E; cbn [option_map].
  - symmetry. apply first_token_index_nth; [assumption | apply (first_ge_bound _ _ _ E)].
  - destruct ring as [|[tk h] r]; [reflexivity|]. unfold first_token_index. cbn [map fst hd first_ge].
    rewrite Z.leb_refl. reflexivity.
Qed.

Lemma wrap_bisect_point : forall ring t,
  (if Nat.eqb (bisect_point ring t) (length ring) then O else bisect_point ring t) = first_token_index ring t.
Proof.
  intros ring t. unfold bisect_point, first_token_index. destruct (first_ge ring t) as [k|] eqn:E; [|rewrite Nat.eqb_refl; reflexivity].
  apply first_ge_bound in E. replace (Nat.eqb k (length ring)) with false by (symmetry; apply Nat.eqb_neq; lia). reflexivity.
Qed.

Lemma get_replicas_at : forall rmap ring t l, strictly_sorted (map fst ring) = true ->
  assoc (nth (first_token_index ring t) (map fst ring) 0) rmap = Some l -> get_replicas rmap (map fst ring) t = l.
Proof.
  intros rmap ring t l Hs Ha. unfold get_replicas. destruct rmap as [|e rm]; [discriminate|].
  rewrite bisect_left_point, map_length by assumption. rewrite <- wrap_bisect_point in Ha.
  destruct (Nat.eqb (bisect_point ring t) (length ring)); rewrite Ha; reflexivity.
Qed.

Definition row_of (loc : topo_t) (s : strategy) (ring : ring_t) : nat -> list Z :=
  match s with Simple rf => simple_row rf (map snd ring) | NTS rfs => nts_row loc rfs (map snd ring) end.

Lemma replica_map_rows : forall loc s ring,
  replica_map true loc s ring = combine (map fst ring) (map (row_of loc s ring) (seq 0 (length ring))).
Proof.
  intros loc [rf|rfs] ring; cbn [replica_map row_of]; [|apply nts_map_rows].
  unfold simple_map. rewrite map_pair, <- (map_length fst ring), map_nth_seq. reflexivity.
Qed.

Lemma assoc_rows : forall (f : nat -> list Z) (ring : ring_t) k, strictly_sorted (map fst ring) = true -> (k < length ring)%nat ->
  assoc (nth k (map fst ring) 0) (combine (map fst ring) (map f (seq 0 (length ring)))) = Some (f k).
Proof.
  intros f ring k Hs Hk. rewrite assoc_combine with (dv := @nil Z).
  - rewrite nth_map_seq by assumption. reflexivity.
  - apply strictly_sorted_NoDup. assumption.
  - rewrite !map_length, seq_length. reflexivity.
  - rewrite map_length. assumption.
Qed.

Lemma driver_row : forall loc s ring t, strictly_sorted (map fst ring) = true ->
  driver_replicas loc s ring t = row_of loc s ring (first_token_index ring t).
Proof.
  intros loc s ring t Hs. unfold driver_replicas. rewrite replica_map_rows.
  destruct ring as [|e r]; [destruct s; reflexivity|].
  apply get_replicas_at, assoc_rows; try assumption. apply first_token_index_lt. discriminate.
Qed.

(* on a full list the fold runs on and changes nothing; the walk tests before every step, so it returns at once whatever is left *)
Lemma simple_fold_walk : forall rf l acc, fold_left (simple_step rf) l acc = simple_walk rf l acc.
Proof.
  induction l as [|h l IH]; intros acc; [reflexivity|]. cbn [fold_left simple_walk]. rewrite IH. unfold simple_step.
  destruct (lenZ acc <? rf) eqn:E; [reflexivity|]. destruct l; cbn [simple_walk]; rewrite ?E; reflexivity.
Qed.

Lemma simple_row_spec : forall rf ring t,
  simple_row rf (map snd ring) (first_token_index ring t) = simple_spec rf ring t.
Proof. intros. unfold simple_row, simple_spec, ring_iterator. rewrite map_rot. apply simple_fold_walk. Qed.

Lemma simple_walk_NoDup : forall rf l acc, NoDup acc -> NoDup (simple_walk rf l acc).
Proof.
  induction l as [|h l IH]; intros acc Hn; cbn [simple_walk]; [assumption|].
  destruct (lenZ acc <? rf); [apply IH, set_add_NoDup; assumption | assumption].
Qed.

Definition placement_of (s : strategy) : placement :=
  match s with Simple rf => SimpleStrategy rf | NTS rfs => NetworkTopologyStrategy rfs end.

Lemma murmur3_token_normalize : forall h, murmur3_token h = normalize h.
Proof.
  intros h. unfold murmur3_token, normalize.
  replace MIN_LONG with Long_MIN_VALUE by reflexivity.
  destruct (h =? Long_MIN_VALUE); reflexivity.
Qed.

(* once no refresh is pending, what is cached or half-built was computed from the current settings *)
Definition cache_inv (s : cstate) : Prop :=
  pending s = 0%nat -> (forall c, cache s = Some c -> c = settings s) /\ (forall r, qlock s = Some (Some r) -> r = settings s).

Lemma cache_inv_step : forall s o, in_source o = true -> cache_inv s -> cache_inv (cstep s o).
Proof.
  intros [st ca ql pe] o Ho H. unfold cache_inv in *.
  destruct o as [| | |v| | |]; cbn [cstep settings cache qlock pending].
  - (* QStart *) destruct ql as [q|]; [exact H|]. destruct ca; [exact H|]. intros Hp. split; intros; discriminate.
  - (* QRead *) destruct ql as [[r|]|]; try exact H. intros Hp. split; [apply (H Hp) | intros r [= <-]; reflexivity].
  - (* QPublish *) destruct ql as [[r|]|]; try exact H. intros Hp. split; [|intros; discriminate].
    intros c [= <-]. apply (H Hp). reflexivity.
  - (* ESet *) discriminate.
  - (* ERefresh *) destruct ql as [q|]; [exact H|]. destruct pe as [|p]; [exact H|]. intros _. split; [|intros; discriminate].
    destruct ca; intros c [= <-]. reflexivity.
  - (* Evict *) intros Hp. split; [intros; discriminate | apply (H Hp)].
  - (* ECheckUnlocked *) discriminate Ho.
Qed.

Lemma cache_inv_run : forall ops s, forallb in_source ops = true -> cache_inv s -> cache_inv (crun s ops).
Proof.
  induction ops as [|o ops IH]; intros s Hs Hi; [exact Hi|]. apply andb_true_iff in Hs.
  destruct Hs as [Ho Hs]. apply IH; [assumption | apply cache_inv_step; assumption].
Qed.

Lemma cache_inv_init : forall v, cache_inv (cinit v).
Proof. intros v _. split; cbn; intros; discriminate. Qed.

Lemma cache_inv_served : forall s, cache_inv s -> quiescent s -> served s = settings s.
Proof.
  intros s H [_ Hp]. unfold served. destruct (cache s) as [c|] eqn:E; [|reflexivity]. apply (proj1 (H Hp)), E.
Qed.
