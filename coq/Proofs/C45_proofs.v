(* C45 over Model/Shutdown.v: `Inv := D /\ KK` is kept by every step; `after_shutdown` is one step from a state with all four flags down.
   D, NW and KKd each read only a few fields of the state; where a branch of the model writes none of them, the hypothesis about the
   state before proves the goal about the state after as it stands (`exact H`: the projections compute). *)
From Coq Require Import ZArith List Bool Arith Lia.
From Verif Require Import ListFacts Shutdown.
Import ListNotations.

Definition flags (s : st) := (cl_down s, sess_down s, cc_down s, sched_down s).

Definition quiet (s s' : st) : Prop := nconn s' = nconn s /\ nh s' = nh s /\ attempts s' = attempts s.

Lemma quiet_trans a b c : quiet a b -> quiet b c -> quiet a c.
Proof. intros (A1 & A2 & A3) (B1 & B2 & B3). repeat split; congruence. Qed.

Lemma flags_session_shutdown s : flags (session_shutdown s) = (cl_down s, true, cc_down s, sched_down s).
Proof. unfold session_shutdown. destruct (sess_down s) eqn:E; [unfold flags; rewrite E|]; reflexivity. Qed.

Lemma quiet_session_shutdown s : quiet s (session_shutdown s).
Proof. unfold session_shutdown. destruct (sess_down s); repeat split. Qed.

Lemma queue_session_shutdown s :
  queue (session_shutdown s) = if sess_down s then queue s else filter (fun t => negb (is_initial t)) (queue s).
Proof. unfold session_shutdown. destruct (sess_down s); reflexivity. Qed.

Lemma flags_cc_shutdown s : flags (cc_shutdown s) = (cl_down s, sess_down s, true, sched_down s).
Proof.
  unfold cc_shutdown, flags. cbn. destruct (cc_down s) eqn:E; cbn.
  - rewrite E. reflexivity.
  - destruct (cc_conn s); reflexivity.
Qed.

Lemma quiet_cc_shutdown s : quiet s (cc_shutdown s).
Proof. unfold cc_shutdown. cbn. destruct (cc_down s); [|destruct (cc_conn s)]; repeat split. Qed.

Lemma cluster_shutdown_idem s : cl_down s = true -> cluster_shutdown s = s.
Proof. intros H. unfold cluster_shutdown. rewrite H. reflexivity. Qed.

(* Cluster.shutdown's own two flags, before it calls the other two shutdowns *)
Definition marked (s : st) : st :=
  mk (nconn s) (closed s) true (sess_down s) (cc_down s) true (pool s) (cc_conn s) (queue s) (timers s) (nh s) (attempts s) (npool s).

Lemma cluster_shutdown_eq s : cl_down s = false -> cluster_shutdown s = session_shutdown (cc_shutdown (marked s)).
Proof. intros H. unfold cluster_shutdown. rewrite H. reflexivity. Qed.

Lemma flags_cluster_shutdown s : cl_down s = false -> flags (cluster_shutdown s) = (true, true, true, true).
Proof.
  intros H. rewrite (cluster_shutdown_eq s H), flags_session_shutdown.
  injection (flags_cc_shutdown (marked s)) as -> _ -> ->. reflexivity.
Qed.

Lemma quiet_cluster_shutdown s : quiet s (cluster_shutdown s).
Proof.
  destruct (cl_down s) eqn:H; [rewrite (cluster_shutdown_idem s H); repeat split|rewrite (cluster_shutdown_eq s H)].
  exact (quiet_trans _ _ _ (quiet_cc_shutdown (marked s)) (quiet_session_shutdown _)).
Qed.

(* D for down: a shut-down cluster has its session, control connection and scheduler shut down *)
Definition D (s : st) : Prop :=
  cl_down s = true -> sess_down s = true /\ cc_down s = true /\ sched_down s = true.

Lemma D_session_shutdown s : D s -> D (session_shutdown s).
Proof.
  intros H. injection (flags_session_shutdown s) as E1 E2 E3 E4. unfold D. rewrite E1, E2, E3, E4.
  intros Hc. destruct (H Hc) as (_ & B & C). auto.
Qed.

Lemma D_cluster_shutdown s : D s -> D (cluster_shutdown s).
Proof.
  intros H. destruct (cl_down s) eqn:E.
  - rewrite (cluster_shutdown_idem s E). exact H.
  - injection (flags_cluster_shutdown s E) as _ E2 E3 E4. intros _. auto.
Qed.

Lemma D_connect s d : D s -> D (fst (connect s d)).
Proof. intros H. destruct d; [apply D_cluster_shutdown|]; exact H. Qed.

Lemma D_install_pool s h c : D s -> D (install_pool s h c).
Proof. intros H. unfold install_pool. destruct (sess_down s); exact H. Qed.

Lemma D_init n : D (init n).
Proof. discriminate. Qed.

(* AD for all down; an equation between 4-tuples, so that `pose proof H as [= A B C E]` gives the four flags *)
Definition AD (s : st) : Prop := flags s = (true, true, true, true).

Lemma D_AD s : D s -> cl_down s = true -> AD s.
Proof. intros H Hc. destruct (H Hc) as (A & B & C). unfold AD, flags. rewrite Hc, A, B, C. reflexivity. Qed.

(* NW for no new work: from s to s' no task is added, the timers stay, at most n connection attempts start, all flags stay down *)
Definition NW (s s' : st) (n : nat) : Prop :=
  (forall t, In t (queue s') -> In t (queue s)) /\ timers s' = timers s /\ attempts s' <= attempts s + n /\ AD s'.

Lemma NW_trans a b c n m : NW a b n -> NW b c m -> NW a c (n + m).
Proof.
  intros (A1 & A2 & A3 & _) (B1 & B2 & B3 & B4). split; [|split; [|split]].
  - intros t Ht. exact (A1 t (B1 t Ht)).
  - congruence.
  - lia.
  - exact B4.
Qed.

Lemma NW_refl s n : AD s -> NW s s n.
Proof. intros H. split; [auto | split; [reflexivity | split; [apply Nat.le_add_r | exact H]]]. Qed.

Lemma NW_att s n : AD s -> NW s (att s n) n.
Proof. intros H. split; [auto | split; [reflexivity | split; [apply le_n | exact H]]]. Qed.

Lemma NW_pop s k : AD s -> NW s (set_queue s (remove_nth k (queue s))) 0.
Proof.
  intros H. split; [exact (In_remove_at k (queue s)) | split; [reflexivity | split; [apply Nat.le_add_r | exact H]]].
Qed.

Lemma connect_down s d : cl_down s = true -> connect s d = (att (set_nconn s (S (nconn s))) 1, nconn s).
Proof.
  intros A. unfold connect. destruct d; [|reflexivity]. rewrite cluster_shutdown_idem; [reflexivity | exact A].
Qed.

Lemma NW_install_pool s h c : AD s -> NW s (install_pool s h c) 0.
Proof. intros H. pose proof H as [= _ B _ _]. unfold install_pool. rewrite B. exact (NW_refl s 0 H). Qed.

Lemma NW_run_task s t o d : AD s -> NW s (run_task s t o d) 1.
Proof.
  intros H. pose proof H as [= A B C _]. pose proof (NW_refl s 1 H) as H0.
  destruct t; cbn [run_task]; rewrite ?(connect_down s d A).
  all: set (s1 := att (set_nconn s (S (nconn s))) 1); pose proof (NW_att s 1 H : NW s s1 1) as H1.
  - destruct o; [|exact H0]. destruct (negb (h <? nh s)); [exact H0|].
    exact (NW_trans _ _ _ 1 0 H1 (NW_install_pool s1 h _ H)).
  - destruct (pool s h) as [q|]; [|exact H0].
    destruct ((pid q =? p) && negb (pshut q)); [|exact H0].
    destruct o; [|cbn [sess_down att set_attempts]; rewrite B; exact (NW_att s 1 H)].
    destruct (pool s1 h) as [q'|]; [|exact H1].
    destruct (pshut q'); [exact H1|].
    destruct (pconn q') as [c1|]; [|exact H1].
    destruct (c1 =? c0); [|exact H1]. destruct m; exact H1.
  - destruct o.
    + replace (cc_down s1) with true by (symmetry; exact C). exact H1.
    + destruct d; [rewrite cluster_shutdown_idem by exact A | rewrite C]; exact (NW_att s 1 H).
Qed.

Lemma after_shutdown s o : AD s -> NW s (fst (step s o)) (match o with ORunNested _ _ => 2 | _ => 1 end) /\ snd (step s o) <> Accepted.
Proof.
  intros H. pose proof H as [= A B C D0].
  assert (H0 : forall n, NW s s n) by (intros n; exact (NW_refl s n H)).
  (* R0 also closes the branches whose state differs from s in fields NW does not read: by conversion *)
  assert (R0 : forall n x, x <> Accepted -> NW s (fst (s, x)) n /\ snd (s, x) <> Accepted) by (intros n x Hx; exact (conj (H0 n) Hx)).
  destruct o; cbn [step]; rewrite ?B, ?C, ?D0, ?(cluster_shutdown_idem s A).
  - (* OPoolTask *) apply R0; discriminate.
  - (* OReplace *) destruct (pool s h) as [q|]; [destruct (pconn q); [destruct (prepl q || pshut q)|]|]; apply R0; discriminate.
  - (* OConnLost *) destruct (pool s h) as [q|]; [destruct (pconn q); [destruct (pshut q); [|destruct (prepl q)]|]|]; apply R0; discriminate.
  - (* OTrashDone *) destruct (pool s h) as [q|]; [destruct (ptrash q) as [|c0 rest]; [|destruct (pshut q || existsb (Nat.eqb c0) (closed s))]|];
      apply R0; discriminate.
  - (* OCCReconnect *) apply R0; discriminate.
  - (* OStartRecon *) apply R0; discriminate.
  - (* ORun *) destruct (nth_error (queue s) k) as [t|]; [|apply R0; discriminate]. split; [|discriminate].
    set (s0 := set_queue s (remove_nth k (queue s))).
    exact (NW_trans s s0 _ 0 1 (NW_pop s k H) (NW_run_task s0 t _ _ H)).
  - (* OFire *) apply R0; discriminate.
  - (* ORunNested *) destruct (nth_error (queue s) k) as [[h i| |]|]; try (apply R0; discriminate).
    set (s0 := set_queue s (remove_nth k (queue s))).
    destruct (nth_error (queue s0) j) as [[h' i'| |]|]; try (apply R0; discriminate).
    destruct (negb (h <? nh s) || negb (h' <? nh s)); [apply R0; discriminate|].
    split; [|discriminate]. cbn [connect fst].
    set (sa := att (set_nconn s0 (S (nconn s0))) 1). set (s1 := set_queue sa (remove_nth j (queue sa))).
    (* task k is taken and connects; then task j is taken, runs, and the pool of task k is installed *)
    pose proof (NW_trans s s0 sa 0 1 (NW_pop s k H) (NW_att s0 1 H)) as Ha.
    pose proof (NW_trans s sa s1 1 0 Ha (NW_pop sa j H)) as H1.
    pose proof (NW_trans s s1 _ 1 1 H1 (NW_run_task s1 (KAddPool h' i') Ok false H)) as H2.
    exact (NW_trans s _ _ 2 0 H2 (NW_install_pool _ h _ (proj2 (proj2 (proj2 H2))))).
  - (* OClusterShutdown *) apply R0; discriminate.
  - (* OSessionShutdown *) unfold session_shutdown. rewrite B. apply R0; discriminate.
  - (* OSubmit *) apply R0; discriminate.
  - (* ORequest *) apply R0; discriminate.
Qed.

Definition held (s : st) (c : nat) : Prop :=
  In c (closed s) \/ cc_conn s = Some c \/ exists h, In c (opl_conns (pool s h)).

(* dom = the connections that must be accounted for (one being installed by the running step may be exempt) *)
Definition KKd (s : st) (dom : nat -> Prop) : Prop :=
  (forall c, dom c -> held s c) /\
  (cc_down s = true -> cc_conn s = None) /\
  (sess_down s = true -> forall h q, pool s h = Some q -> pshut q = true /\ pl_conns q = []) /\
  (forall h, nh s <= h -> pool s h = None).
Definition KKn (s : st) (n : nat) : Prop := KKd s (fun c => c < n).

(* every connection opened so far is closed or held by the control connection or a registered pool; what is shut down holds none *)
Definition KK (s : st) : Prop := KKn s (nconn s).

Lemma KKd_mono s (dom dom' : nat -> Prop) : (forall c, dom' c -> dom c) -> KKd s dom -> KKd s dom'.
Proof. intros Hm (A & W). split; auto. Qed.

Lemma pool_in_range s dom h q : KKd s dom -> pool s h = Some q -> h < nh s.
Proof.
  intros (_ & _ & _ & D0) Hq. destruct (Nat.lt_ge_cases h (nh s)) as [|Hge]; auto. rewrite (D0 h Hge) in Hq. discriminate.
Qed.

Lemma live_pool_session_up s dom h q : KKd s dom -> pool s h = Some q -> pshut q = false -> sess_down s = false.
Proof.
  intros (_ & _ & C & _) Hq Hs. destruct (sess_down s); auto. destruct (C eq_refl h q Hq) as [H _]. congruence.
Qed.

Lemma KKd_close s dom c : KKd s dom -> KKd (close s c) (fun x => dom x \/ x = c).
Proof.
  intros (A & W). split; [|exact W]. intros x [Hx | ->]; [|left; left; reflexivity].
  destruct (A x Hx) as [H | H]; [left; right; exact H | right; exact H].
Qed.

Lemma KKd_session_shutdown s dom : KKd s dom -> KKd (session_shutdown s) dom.
Proof.
  intros H. unfold session_shutdown. destruct (sess_down s); [exact H|].
  destruct H as (A & B & C & D0). split; [|split; [|split]]; cbn.
  - intros x Hx. destruct (A x Hx) as [H | [H | [h H]]].
    + left. apply in_or_app. right. exact H.
    + right; left. exact H.
    + left. apply in_or_app. left. apply in_flat_map. exists h. split; [|exact H].
      apply in_seq. split; [lia|]. destruct (Nat.lt_ge_cases h (nh s)) as [Hlt | Hge]; [exact Hlt|].
      rewrite (D0 h Hge) in H. destruct H.
  - exact B.
  - intros _ h q Hq. destruct (pool s h); [|discriminate]. injection Hq as <-. split; reflexivity.
  - intros h Hh. rewrite (D0 h Hh). reflexivity.
Qed.

Lemma KKd_cc_shutdown s dom : KKd s dom -> KKd (cc_shutdown s) dom.
Proof.
  intros H. unfold cc_shutdown. cbn. destruct (cc_down s); [exact H|].
  destruct H as (A & B & W). split; [|split; [reflexivity | destruct (cc_conn s); exact W]].
  intros x Hx. destruct (A x Hx) as [H | [H | H]].
  - left. destruct (cc_conn s); [right|]; exact H.
  - left. rewrite H. left. reflexivity.
  - right; right. destruct (cc_conn s); exact H.
Qed.

Lemma KKd_cluster_shutdown s dom : KKd s dom -> KKd (cluster_shutdown s) dom.
Proof.
  intros H. destruct (cl_down s) eqn:E; [rewrite (cluster_shutdown_idem s E); exact H|rewrite (cluster_shutdown_eq s E)].
  apply KKd_session_shutdown, KKd_cc_shutdown. exact H.
Qed.

(* the running step has just opened connection n and nothing holds it yet; dom: what was accounted for before *)
Definition PendingD (s : st) (dom : nat -> Prop) (n : nat) : Prop := D s /\ KKd s dom /\ nconn s = S n.
Definition Pending (s : st) (n : nat) : Prop := PendingD s (fun c => c < n) n.

Lemma connect_spec s d s1 c dom : D s -> KKd s dom -> connect s d = (s1, c) ->
  c = nconn s /\ nh s1 = nh s /\ PendingD s1 dom (nconn s).
Proof.
  intros HD H E. pose proof (D_connect s d HD) as HD1. revert HD1 E. unfold connect, PendingD. intros HD1 [= <- <-].
  pose proof (H : KKd (att (set_nconn s (S (nconn s))) 1) dom) as H1.
  destruct d; [|auto 6]. destruct (quiet_cluster_shutdown (att (set_nconn s (S (nconn s))) 1)) as (-> & -> & _).
  pose proof (KKd_cluster_shutdown _ _ H1). auto 6.
Qed.

Lemma KKd_upd [s dom h] q' l : KKd s dom -> sess_down s = false -> h < nh s ->
  incl (opl_conns (pool s h)) (l ++ pl_conns q') ->
  KKd (close_all (upd_pool s h (Some q')) l) (fun x => dom x \/ In x (l ++ pl_conns q')).
Proof.
  intros (A & B & C & D0) Hs Hh Hold.
  assert (Hq : forall x, In x (l ++ pl_conns q') -> held (close_all (upd_pool s h (Some q')) l) x).
  { intros x [Hx | Hx]%in_app_or.
    - left. apply in_or_app. left. exact Hx.
    - right; right. exists h. cbn. rewrite Nat.eqb_refl. exact Hx. }
  split; [|split; [|split]]; cbn.
  - intros x [Hx | Hx]; [|exact (Hq x Hx)].
    destruct (A x Hx) as [H | [H | [h' H]]].
    + left. apply in_or_app. right. exact H.
    + right; left. exact H.
    + destruct (Nat.eqb_spec h' h) as [-> | Hne]; [exact (Hq x (Hold x H))|].
      right; right. exists h'. cbn. rewrite (proj2 (Nat.eqb_neq h' h) Hne). exact H.
  - exact B.
  - congruence.
  - intros x Hx. destruct (Nat.eqb_spec x h) as [-> | _]; [lia | exact (D0 x Hx)].
Qed.

Lemma KKd_set_cc s dom c : KKd s dom -> cc_down s = false ->
  KKd (set_cc (close_opt s (cc_conn s)) (Some c)) (fun x => dom x \/ x = c).
Proof.
  intros (A & B & W) Hd. split; [|split; [destruct (cc_conn s); cbn; congruence | destruct (cc_conn s); exact W]].
  intros x [Hx | ->]; [|right; left; reflexivity].
  destruct (A x Hx) as [H | [H | H]].
  - left. destruct (cc_conn s); [right|]; exact H.
  - left. rewrite H. left. reflexivity.
  - right; right. destruct (cc_conn s); exact H.
Qed.

Lemma KKd_install_pool s dom h c : KKd s dom -> h < nh s -> KKd (install_pool s h c) (fun x => dom x \/ x = c).
Proof.
  intros H Hh. unfold install_pool. destruct (sess_down s) eqn:Es; [exact (KKd_close s dom c H)|].
  refine (KKd_mono _ _ _ _ (KKd_upd (mkp (npool s) (Some c) false false []) (opl_conns (pool s h)) H Es Hh
                              (incl_appl _ (incl_refl _)))).
  intros x [Hx | ->]; [left; exact Hx | right; apply in_elt].
Qed.

Lemma quiet_install_pool s h c : quiet s (install_pool s h c).
Proof. unfold install_pool. destruct (sess_down s); repeat split. Qed.

Lemma add_pool_spec s dom h i d : D s -> KKd s dom -> h < nh s ->
  let s' := run_task s (KAddPool h i) Ok d in
  D s' /\ KKd s' (fun x => dom x \/ x = nconn s) /\ nconn s' = S (nconn s) /\ nh s' = nh s.
Proof.
  intros HD H Hh. cbn [run_task]. rewrite (proj2 (Nat.ltb_lt _ _) Hh). cbn [negb].
  destruct (connect s d) as [s1 c] eqn:Ec. destruct (connect_spec _ _ _ _ _ HD H Ec) as (-> & Hh1 & HD1 & H1 & Hn).
  destruct (quiet_install_pool s1 h (nconn s)) as (-> & -> & _).
  split; [exact (D_install_pool _ _ _ HD1) | split; [|split; assumption]].
  apply KKd_install_pool; [exact H1 | rewrite Hh1; exact Hh].
Qed.

Lemma KK_opened s n : nconn s = S n -> KKd s (fun x => x < n \/ x = n) -> KK s.
Proof. intros E. unfold KK, KKn. apply KKd_mono. intros c Hc. lia. Qed.

Definition Inv (s : st) : Prop := D s /\ KK s.

Lemma Inv_cluster_shutdown s : Inv s -> Inv (cluster_shutdown s).
Proof.
  intros (HD & HK). split; [exact (D_cluster_shutdown s HD)|].
  unfold KK. destruct (quiet_cluster_shutdown s) as (-> & _). exact (KKd_cluster_shutdown _ _ HK).
Qed.

Lemma Inv_session_shutdown s : Inv s -> Inv (session_shutdown s).
Proof.
  intros (HD & HK). split; [exact (D_session_shutdown s HD)|].
  unfold KK. destruct (quiet_session_shutdown s) as (-> & _). exact (KKd_session_shutdown _ _ HK).
Qed.

Lemma Inv_upd [s h q] q' l : Inv s -> pool s h = Some q -> pshut q = false ->
  incl (pl_conns q) (l ++ pl_conns q') ->
  Inv (close_all (upd_pool s h (Some q')) l).
Proof.
  intros (HD & H) Hq Hs Hold. split; [exact HD|].
  refine (KKd_mono _ _ _ (fun x Hx => or_introl Hx)
            (KKd_upd q' l H (live_pool_session_up _ _ _ _ H Hq Hs) (pool_in_range _ _ _ _ H Hq) _)).
  rewrite Hq. exact Hold.
Qed.

Lemma Inv_close s c : Inv s -> Inv (close s c).
Proof. intros (HD & HK). exact (conj HD (KKd_mono _ _ _ (fun x Hx => or_introl Hx) (KKd_close s _ c HK))). Qed.

Lemma Pending_close s n : Pending s n -> Inv (close s n).
Proof. intros (HD & H & Hn). exact (conj HD (KK_opened (close s n) n Hn (KKd_close s _ n H))). Qed.

Lemma Pending_set_cc s n : Pending s n -> cc_down s = false -> Inv (set_cc (close_opt s (cc_conn s)) (Some n)).
Proof.
  intros (HD & H & Hn) Ed. split; [destruct (cc_conn s); exact HD | apply (KK_opened _ n)].
  - destruct (cc_conn s); exact Hn.
  - exact (KKd_set_cc s _ n H Ed).
Qed.

Lemma Pending_upd s n h q tr l : Pending s n -> pool s h = Some q -> pshut q = false ->
  incl (pl_conns q) (l ++ tr) ->
  Inv (close_all (upd_pool s h (Some (mkp (pid q) (Some n) false false tr))) l).
Proof.
  intros (HD & H & Hn) Ep Esh Hold. split; [exact HD | apply (KK_opened _ n); [exact Hn|]].
  refine (KKd_mono _ _ _ _ (KKd_upd _ l H (live_pool_session_up _ _ _ _ H Ep Esh) (pool_in_range _ _ _ _ H Ep) _)).
  - intros x [Hx | ->]; [left; exact Hx | right; apply in_elt].
  - rewrite Ep. exact (incl_tran Hold (incl_app_app (incl_refl l) (incl_tl n (incl_refl tr)))).
Qed.

Lemma Inv_run_task s t o d : Inv s -> Inv (run_task s t o d).
Proof.
  intros H0. pose proof H0 as (HD & HK). destruct t.
  - destruct o; [|exact H0]. destruct (Nat.lt_ge_cases h (nh s)) as [Hh | Hh].
    + destruct (add_pool_spec s _ h initial d HD HK Hh) as (HD1 & H1 & Hn & _). exact (conj HD1 (KK_opened _ _ Hn H1)).
    + cbn [run_task]. rewrite (proj2 (Nat.ltb_ge _ _) Hh). exact H0.
  - cbn [run_task]. destruct (pool s h) as [q|]; [|exact H0].
    destruct ((pid q =? p) && negb (pshut q)); [|exact H0].
    destruct o; [|destruct (sess_down (att s 1)); exact H0].
    destruct (connect s d) as [s1 c] eqn:Ec. destruct (connect_spec _ _ _ _ _ HD HK Ec) as (-> & _ & P).
    pose proof (Pending_close s1 _ P) as Hclose.
    destruct (pool s1 h) as [q'|] eqn:Ep; [|exact Hclose].
    destruct (pshut q') eqn:Esh; [exact Hclose|].
    pose proof (fun tr l => Pending_upd s1 _ h q' tr l P Ep Esh) as Hupd.
    unfold pl_conns in Hupd. destruct (pconn q') as [c1|].
    + destruct (Nat.eqb_spec c1 c0) as [-> | _]; [|exact Hclose].
      destruct m; [|exact (Hupd (c0 :: ptrash q') [] (incl_refl _))|]; exact (Hupd (ptrash q') [c0] (incl_refl _)).
    + apply (Hupd (match m with RBusy => c0 :: ptrash q' | _ => ptrash q' end) []).
      destruct m; [|apply incl_tl|]; apply incl_refl.
  - cbn [run_task]. destruct o.
    + destruct (connect s d) as [s1 c] eqn:Ec. destruct (connect_spec _ _ _ _ _ HD HK Ec) as (-> & _ & P).
      destruct (cc_down s1) eqn:Ed; [exact (Pending_close s1 _ P) | exact (Pending_set_cc s1 _ P Ed)].
    + destruct d; [apply Inv_cluster_shutdown; exact H0|].
      destruct (cc_down s); [exact H0|].
      destruct (sched_down (att s (nh s))); exact H0.
Qed.

Lemma Inv_fire s t o d : Inv s -> Inv (fire s t o d).
Proof.
  intros H0. pose proof H0 as (HD & HK). destruct t as [h [|]|[|]]; cbn [fire negb]; try exact H0; destruct o.
  - (* TRecon, Ok *) destruct (connect s d) as [s1 c] eqn:Ec. destruct (connect_spec _ _ _ _ _ HD HK Ec) as (-> & _ & P).
    exact (Pending_close s1 _ P).
  - (* TRecon, Err *) destruct (sched_down (att s 1)); exact H0.
  - (* TCtl, Ok *) destruct (connect s d) as [s1 c] eqn:Ec. destruct (connect_spec _ _ _ _ _ HD HK Ec) as (-> & _ & P).
    destruct (cc_down s1) eqn:Ed; [exact (Pending_close s1 _ P) | exact (Inv_close _ _ (Pending_set_cc s1 _ P Ed))].
  - (* TCtl, Err *) destruct d; [apply Inv_cluster_shutdown; exact H0|].
    destruct (sched_down (att s (nh s))); exact H0.
Qed.

Lemma Inv_step_nested s k j : Inv s -> Inv (fst (step s (ORunNested k j))).
Proof.
  intros H. pose proof H as (HD & HK). cbn [step].
  destruct (nth_error (queue s) k) as [[h i| |]|]; try exact H.
  set (s0 := set_queue s (remove_nth k (queue s))).
  destruct (nth_error (queue s0) j) as [[h' i'| |]|]; try exact H.
  destruct (negb (h <? nh s) || negb (h' <? nh s)) eqn:Er; [exact H|].
  apply orb_false_iff in Er as [Er1 Er2]. apply negb_false_iff, Nat.ltb_lt in Er1, Er2.
  (* no shutdown runs during the outer connect, so it computes; in s1 (connected, task j taken) D and KKd over the old
     domain hold as they stand, and connection nconn s is accounted for by the last install only *)
  cbn [connect fst]. set (s1 := set_queue _ _).
  destruct (add_pool_spec s1 _ h' i' false HD HK Er2) as (HD2 & H2 & Hn2 & Hh2).
  set (s2 := run_task s1 (KAddPool h' i') Ok false) in *.
  assert (Hr1 : h < nh s2) by (rewrite Hh2; exact Er1).
  split; [exact (D_install_pool _ _ _ HD2)|].
  unfold KK. destruct (quiet_install_pool s2 h (nconn s0)) as (-> & _). rewrite Hn2.
  refine (KKd_mono _ _ _ _ (KKd_install_pool s2 _ h (nconn s0) H2 Hr1)).
  cbn. intros x Hx. lia.
Qed.

Lemma Inv_step s o : Inv s -> Inv (fst (step s o)).
Proof.
  intros H. destruct o; cbn [step].
  - (* OPoolTask *) destruct (sess_down s); exact H.
  - (* OReplace *) destruct (pool s h) as [q|] eqn:Ep; [|exact H]. destruct (pconn q) as [c|] eqn:Epc; [|exact H].
    destruct (prepl q || pshut q) eqn:Eps; [exact H|]. apply orb_false_iff in Eps as [_ Esh].
    assert (H1 : Inv (upd_pool s h (Some (mkp (pid q) (Some c) (pshut q) true (ptrash q))))).
    { apply (Inv_upd _ [] H Ep Esh). unfold pl_conns; rewrite Epc. apply incl_refl. }
    destruct (sess_down s); exact H1.
  - (* OConnLost *) destruct (pool s h) as [q|] eqn:Ep; [|exact H]. destruct (pconn q) as [c|] eqn:Epc; [|exact H].
    destruct (pshut q) eqn:Esh; [exact H|].
    assert (H1 : Inv (close (upd_pool s h (Some (mkp (pid q) None false true (ptrash q)))) c)).
    { apply (Inv_upd _ [c] H Ep Esh). unfold pl_conns; rewrite Epc. apply incl_refl. }
    destruct (prepl q); [|destruct (sess_down s)]; exact H1.
  - (* OTrashDone *) destruct (pool s h) as [q|] eqn:Ep; [|exact H]. destruct (ptrash q) as [|c rest] eqn:Et; [exact H|].
    destruct (pshut q || existsb (Nat.eqb c) (closed s)) eqn:Eg; [exact H|]. apply orb_false_iff in Eg as [Esh _].
    apply (Inv_upd _ [c] H Ep Esh). unfold pl_conns; rewrite Et; cbn [pconn ptrash app]. intros x Hx.
    apply in_app_or in Hx as [Hx | [<- | Hx]]; [right | left; reflexivity | right]; apply in_or_app; auto.
  - (* OCCReconnect *) destruct (cc_down s || cl_down s); exact H.
  - (* OStartRecon *) destruct (sched_down s); exact H.
  - destruct (nth_error (queue s) k) as [t|]; [|exact H]. apply Inv_run_task. exact H.
  - destruct (sched_down s); [exact H|].
    destruct (nth_error (timers s) k) as [t|]; [|exact H]. apply Inv_fire. exact H.
  - apply Inv_step_nested, H.
  - exact (Inv_cluster_shutdown s H).
  - exact (Inv_session_shutdown s H).
  - (* OSubmit *) exact H.
  - (* ORequest *) exact H.
Qed.

Lemma KK_init n : KK (init n).
Proof.
  split; [|split; [|split]]; try discriminate.
  - intros c Hc. change (c < S n) in Hc. destruct c as [|c]; [right; left; reflexivity|].
    right; right. exists c. unfold init; cbn [pool]. rewrite (proj2 (Nat.ltb_lt c n)) by lia. left. reflexivity.
  - intros h Hh. unfold init; cbn [pool]. rewrite (proj2 (Nat.ltb_ge h n) Hh). reflexivity.
Qed.

Lemma Inv_run os s : Inv s -> Inv (run s os).
Proof. exact (fold_left_inv _ Inv Inv_step os s). Qed.

Lemma Inv_reachable n os : Inv (run (init n) os).
Proof. exact (Inv_run os _ (conj (D_init n) (KK_init n))). Qed.

Lemma D_reachable n os : D (run (init n) os).
Proof. exact (proj1 (Inv_reachable n os)). Qed.

Lemma KK_reachable n os : KK (run (init n) os).
Proof. exact (proj2 (Inv_reachable n os)). Qed.

Lemma session_closed_when_down s : KK s -> sess_down s = true ->
  forall c, c < nconn s -> In c (closed s) \/ cc_conn s = Some c.
Proof.
  intros (A & _ & C & _) Hs c Hlt. destruct (A c Hlt) as [H | [H | [h H]]]; auto.
  destruct (pool s h) as [q|] eqn:Ep; [|destruct H]. destruct (C Hs h q Ep) as [_ E]. cbn in H. rewrite E in H. destruct H.
Qed.

Lemma all_closed_when_down s : KK s -> sess_down s = true -> cc_down s = true ->
  forall c, c < nconn s -> In c (closed s).
Proof.
  intros H Hs Hc c Hlt. destruct (session_closed_when_down s H Hs c Hlt) as [Hin | E]; [exact Hin|].
  destruct H as (_ & B & _). rewrite (B Hc) in E. discriminate.
Qed.

Lemma all_below_in l n : (forall c, c < n -> In c l) -> forallb (fun c => existsb (Nat.eqb c) l) (seq 0 n) = true.
Proof.
  intros H. apply forallb_forall. intros c Hin. apply in_seq in Hin. apply (existsb_In Nat.eqb Nat.eqb_eq), H. lia.
Qed.

Lemma D_cc_shutdown s : D s -> D (cc_shutdown s).
Proof.
  intros H. injection (flags_cc_shutdown s) as E1 E2 E3 E4. unfold D. rewrite E1, E2, E3, E4.
  intros Hc. destruct (H Hc) as (A & _ & C). auto.
Qed.

Lemma KKn_close_opt s n o : KKn s n -> KKn (close_opt s o) n.
Proof.
  intros H. destruct o as [c|]; [|exact H]. exact (KKd_mono _ _ _ (fun x Hx => or_introl Hx) (KKd_close s _ c H)).
Qed.

Lemma opl_conns_shut o : opl_conns (shut_pool o) = [].
Proof. destruct o; reflexivity. Qed.
