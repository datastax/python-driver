(* [reads p w x]: if the writer w does not raise, the specification's parser p, given w's bytes followed by anything,
   returns x and leaves what followed.  rt_n is the round trip of the wire notation or field n. *)
From Coq Require Import ZArith List Bool Lia ZifyBool.
From Verif Require Import PyBase ReqPV ReqConsts ReqWire Request ProtocolSpec ReqCanon ListFacts.
From Verif Require JavaBigInteger BytesBE Bits64.
Import ListNotations.
Local Open Scope Z_scope.

Lemma cat_Some : forall a b bs, a +++ b = Some bs -> exists x y, a = Some x /\ b = Some y /\ bs = x ++ y.
Proof. intros [x|] [y|] bs H; try discriminate. injection H as <-. eauto. Qed.

Lemma cat_assoc : forall a b c, (a +++ b) +++ c = a +++ b +++ c.
Proof. intros [x|] [y|] [z|]; cbn; try reflexivity. rewrite app_assoc. reflexivity. Qed.

Lemma cat_nil_l : forall a, wnil +++ a = a.
Proof. destruct a; reflexivity. Qed.

Lemma cat_None_r : forall a, a +++ None = None.
Proof. destruct a; reflexivity. Qed.

Definition reads {A} (p : parser A) (w : W) (x : A) : Prop :=
  forall bs rest, w = Some bs -> p (bs ++ rest) = Some (x, rest).

Lemma reads_None : forall {A} (p : parser A) x, reads p None x.
Proof. intros A p x bs rest H. discriminate H. Qed.

Lemma reads_ret : forall {A} (a : A), reads (ret a) wnil a.
Proof. intros A a bs rest H. injection H as <-. reflexivity. Qed.

Lemma reads_bind : forall {A B} (p : parser A) (f : A -> parser B) w w' a b,
  reads p w a -> reads (f a) w' b -> reads (bind p f) (w +++ w') b.
Proof.
  intros A B p f w w' a b Hp Hf bs rest H. apply cat_Some in H. destruct H as (x & y & Hx & Hy & ->).
  rewrite <- app_assoc. unfold bind. rewrite (Hp _ _ Hx). exact (Hf _ _ Hy).
Qed.

(* the writer's last piece: what is left of the reader consumes nothing *)
Lemma reads_last : forall {A B} (p : parser A) (f : A -> parser B) w a b,
  reads p w a -> reads (f a) wnil b -> reads (bind p f) w b.
Proof. intros A B p f w a b Hp Hf bs rest H. unfold bind. rewrite (Hp _ _ H). exact (Hf [] rest eq_refl). Qed.

(* a field whose flag is not set: nothing was written, the parser goes on with None (p_if false p is ret None) *)
Lemma reads_absent : forall {A B} (p : parser A) (f : option A -> parser B) w b,
  reads (f None) w b -> reads (bind (p_if false p) f) w b.
Proof. intros A B p f w b H. exact H. Qed.

Lemma reads_guard : forall {A} (p : parser A) (c : bool) w x, (c = false -> reads p w x) -> reads p (if c then None else w) x.
Proof. intros A p [] w x H; [apply reads_None|exact (H eq_refl)]. Qed.

Create HintDb req.
#[export] Hint Resolve reads_ret : req.

(* the first parser of the reader reads what the first writer wrote: shown by t, or by a lemma of the hint database req *)
Ltac field_by t :=
  lazymatch goal with
  | |- reads (bind _ _) (_ +++ _) _ => eapply reads_bind
  | |- reads (bind _ _) _ _ => eapply reads_last
  end; [t|cbv beta iota].
Ltac field := field_by ltac:(solve [eauto with req nocore]).
Ltac fields := repeat field; eauto with req nocore.

(* the request writer's digits are Java's big-endian bytes, and be_value is be_unsigned by conversion: BytesBE knows the rest *)
Lemma be_bytes_java : forall n z, be_bytes n z = JavaBigInteger.be_bytes n z.
Proof. induction n as [|n IH]; intros z; [reflexivity|]. rewrite BytesBE.be_bytes_snoc, BytesBE.shiftr_8, <- IH. reflexivity. Qed.

Lemma be_bytes_length : forall n z, length (be_bytes n z) = n.
Proof. intros. rewrite be_bytes_java. apply BytesBE.be_bytes_length. Qed.

Lemma be_value_be_bytes : forall n z, be_value (be_bytes n z) = z mod 256 ^ Z.of_nat n.
Proof. intros. rewrite be_bytes_java, <- BytesBE.pow256. apply BytesBE.be_unsigned_be_bytes. Qed.

Lemma take_app : forall l rest, take (length l) (l ++ rest) = Some (l, rest).
Proof. induction l; intros; cbn; [reflexivity|]. rewrite IHl. reflexivity. Qed.

Lemma p_uint_be : forall n z rest, p_uint n (be_bytes n z ++ rest) = Some (z mod 256 ^ Z.of_nat n, rest).
Proof.
  intros. unfold p_uint, bind. rewrite <- (be_bytes_length n z) at 1. rewrite take_app.
  rewrite be_value_be_bytes. reflexivity.
Qed.

Lemma rt_pack_u : forall n z, reads (p_uint n) (pack_u n z) z.
Proof.
  intros n z bs rest H. unfold pack_u in H.
  destruct ((0 <=? z) && (z <? 256 ^ Z.of_nat n)) eqn:E; [|discriminate]. injection H as <-.
  rewrite p_uint_be, Z.mod_small by lia. reflexivity.
Qed.

Lemma rt_pack_s : forall n z, reads (p_sint (S n)) (pack_s (S n) z) z.
Proof.
  (* p_sint n takes the signed reading of the n bytes: Bits64.twos (8n), with 256^n / 2 for 2^(8n-1) *)
  intros n z bs rest H. unfold pack_s in H.
  assert (HM : 256 ^ Z.of_nat (S n) / 2 = 2 ^ (8 * Z.of_nat (S n) - 1)).
  { rewrite <- BytesBE.pow256, (Bits64.pow2_half (8 * Z.of_nat (S n))), Z.mul_comm by lia. apply Z.div_mul. lia. }
  destruct (_ && _) eqn:E in H; [|discriminate]. injection H as <-.
  unfold p_sint, bind. rewrite (p_uint_be (S n) z), HM, <- BytesBE.pow256. unfold ret. f_equal. f_equal.
  apply (Bits64.twos_mod (8 * Z.of_nat (S n))); lia.
Qed.

(* the BATCH flags from v5 on: written by write_int, read unsigned *)
Lemma rt_pack_s_as_u : forall n z, 0 <= z -> reads (p_uint n) (pack_s n z) z.
Proof.
  intros n z Hz bs rest H. unfold pack_s in H.
  destruct ((- (256 ^ Z.of_nat n / 2) <=? z) && (z <? 256 ^ Z.of_nat n / 2)) eqn:E; [|discriminate]. injection H as <-.
  rewrite p_uint_be, Z.mod_small; [reflexivity|].
  Z.to_euclidean_division_equations. lia.
Qed.
#[export] Hint Resolve rt_pack_u rt_pack_s : req.

Lemma len_ltb0 : forall {A} (l : list A), (len l <? 0) = false.
Proof. unfold len. lia. Qed.

Lemma rt_raw : forall s : list Z, reads (p_take (len s)) (raw s) s.
Proof. intros s bs rest H. injection H as <-. unfold p_take, len. rewrite Nat2Z.id. apply take_app. Qed.
#[export] Hint Resolve rt_raw : req.

Lemma rt_string : forall s, reads p_string (write_string s) s.
Proof. intros s. unfold p_string, write_string. fields. Qed.

Lemma rt_longstring : forall s, reads p_longstring (write_longstring s) s.
Proof.
  intros s. unfold p_longstring, write_longstring. field.
  rewrite len_ltb0. fields.
Qed.

Lemma rt_longstring_bytes : forall s, reads p_bytes (write_longstring s) (Some s).
Proof.
  intros s. unfold p_bytes, write_longstring. field.
  rewrite len_ltb0. fields.
Qed.
#[export] Hint Resolve rt_string rt_longstring rt_longstring_bytes : req.

Lemma rt_paging_state : forall s, reads p_paging_state (write_longstring s) s.
Proof. intros s. unfold p_paging_state. fields. Qed.

Lemma rt_bytes_opt : forall v, reads p_bytes (write_bytes_opt v) v.
Proof. intros [s|]; [apply rt_longstring_bytes|]. unfold p_bytes. field. apply reads_ret. Qed.

Lemma rt_value : forall pv v, (4 <=? pv) || match v with VUnset => false | _ => true end = true ->
  reads (p_value pv) (write_value v) (cv v).
Proof.
  intros pv v Hok. unfold p_value. destruct v as [| |b]; cbn [write_value]; field.
  - (* VNull *) destruct (pv <? 4); apply reads_ret.
  - (* VUnset *) destruct (Z.ltb_spec pv 4); [lia|]. apply reads_ret.
  - (* VBytes *) rewrite Z.leb_antisym, len_ltb0. cbn [negb]. fields.
Qed.

Lemma rt_seq : forall {A B} (w : A -> W) (p : parser B) (f : A -> B) l,
  Forall (fun x => reads p (w x) (f x)) l -> reads (p_count (length l) p) (write_seq w l) (map f l).
Proof.
  intros A B w p f l H. induction H as [|x l Hx _ IH]; [apply reads_ret|].
  cbn [length p_count]. change (write_seq w (x :: l)) with (w x +++ write_seq w l).
  field_by ltac:(exact Hx). field_by ltac:(exact IH). apply reads_ret.
Qed.

Lemma rt_list : forall {A B} (w : A -> W) (p : parser B) (f : A -> B) l,
  Forall (fun x => reads p (w x) (f x)) l -> reads (p_list p) (write_short (len l) +++ write_seq w l) (map f l).
Proof. intros. unfold p_list. field. unfold len. rewrite Nat2Z.id. apply rt_seq. assumption. Qed.

Lemma rt_list_id : forall {A} (w : A -> W) (p : parser A) l,
  (forall x, reads p (w x) x) -> reads (p_list p) (write_short (len l) +++ write_seq w l) l.
Proof. intros A w p l H. rewrite <- (map_id l) at 3. apply rt_list, Forall_forall. intros x _. apply H. Qed.

Lemma rt_pair : forall {A B} (pa : parser A) (pb : parser B) wa wb a b,
  reads pa wa a -> reads pb wb b -> reads (p_pair pa pb) (wa +++ wb) (a, b).
Proof. intros. unfold p_pair. fields. Qed.

Lemma rt_stringmap : forall m, reads p_stringmap (write_stringmap m) m.
Proof. intros m. apply rt_list_id. intros [k v]. apply rt_pair; apply rt_string. Qed.

Lemma rt_bytesmap : forall m, reads p_bytesmap (write_bytesmap m) m.
Proof. intros m. apply rt_list_id. intros [k v]. apply rt_pair; [apply rt_string|apply rt_bytes_opt]. Qed.

Lemma rt_stringlist : forall l, reads p_stringlist (write_stringlist l) l.
Proof. intros l. apply rt_list_id. apply rt_string. Qed.

Lemma rt_values : forall pv l, values_ok pv l = true -> reads (p_list (p_value pv)) (write_values l) (map cv l).
Proof.
  intros pv l Hok. apply rt_list, Forall_forall. intros v Hin. apply rt_value. unfold values_ok in Hok.
  destruct (4 <=? pv); [reflexivity|exact (proj1 (forallb_forall _ _) Hok v Hin)].
Qed.
#[export] Hint Resolve rt_stringmap rt_stringlist rt_values : req.

Lemma is_some_false : forall {A} (o : option A), is_some o = false -> o = None.
Proof. destruct o; cbn; congruence. Qed.

(* rt_opt, rt_opt_id: a field written when present and read when its flag is_some o is set;
   rt_if: one whose presence depends on the version alone *)
Lemma rt_opt : forall {A B} (w : A -> W) (p : parser B) (f : A -> B) (o : option A),
  (forall x, o = Some x -> reads p (w x) (f x)) -> reads (p_if (is_some o) p) (w_opt o w) (option_map f o).
Proof. intros A B w p f [x|] H; cbn [is_some p_if]; [specialize (H x eq_refl)|]; fields. Qed.

Lemma rt_opt_id : forall {A} (w : A -> W) (p : parser A) (o : option A),
  (forall x, reads p (w x) x) -> reads (p_if (is_some o) p) (w_opt o w) o.
Proof. intros A w p [x|] H; cbn [is_some p_if]; fields. Qed.
#[export] Hint Resolve rt_opt_id : req.

(* a field the version may not have: the writer has refused it where it has not *)
Lemma rt_opt_if : forall {A} (w : A -> W) (p : parser A) (o : option A) (c : bool),
  is_some o && negb c = false -> (forall x, reads p (w x) x) ->
  reads (p_if (is_some o) p) (if c then w_opt o w else wnil) o.
Proof.
  intros A w p o [] G H; [apply rt_opt_id, H|]. rewrite andb_true_r in G. apply is_some_false in G. subst o. apply reads_ret.
Qed.

Lemma rt_if : forall {A} (p : parser A) (c : bool) w x,
  reads p w x -> reads (p_if c p) (if c then w else wnil) (if c then Some x else None).
Proof. intros A p [] w x H; cbn [p_if]; fields. Qed.

Lemma supported_cases : forall pv, supported pv = true ->
  pv = 1 \/ pv = 2 \/ pv = 3 \/ pv = 4 \/ pv = 5 \/ pv = 6 \/ pv = 65 \/ pv = 66.
Proof. intros pv H. unfold supported in H. repeat (apply orb_prop in H; destruct H as [H|H]); apply Z.eqb_eq in H; lia. Qed.

Ltac all_versions Hs :=
  apply supported_cases in Hs; destruct Hs as [->|[->|[->|[->|[->|[->|[->| ->]]]]]]].

Lemma supported_known : forall pv, supported pv = true -> 1 <= pv /\ known_version pv = true.
Proof. intros pv Hs. all_versions Hs; split; reflexivity || discriminate. Qed.
Lemma int_flags_eq : forall pv, supported pv = true -> int_flags pv = pv_uses_int_query_flags pv.
Proof. intros pv Hs. all_versions Hs; reflexivity. Qed.
Lemma v5_features_eq : forall pv, supported pv = true -> v5_features pv = pv_uses_keyspace_flag pv.
Proof. intros pv Hs. all_versions Hs; reflexivity. Qed.
Lemma next_pages_eq : forall pv, supported pv = true -> (pv =? 66) = pv_has_continuous_paging_next_pages pv.
Proof. intros pv Hs. all_versions Hs; reflexivity. Qed.
Lemma checksumming_eq : forall pv, supported pv = true -> (pv =? 5) || (pv =? 6) = pv_has_checksumming_support pv.
Proof. intros pv Hs. all_versions Hs; reflexivity. Qed.
(* three names for one predicate on the driver's side: the generated bodies (Gen/ReqPV.v) are the same *)
Lemma prepare_flags_eq : forall pv, pv_uses_prepare_flags pv = pv_uses_keyspace_flag pv.
Proof. reflexivity. Qed.

Lemma only_bits_lor : forall x y m, only_bits x m = true -> only_bits y m = true -> only_bits (Z.lor x y) m = true.
Proof.
  unfold only_bits. intros x y m Hx Hy. apply Z.eqb_eq in Hx, Hy. apply Z.eqb_eq.
  rewrite Z.land_lor_distr_l. congruence.
Qed.

Lemma only_bits_flag : forall (b : bool) c m, (b = true -> only_bits c m = true) -> only_bits (flag_if b c) m = true.
Proof. intros [] c m H; [exact (H eq_refl)|reflexivity]. Qed.

Lemma query_flags_fit : forall pv vals serial fetch pstate ts cpo cpo_bytes ks, supported pv = true -> pv <> 1 ->
  (3 <=? pv) || negb ts = true -> cpo && negb (pv_has_continuous_paging_support pv) = false ->
  (cpo_bytes = true -> cpo = true) -> ks && negb (pv_uses_keyspace_flag pv) = false ->
  only_bits (query_flags vals serial fetch pstate ts cpo cpo_bytes ks) (query_mask pv) = true.
Proof.
  intros pv vals serial fetch pstate ts cpo cpo_bytes ks Hs Hne Hts Hcpo Hbytes Hks. unfold query_flags.
  (* flag by flag: where it is set, the version has it (or the hypotheses are contradictory) and the mask holds its bit *)
  repeat apply only_bits_lor; apply only_bits_flag; intros ->; try rewrite (Hbytes eq_refl) in Hcpo;
    all_versions Hs; try reflexivity; try discriminate; congruence.
Qed.

Lemma batch_flags_fit : forall pv s t k, supported pv = true -> (pv >=? 3) = true ->
  k && negb (pv_uses_keyspace_flag pv) = false -> only_bits (batch_flags s t k) (batch_mask pv) = true.
Proof.
  intros pv s t k Hs H3 Hk. unfold batch_flags.
  repeat apply only_bits_lor; apply only_bits_flag; intros ->; all_versions Hs; try reflexivity; discriminate.
Qed.

Lemma bit_flag_if : forall (b : bool) c k, bit (flag_if b c) k = b && bit c k.
Proof. intros [] c k; [reflexivity|apply Z.testbit_0_l]. Qed.

(* eight flags make 256 combinations: by the bit formula; the smaller flag words below are enumerated *)
Lemma query_flags_bit : forall a b c d e f g h k,
  bit (query_flags a b c d e f g h) k
  = a && bit 1 k || b && bit 16 k || c && bit 4 k || d && bit 8 k || e && bit 32 k || f && bit 2147483648 k
    || g && bit 1073741824 k || h && bit 128 k.
Proof. intros. unfold query_flags. rewrite !Z.lor_spec, !bit_flag_if. reflexivity. Qed.

Lemma query_flags_bits : forall a b c d e f g h,
  let fl := query_flags a b c d e f g h in
  bit fl 0 = a /\ bit fl 4 = b /\ bit fl 2 = c /\ bit fl 3 = d /\ bit fl 5 = e /\ bit fl 31 = f /\ bit fl 30 = g /\
  bit fl 7 = h /\ bit fl 1 = false /\ bit fl 8 = false.
Proof.
  intros a b c d e f g h. cbv zeta. rewrite !query_flags_bit. cbn.
  rewrite !andb_false_r, !andb_true_r, !orb_false_r. repeat split.
Qed.

Lemma batch_flags_bits : forall s t k, let fl := batch_flags s t k in
  bit fl 4 = s /\ bit fl 5 = t /\ bit fl 7 = k /\ bit fl 8 = false /\ 0 <= fl.
Proof. destruct s, t, k; repeat split; apply Z.leb_le; reflexivity. Qed.

Lemma rt_cpo : forall pv o, supported pv = true -> reads (p_cpo pv) (write_paging_options pv o) (canon_cpo pv o).
Proof.
  intros pv o Hs. pose proof (next_pages_eq pv Hs) as Hn.
  unfold p_cpo, write_paging_options, canon_cpo. rewrite Hn. do 2 field.
  field_by ltac:(apply rt_if, rt_pack_s). apply reads_ret.
Qed.

Lemma rt_query_params : forall pv m, supported pv = true -> pv <> 1 ->
  ts_ok pv (q_timestamp m) = true -> match q_params m with Some l => values_ok pv l | None => true end = true ->
  reads (p_qparams pv) (write_query_params pv m) (canon_params pv m).
Proof.
  intros pv m Hs Hne Hts Hpo. destruct (supported_known pv Hs) as [H1 _]. pose proof (int_flags_eq pv Hs) as Hi.
  assert (H2 : (pv >=? 2) = true) by (clear -H1 Hne; lia).
  destruct m as [params cl serial fetch pstate ts skip cpo ks].
  unfold write_query_params, p_qparams.
  cbn [q_params q_cl q_serial q_fetch q_paging_state q_timestamp q_skip_meta q_cpo q_keyspace] in *.
  (* pv >= 2: the guards on serial consistency, page size and paging state never fire *)
  rewrite H2, Hi. rewrite !andb_false_r.
  apply reads_guard; intros Gc. apply reads_guard; intros Gk.
  assert (Hbytes : cpo_unit_bytes cpo = true -> is_some cpo = true) by (destruct cpo; [reflexivity|discriminate]).
  destruct (query_flags_bits (is_some params) (is_some (truthy_z serial)) (is_some (truthy_z fetch))
              (is_some (truthy_b pstate)) (is_some ts) (is_some cpo) (cpo_unit_bytes cpo) (is_some ks))
    as (B0 & B4 & B2 & B3 & B5 & B31 & B30 & B7 & B1 & B8).
  set (fl := query_flags _ _ _ _ _ _ _ _) in *.
  assert (Hfit : only_bits fl (query_mask pv) = true).
  { apply query_flags_fit; assumption. }
  field. field_by ltac:(destruct (pv_uses_int_query_flags pv); apply rt_pack_u).
  rewrite Hfit, B0, B4, B2, B3, B5, B31, B30, B7, B1, B8. cbn [negb].
  field_by ltac:(apply rt_opt; intros l ->; apply rt_values; exact Hpo).
  field. field_by ltac:(apply rt_opt_id, rt_paging_state). do 3 field.
  apply reads_absent. (* now_in_seconds: the driver never sends it *)
  field_by ltac:(apply rt_opt; intros o _; apply rt_cpo, Hs). apply reads_ret.
Qed.

(* v1 has no flags, options or paging: what the writer has not refused leaves only <consistency> and the values *)
Lemma canon_params_v1 : forall m,
  truthy_z (q_serial m) = None -> truthy_z (q_fetch m) = None -> truthy_b (q_paging_state m) = None ->
  q_cpo m = None -> q_keyspace m = None -> q_timestamp m = None ->
  canon_params 1 m = v1_params (q_cl m) (option_map (map cv) (q_params m)).
Proof. intros m E1 E2 E3 E4 E5 E6. unfold canon_params. rewrite E1, E2, E3, E4, E5, E6. reflexivity. Qed.

Definition body_ok (pv : Z) (r : request) : Prop := reads (p_body pv (opcode r)) (send_body pv r) (canon_request pv r).

(* a message body: the dispatch of p_body on the (literal) opcode is evaluated *)
Ltac open_body := unfold body_ok, p_body; cbn [opcode send_body canon_request session_ok] in *;
  unfold op_STARTUP, op_OPTIONS, op_AUTH_RESPONSE, op_CREDENTIALS, op_QUERY, op_PREPARE, op_EXECUTE, op_BATCH, op_REGISTER, op_REVISE_REQUEST;
  cbn [Z.eqb Pos.eqb].

Lemma body_auth : forall pv t, session_ok pv (AuthResponse t) = true ->
  body_ok pv (AuthResponse t).
Proof.
  intros pv t Hok. open_body.
  destruct (Z.ltb_spec pv 2); [lia|]. fields.
Qed.

Lemma body_credentials : forall pv l, supported pv = true ->
  body_ok pv (Credentials l).
Proof.
  intros pv l Hs. destruct (supported_known pv Hs) as [H1 _]. open_body.
  apply reads_guard; intros G. assert (E : (pv =? 1) = true) by lia. rewrite E.
  change (write_short (len l) +++ _) with (write_stringmap l). fields.
Qed.

Lemma body_revise : forall pv a b c, supported pv = true -> session_ok pv (Revise a b c) = true ->
  body_ok pv (Revise a b c).
Proof.
  intros pv a b c Hs Hok. pose proof (next_pages_eq pv Hs) as Hn.
  open_body. fold (is_dse pv) in Hok. rewrite Hok, Hn. cbn [negb].
  do 2 field. destruct (a =? 2).
  - apply reads_guard; intros _. apply reads_guard; intros Gv%negb_false_iff. rewrite Gv. fields.
  - apply reads_ret.
Qed.

Lemma body_query : forall pv q m, supported pv = true -> session_ok pv (Query q m) = true ->
  body_ok pv (Query q m).
Proof.
  intros pv q m Hs Hok. open_body.
  apply andb_prop in Hok. destruct Hok as [Hp Hts]. apply negb_true_iff, is_some_false in Hp. field.
  destruct (Z.eqb_spec pv 1) as [->|Hne].
  - apply orb_prop in Hts. destruct Hts as [Hts|Hts]; [discriminate|]. apply negb_true_iff, is_some_false in Hts.
    unfold write_query_params. rewrite !andb_true_r.
    apply reads_guard; intros Gserial%is_some_false. apply reads_guard; intros Gfetch%is_some_false.
    apply reads_guard; intros Gpstate%is_some_false. apply reads_guard; intros Gcpo%is_some_false.
    apply reads_guard; intros Gks%is_some_false.
    rewrite canon_params_v1 by assumption. rewrite Hp, Hts, Gserial, Gfetch, Gpstate, Gcpo, Gks. field. apply reads_ret.
  - field_by ltac:(apply rt_query_params; try assumption; rewrite Hp; reflexivity). apply reads_ret.
Qed.

Lemma rt_result_metadata_id : forall (c : bool) rm,
  reads (p_if c p_string) (if c then write_string_req rm else wnil) (if c then rm else None).
Proof. intros [] [s|]; cbn [write_string_req p_if]; try apply reads_None; fields. Qed.

Lemma body_execute : forall pv id rm m, supported pv = true -> session_ok pv (Execute id rm m) = true ->
  body_ok pv (Execute id rm m).
Proof.
  intros pv id rm m Hs Hok. pose proof (v5_features_eq pv Hs) as Hv. open_body.
  apply andb_prop in Hok. destruct Hok as [Hok Hks]. apply andb_prop in Hok. destruct Hok as [Hts Hp].
  apply negb_true_iff, is_some_false in Hks. field. unfold execute_write_query_params.
  destruct (Z.eqb_spec pv 1) as [->|Hne].
  - apply orb_prop in Hts. destruct Hts as [Hts|Hts]; [discriminate|]. apply negb_true_iff, is_some_false in Hts.
    change (pv_uses_prepared_metadata 1) with false. rewrite cat_nil_l.
    apply reads_guard; intros Gserial%is_some_false. apply reads_guard; intros [Gfetch%is_some_false Gpstate%is_some_false]%orb_false_elim.
    apply reads_guard; intros Gcpo%is_some_false. rewrite canon_params_v1 by assumption.
    destruct (q_params m) as [ps|]; [|apply reads_None]. fields.
  - rewrite Hv.
    field_by ltac:(apply rt_result_metadata_id).
    field_by ltac:(apply rt_query_params; assumption). apply reads_ret.
Qed.

Lemma prepare_flags_bits : forall b, let fl := flag_if b c_PREPARED_WITH_KEYSPACE_FLAG in bit fl 0 = b /\ only_bits fl 1 = true.
Proof. destruct b; split; reflexivity. Qed.

Lemma body_prepare : forall pv q ks, supported pv = true ->
  body_ok pv (Prepare q ks).
Proof.
  intros pv q ks Hs. pose proof (v5_features_eq pv Hs) as Hv. open_body.
  rewrite Hv, (prepare_flags_eq pv). apply reads_guard; intros G.
  destruct (prepare_flags_bits (is_some ks)) as [B0 Bm]. field.
  destruct (pv_uses_keyspace_flag pv).
  - field. rewrite Bm, B0. cbn [negb]. fields.
  - rewrite andb_true_r in G. apply is_some_false in G. subst ks. apply reads_ret.
Qed.

Lemma rt_bquery : forall pv q, match q with BQ _ _ ps => values_ok pv ps end = true -> reads (p_bquery pv) (write_bquery q) (canon_bquery q).
Proof.
  intros pv [[|] s ps] Hok; cbn [write_bquery]; unfold p_bquery; field; cbn [Z.eqb Pos.eqb].
  - (* BQ true *) rewrite <- (cat_assoc (write_short _)). change (write_short (len s) +++ raw s) with (write_string s). fields.
  - (* BQ false *) fields.
Qed.

Lemma body_batch : forall pv ty qs cl serial ts ks, supported pv = true ->
  session_ok pv (Batch ty qs cl serial ts ks) = true ->
  body_ok pv (Batch ty qs cl serial ts ks).
Proof.
  intros pv ty qs cl serial ts ks Hs Hok. pose proof (int_flags_eq pv Hs) as Hi. open_body.
  apply andb_prop in Hok. destruct Hok as [Hok Hqs]. apply andb_prop in Hok. destruct Hok as [Hv Hts].
  destruct (Z.ltb_spec pv 2) as [L|L]; [clear -L Hv; lia|]. field. rewrite <- (cat_assoc (write_short _)).
  assert (Rqs : Forall (fun q => reads (p_bquery pv) (write_bquery q) (canon_bquery q)) qs).
  { apply forallb_Forall in Hqs. revert Hqs. apply Forall_impl, rt_bquery. }
  field_by ltac:(apply rt_list, Rqs). field.
  destruct (Z.eqb_spec pv 2) as [->|N2].
  - apply reads_guard; intros G.
    apply orb_false_elim in G. destruct G as [G Gk]. apply orb_false_elim in G. destruct G as [Gs Gt].
    apply is_some_false in Gs, Gt, Gk. subst ts ks. rewrite Gs. apply reads_ret.
  - assert (H3 : (pv >=? 3) = true) by (clear -L N2; lia). rewrite H3, Hi. apply reads_guard; intros Gk.
    destruct (batch_flags_bits (is_some (truthy_z serial)) (is_some ts) (is_some ks)) as (B4 & B5 & B7 & B8 & B0).
    set (fl := batch_flags _ _ _) in *.
    field_by ltac:(destruct (pv_uses_int_query_flags pv); [apply rt_pack_s_as_u, B0|apply rt_pack_u]).
    rewrite (batch_flags_fit pv _ _ _ Hs H3 Gk : only_bits fl _ = true), B4, B5, B7, B8. cbn [negb].
    do 2 field.
    field_by ltac:(apply (rt_opt_if _ _ _ _ Gk), rt_string).
    apply reads_absent. (* now_in_seconds *) apply reads_ret.
Qed.

Theorem body_reads : forall pv r, supported pv = true -> session_ok pv r = true ->
  body_ok pv r.
Proof.
  intros pv r Hs Hok. destruct r as [c o| |t|l|q m|q ks|id rm m|ty qs cl serial ts ks|evs|op id next].
  - open_body. fields.
  - apply reads_ret.
  - apply body_auth; assumption.
  - apply body_credentials; assumption.
  - apply body_query; assumption.
  - apply body_prepare; assumption.
  - apply body_execute; assumption.
  - apply body_batch; assumption.
  - open_body. fields.
  - apply body_revise; assumption.
Qed.

(* what encode_message hands to the compressor: the custom payload, if any, then the message *)
Definition frame_body (pv : Z) (e : envelope) (r : request) : W :=
  (if negb (is_nil (e_payload e)) then write_bytesmap (e_payload e) else wnil) +++ send_body pv r.

Lemma payload_body_reads : forall pv e r, supported pv = true -> session_ok pv r = true ->
  reads (pl <- p_if (negb (is_nil (e_payload e))) p_bytesmap ;; r0 <- p_body pv (opcode r) ;; ret (pl, r0))
        (frame_body pv e r)
        (if negb (is_nil (e_payload e)) then Some (e_payload e) else None, canon_request pv r).
Proof.
  intros pv e r Hs Hok. unfold frame_body. field_by ltac:(apply rt_if, rt_bytesmap). field_by ltac:(apply body_reads; assumption). apply reads_ret.
Qed.

(* An empty body reads back, so the specification's parser accepts the empty input: only that of OPTIONS does; every other one,
   and the payload's, starts by reading at least a byte. *)
Lemma body_nonempty_spec : forall pv e r body, supported pv = true -> session_ok pv r = true ->
  frame_body pv e r = Some body ->
  negb (is_nil body) = body_nonempty e r.
Proof.
  intros pv e r body Hs Hok H. pose proof (payload_body_reads pv e r Hs Hok body [] H) as R.
  unfold frame_body in H. unfold body_nonempty. destruct body as [|b body].
  - destruct (negb (is_nil (e_payload e))); [discriminate R|].
    destruct r; try reflexivity; unfold p_body in R; cbn [opcode] in R;
      unfold op_STARTUP, op_AUTH_RESPONSE, op_CREDENTIALS, op_QUERY, op_PREPARE, op_EXECUTE, op_BATCH, op_REGISTER, op_REVISE_REQUEST in R;
      cbn [Z.eqb Pos.eqb] in R; repeat match type of R with context [if ?c then _ else _] => destruct c end; discriminate R.
  - destruct (negb (is_nil (e_payload e))); [reflexivity|]. destruct r; try reflexivity. discriminate H.
Qed.

Definition header_size (pv : Z) : nat := if pv <? 3 then 8%nat else 9%nat.

(* '>BBbB' and '>BBhB' differ in the width of the stream id only *)
Lemma write_header_eq : forall pv fl st op n,
  write_header pv fl st op n
  = write_byte pv +++ write_byte fl +++ pack_s (if pv <? 3 then 1 else 2) st +++ write_byte op +++ write_int n.
Proof.
  intros. unfold write_header. assert (E : (pv >=? 3) = negb (pv <? 3)) by lia. rewrite E.
  destruct (pv <? 3); cbn [negb]; rewrite !cat_assoc; reflexivity.
Qed.

Lemma rt_header : forall pv fl st op n, supported pv = true -> (n <? 0) = false ->
  reads p_header (write_header pv fl st op n) {| h_version := pv; h_flags := fl; h_stream := st; h_opcode := op; h_length := n |}.
Proof.
  intros pv fl st op n Hs Hn. destruct (supported_known pv Hs) as [_ Hk]. rewrite write_header_eq. unfold p_header.
  field. rewrite Hk. cbn [negb]. field. field_by ltac:(destruct (pv <? 3); apply rt_pack_s). do 2 field.
  rewrite Hn. apply reads_ret.
Qed.

Lemma pack_bytes : forall n z x, pack_u n z = Some x \/ pack_s n z = Some x -> x = be_bytes n z.
Proof. unfold pack_u, pack_s. intros n z x [H|H]; destruct (_ && _); try discriminate; injection H as <-; reflexivity. Qed.

Lemma write_header_length : forall pv fl st op n hdr, write_header pv fl st op n = Some hdr -> length hdr = header_size pv.
Proof.
  intros pv fl st op n hdr H. rewrite write_header_eq in H. unfold header_size.
  repeat (apply cat_Some in H; destruct H as (? & ? & ?Hx & H & ->)). rewrite !app_length.
  (* each piece was written by pack_u or pack_s: it is be_bytes of its width *)
  repeat match goal with
         | Hx : _ = Some ?x |- _ =>
           first [rewrite (pack_bytes _ _ _ (or_introl Hx))|rewrite (pack_bytes _ _ _ (or_intror Hx))]; clear Hx
         end. rewrite !be_bytes_length. destruct (pv <? 3); reflexivity.
Qed.

Lemma frame_flags_bits : forall hp c t b,
  let fl := Z.lor (Z.lor (Z.lor (flag_if hp c_CUSTOM_PAYLOAD_FLAG) (flag_if c c_COMPRESSED_FLAG)) (flag_if t c_TRACING_FLAG))
                  (flag_if b c_USE_BETA_FLAG) in
  bit fl 0 = c /\ bit fl 1 = t /\ bit fl 2 = hp /\ bit fl 4 = b.
Proof. destruct hp, c, t, b; vm_compute; repeat split. Qed.

Theorem header_wellformed : forall pv compressor e r bs, supported pv = true ->
  encode_message pv compressor e r = Some bs ->
  exists h body, p_header bs = Some (h, body) /\ h_length h = len body /\ h_version h = pv /\ h_opcode h = opcode r
                 /\ length bs = (header_size pv + length body)%nat.
Proof.
  intros pv compressor e r bs Hs H. unfold encode_message in H. fold (frame_body pv e r) in H.
  destruct (negb (is_nil (e_payload e)) && (pv <? 4)); [discriminate|]. destruct (frame_body pv e r) as [body0|]; [|discriminate].
  apply cat_Some in H. destruct H as (hdr & body' & Hh & Hraw & ->). injection Hraw as Hraw. rewrite Hraw in Hh.
  eexists _, body'. split; [exact (rt_header _ _ _ _ _ Hs (len_ltb0 body') hdr body' Hh)|].
  repeat split. rewrite app_length, (write_header_length _ _ _ _ _ _ Hh). reflexivity.
Qed.

Lemma qparams_rejects : forall pv m, supported pv = true -> qmsg_unsupported pv m = true -> write_query_params pv m = None.
Proof.
  intros pv m Hs H. destruct (supported_known pv Hs) as [H1 _].
  unfold qmsg_unsupported, qmsg_unsupported_nk in H. unfold write_query_params.
  assert (E : negb (pv >=? 2) = (pv =? 1)) by (clear -H1; lia). rewrite E. revert H.
  destruct (is_some (q_keyspace m) && _), (is_some (q_cpo m) && _), (pv =? 1), (is_some (truthy_z (q_serial m))),
    (is_some (truthy_z (q_fetch m))), (is_some (truthy_b (q_paging_state m))); intros H; try reflexivity; discriminate H.
Qed.

Lemma execute_rejects : forall pv m, supported pv = true -> qmsg_unsupported_nk pv m = true -> execute_write_query_params pv m = None.
Proof.
  intros pv m Hs H. unfold execute_write_query_params.
  destruct (Z.eqb_spec pv 1) as [->|_]; [|apply qparams_rejects; [assumption|unfold qmsg_unsupported; rewrite H; apply orb_true_r]].
  unfold qmsg_unsupported_nk in H.
  destruct (truthy_z (q_serial m)), (truthy_z (q_fetch m)), (truthy_b (q_paging_state m)), (q_cpo m);
  try discriminate H; reflexivity.
Qed.
