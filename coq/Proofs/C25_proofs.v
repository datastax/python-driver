(* Every step of Model/HostState.v keeps the invariant J (reconnector bookkeeping).  To the part of the state that J reads
   a handler does nothing (same_core), or replaces the handler registered on a host and cancels the old one (rebind), or
   takes a reconnector off a pending list and holds it until it schedules it again or lets it go (holding). *)
From Coq Require Import ZArith List Bool Arith Lia Permutation.
From Verif Require Import ListFacts HostState.
Import ListNotations.

(* pending reconnectors: scheduled, or with a connection attempt in flight *)
Definition pend (s : st) : list nat := timers s ++ probes s.

Definition J (s : st) : Prop :=
  NoDup (pend s) /\
  (forall r, In r (pend s) -> r < nrecs s) /\
  (forall r, In r (pend s) -> rcanc (recs s r) = false -> reg (hosts s (rhost (recs s r))) = Some r) /\
  (forall h r, reg (hosts s h) = Some r -> r < nrecs s) /\
  (forall h, present (hosts s h) = 2 -> reg (hosts s h) = None).

(* s' differs from s only in parts J does not look at *)
Definition same_core (s s' : st) : Prop :=
  pend s' = pend s /\ nrecs s' = nrecs s /\ (forall r, recs s' r = recs s r) /\
  (forall h, reg (hosts s' h) = reg (hosts s h)) /\
  (forall h, present (hosts s' h) = 2 -> present (hosts s h) = 2).

Lemma same_core_refl s : same_core s s.
Proof. repeat split; auto. Qed.

Lemma same_core_trans a b c : same_core a b -> same_core b c -> same_core a c.
Proof.
  intros (A1 & A2 & A3 & A4 & A5) (B1 & B2 & B3 & B4 & B5). repeat split.
  - congruence. - congruence. - intros; rewrite B3; auto. - intros; rewrite B4; auto. - auto.
Qed.

Lemma same_core_recs s s' : same_core s s' -> forall r, recs s' r = recs s r.
Proof. intros H. apply H. Qed.
Lemma same_core_reg s s' : same_core s s' -> forall h, reg (hosts s' h) = reg (hosts s h).
Proof. intros H. apply H. Qed.

Lemma J_frame s s' : same_core s s' -> J s -> J s'.
Proof.
  intros (A1 & A2 & A3 & A4 & A5) (J1 & J2 & J3 & J4 & J5). repeat split.
  - rewrite A1; auto.
  - intros r Hr. rewrite A1 in Hr. rewrite A2. auto.
  - intros r Hr Hc. rewrite A1 in Hr. rewrite A3 in *. rewrite A4. auto.
  - intros h r Hr. rewrite A4 in Hr. rewrite A2. eauto.
  - intros h Hp. rewrite A4. auto.
Qed.

(* the sc_* lemmas read `same_core s a -> same_core s (op a ..)`, so that a composition is peeled from the outside *)
Lemma sc_equal_fields s a b : hosts b = hosts a -> recs b = recs a -> nrecs b = nrecs a -> timers b = timers a ->
  probes b = probes a -> same_core s a -> same_core s b.
Proof. unfold same_core, pend. intros -> -> -> -> ->. auto. Qed.

(* an edit of a host entry that J does not see: it keeps `reg` and does not mark the host removed *)
Definition safe (f : hst -> hst) : Prop := forall x, reg (f x) = reg x /\ (present (f x) = 2 -> present x = 2).

Lemma safe_up v : safe (h_up v). Proof. intros x; split; auto. Qed.
Lemma safe_handling v : safe (h_handling v). Proof. intros x; split; auto. Qed.
Lemma safe_comp f g : safe f -> safe g -> safe (fun x => f (g x)).
Proof. intros Hf Hg x. destruct (Hf (g x)), (Hg x). split; [congruence | auto]. Qed.
Lemma safe_add : safe (fun x => h_up 2 (h_present 1 x)).
Proof. intros x; split; auto. discriminate. Qed.

Lemma sc_updh s a h f : safe f -> same_core s a -> same_core s (updh a h f).
Proof.
  intros Hf Ha. apply (same_core_trans _ _ _ Ha). unfold same_core, updh; simpl. repeat split; auto.
  - intros x. destruct (x =? h); auto. apply Hf.
  - intros x. destruct (x =? h); auto. apply Hf.
Qed.

Lemma sc_enq s a ts : same_core s a -> same_core s (enq a ts). Proof. apply sc_equal_fields; reflexivity. Qed.
Lemma sc_emit s a n : same_core s a -> same_core s (emit a n). Proof. apply sc_equal_fields; reflexivity. Qed.
Lemma sc_set_gfail s a q : same_core s a -> same_core s (set_gfail a q). Proof. apply sc_equal_fields; reflexivity. Qed.
Lemma sc_set_nextg s a q : same_core s a -> same_core s (set_nextg a q). Proof. apply sc_equal_fields; reflexivity. Qed.
Lemma sc_set_order s a q : same_core s a -> same_core s (set_order a q). Proof. apply sc_equal_fields; reflexivity. Qed.
Lemma sc_remove_pools s a h cb : same_core s a -> same_core s (remove_pools a h cb).
Proof. apply sc_equal_fields; reflexivity. Qed.
Lemma sc_ucp_one s a sid : same_core s a -> same_core s (ucp_one a sid).
Proof. apply sc_equal_fields; reflexivity. Qed.

Lemma sc_add_pools s a h i g : same_core s a -> same_core s (add_pools a h i g).
Proof. intros Ha. unfold add_pools. destruct (ignd a h); [exact Ha | apply sc_enq, Ha]. Qed.

Lemma sc_ucp_all s a : same_core s a -> same_core s (ucp_all a).
Proof. apply (fold_left_inv ucp_one (same_core s)). intros b sid. apply sc_ucp_one. Qed.

Lemma sc_finalize_add s a h b : same_core s a -> same_core s (finalize_add a h b).
Proof.
  intros Ha. unfold finalize_add. apply sc_ucp_all, sc_emit.
  destruct b; [apply sc_updh; [apply safe_up | exact Ha] | exact Ha].
Qed.

Lemma sc_on_add s a h : same_core s a -> same_core s (on_add a h).
Proof.
  intros Ha. unfold on_add. destruct (ignd _ h); [apply sc_finalize_add, sc_emit, Ha|].
  destruct (has_futures _ h); [| apply sc_finalize_add]; apply sc_set_nextg, sc_add_pools, sc_emit, Ha.
Qed.

Lemma J_updr s r f : (forall c, rhost (f c) = rhost c /\ (rcanc (f c) = false -> rcanc c = false)) -> J s -> J (updr s r f).
Proof.
  intros Hf (J1 & J2 & J3 & J4 & J5). unfold updr. split; [|split; [|split; [|split]]]; simpl; auto.
  intros x Hx Hc. destruct (x =? r) eqn:E; auto.
  apply Nat.eqb_eq in E; subst. destruct (Hf (recs s r)) as [F1 F2]. rewrite F1. auto.
Qed.

Lemma J_cancel_opt s o : J s -> J (cancel_opt s o).
Proof. destruct o; auto. apply J_updr. split; [reflexivity | discriminate]. Qed.

Definition live (s : st) (r : nat) : Prop := In r (pend s) /\ rcanc (recs s r) = false.

(* the handler registered on host h, if any, is not live: by the third clause of J no live reconnector refers to h,
   so the registration of h may change *)
Definition idle (s : st) (h : nat) : Prop := forall r, reg (hosts s h) = Some r -> ~ live s r.

Lemma idle_frame s s' h : same_core s s' -> idle s h -> idle s' h.
Proof.
  intros (A1 & A2 & A3 & A4 & A5) Hi r Hr [Hin Hc]. rewrite A4 in Hr. rewrite A1 in Hin. rewrite A3 in Hc.
  exact (Hi r Hr (conj Hin Hc)).
Qed.

Lemma J_updh_idle s h f : J s -> idle s h ->
  (forall r, reg (f (hosts s h)) = Some r -> r < nrecs s) ->
  (present (f (hosts s h)) = 2 -> reg (f (hosts s h)) = None) -> J (updh s h f).
Proof.
  intros (J1 & J2 & J3 & J4 & J5) Hi Hlt Hp. unfold updh. split; [|split; [|split; [|split]]]; simpl; auto.
  - intros r Hr Hc. destruct (rhost (recs s r) =? h) eqn:E; auto.
    apply Nat.eqb_eq in E. destruct (Hi r); [rewrite <- E; auto | split; auto].
  - intros x r. destruct (x =? h) eqn:E; [apply Nat.eqb_eq in E; subst x|]; eauto.
  - intros x. destruct (x =? h) eqn:E; [apply Nat.eqb_eq in E; subst x|]; auto.
Qed.

Lemma idle_cancel_reg s h : idle (cancel_opt s (reg (hosts s h))) h.
Proof.
  intros r Hr [_ Hc]. destruct (reg (hosts s h)) as [r0|] eqn:E; simpl in *; [| congruence].
  rewrite E in Hr. injection Hr as <-. rewrite Nat.eqb_refl in Hc. discriminate.
Qed.

(* old = host.get_and_set_reconnection_handler(new); old.cancel() -- g writes the new handler (and possibly other
   fields) into the host entry *)
Definition rebind (s : st) (h : nat) (g : hst -> hst) : st := cancel_opt (updh s h g) (reg (hosts s h)).

Lemma rebind_updh s h g : rebind s h g = updh (cancel_opt s (reg (hosts s h))) h g.
Proof.
  (* here and in the next two proofs: `hosts (cancel_opt s o)` reduces to `hosts s` only once o is a constructor *)
  unfold rebind. destruct (reg (hosts s h)); reflexivity.
Qed.

Lemma J_rebind s h g : J s -> (forall r, reg (g (hosts s h)) = Some r -> r < nrecs s) ->
  (present (g (hosts s h)) = 2 -> reg (g (hosts s h)) = None) -> J (rebind s h g).
Proof.
  intros HJ Hlt Hp. rewrite rebind_updh.
  apply J_updh_idle; [apply J_cancel_opt, HJ | apply idle_cancel_reg | |]; destruct (reg (hosts s h)); assumption.
Qed.

Lemma rebind_reg s h g : reg (hosts (rebind s h g) h) = reg (g (hosts s h)).
Proof. rewrite rebind_updh. unfold updh; simpl. rewrite Nat.eqb_refl. destruct (reg (hosts s h)); reflexivity. Qed.

Lemma rebind_cancels s h g r : reg (hosts s h) = Some r -> rcanc (recs (rebind s h g) r) = true.
Proof. intros Hr. unfold rebind. rewrite Hr. simpl. rewrite Nat.eqb_refl. reflexivity. Qed.

Lemma on_up_core s h : handling (hosts s h) = false -> up (hosts s h) <> 1 ->
  same_core (rebind s h (fun x => h_reg None (h_handling true x))) (on_up s h).
Proof.
  intros Hh Hu. apply Nat.eqb_neq in Hu. unfold on_up. rewrite Hh, Hu.
  destruct (has_futures _ h); [| apply sc_emit, sc_updh; [apply safe_comp; [apply safe_handling | apply safe_up]|]];
    apply sc_set_nextg, sc_add_pools, sc_emit, sc_remove_pools, same_core_refl.
Qed.

Lemma on_up_cases s h :
  on_up s h = s \/ same_core (rebind s h (fun x => h_reg None (h_handling true x))) (on_up s h).
Proof.
  destruct (handling (hosts s h)) eqn:Hh; [left; unfold on_up; rewrite Hh; reflexivity|].
  destruct (up (hosts s h) =? 1) eqn:Hu; [left; unfold on_up; rewrite Hh, Hu; reflexivity|].
  right. apply on_up_core; [exact Hh | apply Nat.eqb_neq, Hu].
Qed.

Lemma J_on_up s h : J s -> J (on_up s h).
Proof.
  intros HJ. destruct (on_up_cases s h) as [-> | Hc]; [exact HJ|].
  apply (J_frame _ _ Hc), J_rebind; [exact HJ | discriminate | reflexivity].
Qed.

Lemma idle_on_up s h : idle s h -> idle (on_up s h) h.
Proof.
  intros Hi. destruct (on_up_cases s h) as [-> | Hc]; [exact Hi|].
  intros r. rewrite (same_core_reg _ _ Hc), rebind_reg. discriminate.
Qed.

Lemma on_remove_core s h :
  same_core (rebind s h (fun x => h_reg None (h_up 0 (h_present 2 x)))) (on_remove s h).
Proof.
  unfold on_remove, rebind, same_core, pend. simpl. rewrite Nat.eqb_refl. simpl.
  destruct (reg (hosts s h)); simpl; repeat split; auto; intros x; destruct (x =? h); auto.
Qed.

Lemma J_on_remove s h : J s -> J (on_remove s h).
Proof. intros HJ. apply (J_frame _ _ (on_remove_core s h)), J_rebind; [exact HJ | discriminate | reflexivity]. Qed.

Lemma J_perm s s' : Permutation (pend s) (pend s') -> hosts s' = hosts s -> recs s' = recs s -> nrecs s' = nrecs s ->
  J s -> J s'.
Proof.
  intros P Hh Hr Hn (J1 & J2 & J3 & J4 & J5). unfold J. rewrite Hh, Hr, Hn.
  pose proof (fun r => Permutation_in r (Permutation_sym P)) as Hin.
  repeat split; auto. exact (Permutation_NoDup P J1).
Qed.

(* A handler that has taken reconnector r off a list holds it until it schedules it again or lets it go: in between,
   J holds of the state with r put back. *)
Definition holding (r : nat) (s : st) : Prop := J (set_timers s (r :: timers s)).

Lemma remove_nth_perm {A} (k : nat) (l : list A) x : nth_error l k = Some x -> Permutation l (x :: remove_nth k l).
Proof.
  intros (a & b & -> & E)%remove_at_split. change (@remove_nth A) with (@remove_at A). rewrite E.
  apply Permutation_sym, Permutation_middle.
Qed.

Lemma J_pop_timer s k r : J s -> nth_error (timers s) k = Some r -> holding r (set_timers s (remove_nth k (timers s))).
Proof.
  intros HJ Hk. assert (P : Permutation (pend s) (r :: remove_nth k (timers s) ++ probes s))
    by apply (Permutation_app_tail (probes s) (remove_nth_perm k (timers s) r Hk)).
  apply (J_perm s); [exact P | reflexivity.. | exact HJ].
Qed.

Lemma J_pop_probe s j r : J s -> nth_error (probes s) j = Some r -> holding r (set_probes s (remove_nth j (probes s))).
Proof.
  intros HJ Hj. assert (P : Permutation (pend s) (r :: timers s ++ remove_nth j (probes s))).
  { apply perm_trans with (timers s ++ r :: remove_nth j (probes s));
      [apply Permutation_app_head, remove_nth_perm, Hj | apply Permutation_sym, Permutation_middle]. }
  apply (J_perm s); [exact P | reflexivity.. | exact HJ].
Qed.

Lemma J_schedule s r : holding r s -> J (set_timers s (timers s ++ [r])).
Proof.
  assert (P : Permutation (r :: timers s ++ probes s) ((timers s ++ [r]) ++ probes s))
    by apply (Permutation_app_tail (probes s) (Permutation_cons_append (timers s) r)).
  apply J_perm; [exact P | reflexivity..].
Qed.

Lemma J_probe_start s r : holding r s -> J (set_probes s (probes s ++ [r])).
Proof.
  assert (P : Permutation (r :: timers s ++ probes s) (timers s ++ probes s ++ [r]))
    by (rewrite app_assoc; apply Permutation_cons_append).
  apply J_perm; [exact P | reflexivity..].
Qed.

Lemma holding_iff s r : holding r s <->
  J s /\ ~ In r (pend s) /\ r < nrecs s /\ (rcanc (recs s r) = false -> reg (hosts s (rhost (recs s r))) = Some r).
Proof.
  unfold holding, J. change (pend (set_timers s (r :: timers s))) with (r :: pend s).
  rewrite NoDup_cons_iff. split.
  - intros ((N & J1) & J2 & J3 & J4 & J5).
    split; [| exact (conj N (conj (J2 r (in_eq _ _)) (J3 r (in_eq _ _))))].
    repeat split; auto; intros x Hx; [apply J2 | apply J3]; right; exact Hx.
  - intros ((J1 & J2 & J3 & J4 & J5) & N & B & R).
    repeat split; auto; intros x [<-|Hx]; [exact B | exact (J2 x Hx) | exact R | exact (J3 x Hx)].
Qed.

Lemma J_let_go s r : holding r s -> J s.
Proof. intros H. apply holding_iff in H. apply H. Qed.

Lemma J_alloc s c : J s -> J (set_nrecs (updr s (nrecs s) (fun _ => c)) (S (nrecs s))).
Proof.
  intros (J1 & J2 & J3 & J4 & J5). unfold updr. repeat split; simpl; auto.
  - intros x Hx. apply J2 in Hx. lia.
  - intros x Hx Hc. specialize (J2 x Hx). destruct (x =? nrecs s) eqn:E; [apply Nat.eqb_eq in E; lia | auto].
  - intros x y Hy. apply J4 in Hy. lia.
Qed.

Lemma rebind_fields s h g : pend (rebind s h g) = pend s /\ nrecs (rebind s h g) = nrecs s
  /\ forall r, rhost (recs (rebind s h g) r) = rhost (recs s r).
Proof. unfold rebind. destruct (reg (hosts s h)) as [r0|]; simpl; repeat split; auto. intros r. destruct (r =? r0); auto. Qed.

Lemma J_start s h a : J s -> J (start_reconnector s h a).
Proof.
  intros HJ. unfold start_reconnector. destruct (ignd s h); [exact HJ|].
  destruct (present (hosts s h) =? 1) eqn:Ep; [|exact HJ]. apply Nat.eqb_eq in Ep. cbv zeta.
  set (r := nrecs s). set (sa := set_nrecs _ (S r)). change (cancel_opt _ _) with (rebind sa h (h_reg (Some r))).
  destruct (rebind_fields sa h (h_reg (Some r))) as (Fp & Fn & Fh).
  apply J_schedule, holding_iff. split; [| split; [| split]].
  - apply J_rebind; [apply J_alloc, HJ | intros x [= <-]; simpl; lia | simpl; rewrite Ep; discriminate].
  - rewrite Fp. destruct HJ as (_ & J2 & _). intros Hin. apply J2 in Hin. unfold r in Hin. lia.
  - rewrite Fn. simpl. lia.
  - rewrite Fh. simpl. rewrite Nat.eqb_refl. intros _. apply rebind_reg.
Qed.

Lemma J_on_down_task s h a e : J s -> J (on_down_task s h a e).
Proof.
  intros HJ. unfold on_down_task.
  destruct (negb (ignd s h) && connected s h); auto.
  assert (H0 : same_core s (updh s h (h_up 0))) by (apply sc_updh; [apply safe_up | apply same_core_refl]).
  destruct (_ || _).
  - exact (J_frame _ _ H0 HJ).
  - apply J_start, (J_frame s); [| exact HJ]. apply sc_emit, sc_remove_pools, sc_emit, H0.
Qed.

Lemma J_cleanup s h : J s -> J (cleanup s h).
Proof.
  intros HJ. unfold cleanup. apply J_start, (J_frame s); [| exact HJ].
  apply sc_remove_pools, sc_emit, same_core_refl.
Qed.

Lemma J_grp_done s h g res : J s -> J (grp_done s h g res).
Proof.
  intros HJ. unfold grp_done. destruct g as [|n|n]; [exact HJ | |].
  all: set (s1 := if res then s else set_gfail s (n :: gfail s)).
  all: assert (H1 : same_core s s1) by (unfold s1; destruct res; [| apply sc_set_gfail]; apply same_core_refl).
  all: pose proof (J_frame _ _ H1 HJ) as HJ1.
  all: destruct (existsb _ (queue s1)); [exact HJ1|].
  all: destruct (gfailed s1 n).
  - (* GUp, a creation failed *) apply (J_frame (cleanup s1 h)); [| apply J_cleanup, HJ1].
    apply sc_updh; [apply safe_handling | apply same_core_refl].
  - (* GUp, all created *) apply (J_frame s1); [| exact HJ1].
    apply sc_ucp_all, sc_updh; [apply safe_handling|]. apply sc_emit, sc_updh; [apply safe_up | apply same_core_refl].
  - (* GAdd, a creation failed *) exact HJ1.
  - (* GAdd, all created *) apply (J_frame s1); [| exact HJ1]. apply sc_finalize_add, same_core_refl.
Qed.

Lemma J_run_task s t o : J s -> J (run_task s t o).
Proof.
  intros HJ. destruct t.
  - apply J_on_down_task; auto.
  - unfold run_addpool. destruct o; apply J_grp_done; exact HJ.
  - destruct cb; exact HJ.
Qed.

Lemma holding_idle s r : holding r s -> rcanc (recs s r) = false -> idle s (rhost (recs s r)).
Proof.
  intros (_ & N & _ & R)%holding_iff Ec r' Hr' [Hin _]. rewrite (R Ec) in Hr'. injection Hr' as <-. exact (N Hin).
Qed.

Lemma J_probe_finish s r o : holding r s -> J (probe_finish s r o).
Proof.
  intros HR. pose proof (J_let_go s r HR) as HJ. unfold probe_finish. destruct o.
  - destruct (rcanc (recs s r)) eqn:Ec; auto. pose proof (holding_idle s r HR Ec) as Hi.
    destruct (radd (recs s r)).
    + pose proof (sc_on_add s s (rhost (recs s r)) (same_core_refl s)) as Hc.
      apply J_updh_idle; [exact (J_frame _ _ Hc HJ) | exact (idle_frame _ _ _ Hc Hi) | discriminate | reflexivity].
    + apply J_updh_idle; [apply J_on_up, HJ | apply idle_on_up, Hi | discriminate | reflexivity].
  - destruct (rleft (recs s r)) as [[|n]|].
    + apply J_updr; auto.
    + apply (J_updr (set_timers s (timers s ++ [r]))); [auto | apply J_schedule, HR].
    + apply J_schedule, HR.
  - apply J_updr; auto.
Qed.

Lemma J_step_ s e : J s -> J (step_ s e).
Proof.
  intros HJ. destruct e as [h|h|h|h|h|k o|k o|k|j o|e0 b]; simpl.
  - (* EFail *) destruct (known s h); exact HJ.
  - (* EStatusDown *) destruct (known s h); exact HJ.
  - (* EStatusUp *) destruct (known s h); auto. apply J_on_up; auto.
  - (* EAdd *) destruct ((present (hosts s h) =? 0) && ((h <? neps s) || (present (hosts s (h - neps s)) =? 2))); auto.
    apply (J_frame s); auto. apply sc_on_add, sc_set_order, sc_updh; [apply safe_add | apply same_core_refl].
  - (* ERemove *) destruct (present (hosts s h) =? 1); auto. apply J_on_remove; auto.
  - (* EReconnect *) destruct (nth_error (timers s) k) as [r|] eqn:Ek; auto. pose proof (J_pop_timer s k r HJ Ek) as HR.
    unfold reconnect. destruct (rcanc _); [exact (J_let_go _ _ HR)|].
    apply J_probe_finish. exact (J_frame _ _ (sc_emit _ _ _ (same_core_refl _)) HR).
  - (* ERun *) destruct (nth_error (queue s) k); [apply J_run_task|]; exact HJ.
  - (* EProbeStart *) destruct (nth_error (timers s) k) as [r|] eqn:Ek; auto. pose proof (J_pop_timer s k r HJ Ek) as HR.
    unfold probe_start. destruct (rcanc _); [exact (J_let_go _ _ HR)|].
    exact (J_frame _ _ (sc_emit _ _ _ (same_core_refl _)) (J_probe_start _ _ HR)).
  - (* EProbeFinish *) destruct (nth_error (probes s) j) as [r|] eqn:Ek; auto. apply J_probe_finish, (J_pop_probe s j r HJ Ek).
  - (* ESetIgn *) exact HJ.
Qed.

Lemma J_step s e : J s -> J (fst (step s e)).
Proof. intros HJ. apply J_step_. (* J does not read `out` *) exact HJ. Qed.

Lemma J_run es s : J s -> J (run s es).
Proof. apply (fold_left_inv _ J), J_step. Qed.

Lemma J_init kinds ns sc : J (init kinds ns sc).
Proof.
  unfold init. repeat split; simpl.
  - constructor. - intros r []. - intros r [].
  - intros h r. unfold init_host. destruct (nth h kinds 0) as [|[|[|]]]; discriminate.
  - intros h. unfold init_host. destruct (nth h kinds 0) as [|[|[|]]]; auto.
Qed.

Lemma J_reachable kinds ns sc es : J (run (init kinds ns sc) es).
Proof. apply J_run, J_init. Qed.

Lemma live_is_registered s r : J s -> live s r -> reg (hosts s (rhost (recs s r))) = Some r.
Proof. intros (J1 & J2 & J3 & J4 & J5) [H1 C1]. auto. Qed.

Lemma at_most_one_live s r1 r2 : J s -> live s r1 -> live s r2 -> rhost (recs s r1) = rhost (recs s r2) -> r1 = r2.
Proof.
  intros HJ L1 L2 Hh. apply (live_is_registered s r1 HJ) in L1. apply (live_is_registered s r2 HJ) in L2. congruence.
Qed.

Lemma removed_no_reconnector s h : J s -> present (hosts s h) = 2 ->
  reg (hosts s h) = None /\ forall r, live s r -> rhost (recs s r) <> h.
Proof.
  intros HJ Hp. pose proof HJ as (J1 & J2 & J3 & J4 & J5). split; auto.
  intros r Hl Hh. pose proof (live_is_registered s r HJ Hl) as R. rewrite Hh, (J5 h Hp) in R. discriminate.
Qed.

Lemma removed_cancelled s r : J s -> In r (pend s) -> present (hosts s (rhost (recs s r))) = 2 -> rcanc (recs s r) = true.
Proof.
  intros HJ Hin Hp. destruct (rcanc (recs s r)) eqn:Ec; auto.
  destruct (removed_no_reconnector s _ HJ Hp) as [_ Hn]. destruct (Hn r); [split|]; auto.
Qed.

Lemma timer_pending s k r : nth_error (timers s) k = Some r -> In r (pend s).
Proof. intros H. apply in_or_app; left. exact (nth_error_In _ _ H). Qed.

Lemma probe_pending s j r : nth_error (probes s) j = Some r -> In r (pend s).
Proof. intros H. apply in_or_app; right. exact (nth_error_In _ _ H). Qed.

(* The timer of a removed host's reconnector does nothing when it fires (no connection attempt), as one step (EReconnect)
   or as the first half of two (EProbeStart); nor does the success of an attempt that was in flight when the host was
   removed (EProbeFinish): no on_up / on_add. *)
Lemma removed_fire_noop s k r o : J s -> nth_error (timers s) k = Some r -> present (hosts s (rhost (recs s r))) = 2 ->
  step_ s (EReconnect k o) = set_timers s (remove_nth k (timers s)).
Proof.
  intros HJ Hk Hp. simpl. rewrite Hk. unfold reconnect. simpl.
  rewrite (removed_cancelled s r HJ (timer_pending s k r Hk) Hp). reflexivity.
Qed.

Lemma removed_probe_start_noop s k r : J s -> nth_error (timers s) k = Some r -> present (hosts s (rhost (recs s r))) = 2 ->
  step_ s (EProbeStart k) = set_timers s (remove_nth k (timers s)).
Proof.
  intros HJ Hk Hp. simpl. rewrite Hk. unfold probe_start. simpl.
  rewrite (removed_cancelled s r HJ (timer_pending s k r Hk) Hp). reflexivity.
Qed.

Lemma removed_probe_finish_noop s j r : J s -> nth_error (probes s) j = Some r -> present (hosts s (rhost (recs s r))) = 2 ->
  step_ s (EProbeFinish j OOk) = set_probes s (remove_nth j (probes s)).
Proof.
  intros HJ Hj Hp. simpl. rewrite Hj. unfold probe_finish.
  rewrite (removed_cancelled s r HJ (probe_pending s j r Hj) Hp). reflexivity.
Qed.

Lemma removed_start_noop s h a : present (hosts s h) = 2 -> start_reconnector s h a = s.
Proof. intros Hp. unfold start_reconnector. rewrite Hp. destruct (ignd s h); auto. Qed.
