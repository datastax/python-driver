(* The fixed-width integers of the hand-written marshal model (MarshalModel.v): struct pack / unpack.  The model's digit
   lists are Java's big-endian bytes, so what is known of those (BytesBE.v) is carried over, not proved again.
   (is_byte here is CassandraSpecInt's, in BytesBE JavaBigInteger's: same body, identified by conversion.) *)
From Coq Require Import ZArith List Bool Lia ZifyBool.
From Verif Require Import PyBase MarshalModel CassandraSpecInt.
From Verif Require JavaBigInteger BytesBE Bits64.
Import ListNotations.
Local Open Scope Z_scope.

Lemma le_bytes_rev n u : le_bytes n u = rev (JavaBigInteger.be_bytes n u).
Proof.
  revert u. induction n as [|n IH]; intros u; [reflexivity|].
  cbn [le_bytes]. rewrite BytesBE.be_bytes_snoc, rev_app_distr. cbn [rev app]. rewrite IH, BytesBE.shiftr_8. reflexivity.
Qed.

Lemma be_bytes_java n u : be_bytes n u = JavaBigInteger.be_bytes n u.
Proof. unfold be_bytes. rewrite le_bytes_rev. apply rev_involutive. Qed.

Lemma be_val_unsigned bs : be_val bs = JavaBigInteger.be_unsigned bs.
Proof.
  unfold be_val, JavaBigInteger.be_unsigned. rewrite <- fold_left_rev_right. induction (rev bs) as [|b l IH]; [reflexivity|].
  cbn [le_val fold_right]. rewrite IH. ring.
Qed.

Lemma model_be_bytes_length : forall n u, length (be_bytes n u) = n.
Proof. intros. rewrite be_bytes_java. apply BytesBE.be_bytes_length. Qed.

Lemma model_be_bytes_bytes : forall n u, Forall is_byte (be_bytes n u).
Proof. intros. rewrite be_bytes_java. apply BytesBE.be_bytes_bytes. Qed.

Lemma be_val_be_bytes : forall n u, be_val (be_bytes n u) = u mod 2 ^ (8 * Z.of_nat n).
Proof. intros. rewrite be_val_unsigned, be_bytes_java. apply BytesBE.be_unsigned_be_bytes. Qed.

Lemma pack_int_length : forall n s z bs, pack_int n s z = Some bs -> length bs = n.
Proof.
  unfold pack_int. intros n s z bs H. destruct (_ && _); inversion H. apply model_be_bytes_length.
Qed.

Lemma unpack_pack_int : forall n s z bs, (0 < n)%nat -> pack_int n s z = Some bs -> unpack_int n s bs = Some z.
Proof.
  unfold pack_int, unpack_int. intros n s z bs Hn H.
  destruct (_ && _) eqn:Hr; inversion H.
  rewrite model_be_bytes_length, Nat.eqb_refl, be_val_be_bytes. f_equal.
  destruct s; cbn [andb]; [|apply Z.mod_small; lia].
  (* signed: the n bytes hold z modulo 2^(8n), and the decoder takes the signed reading of that *)
  transitivity (Bits64.twos (8 * Z.of_nat n) (z mod 2 ^ (8 * Z.of_nat n))); [|apply Bits64.twos_mod; lia].
  unfold Bits64.twos. rewrite Z.leb_antisym. destruct (_ mod _ <? _); reflexivity.
Qed.

Lemma be_val_app : forall a b, be_val (a ++ b) = be_val a * 256 ^ Z.of_nat (length b) + be_val b.
Proof.
  intros. rewrite !be_val_unsigned, <- BytesBE.pow256. unfold JavaBigInteger.be_unsigned at 1. rewrite BytesBE.be_fold_app.
  apply BytesBE.be_fold_acc.
Qed.

Lemma be_val_bound : forall bs, Forall is_byte bs -> 0 <= be_val bs < 256 ^ Z.of_nat (length bs).
Proof.
  intros bs H. rewrite be_val_unsigned, <- BytesBE.pow256. pose proof (BytesBE.be_fold_range bs 0 H).
  unfold JavaBigInteger.be_unsigned. lia.
Qed.

Lemma pack_int_bytes : forall n s z bs, pack_int n s z = Some bs -> Forall is_byte bs.
Proof.
  unfold pack_int. intros n s z bs H. destruct (_ && _); inversion H. apply model_be_bytes_bytes.
Qed.

Lemma unpack_int_length : forall n s bs z, unpack_int n s bs = Some z -> length bs = n.
Proof.
  unfold unpack_int. intros. destruct (Nat.eqb (length bs) n) eqn:E; [|discriminate].
  apply Nat.eqb_eq in E. auto.
Qed.
