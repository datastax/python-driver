(* Opens with what Props/C37.v is stated in.  The invariant of a statement under construction: every clause owns the
   interval of ids [its context id, + its size), the intervals are disjoint and lie below the counter.  Renumbering (a clause
   list, a statement, a batch) is read through `fills`: the renumbered clauses own exactly one interval. *)
From Coq Require Import ZArith List Bool Lia Permutation.
From Verif Require Import Clauses ListFacts.
Import ListNotations.
Local Open Scope Z_scope.

Definition cn (c : clause) : nat := Z.to_nat (clause_size c).

(* clauses as cqlengine builds them: Token() with as many columns as values (filter() checks it), never under IN *)
Definition wfc (c : clause) : bool :=
  match c with
  | CWhere _ _ op (QToken vals n) => (n =? length vals)%nat && negb (wop_code op =? 2)
  | _ => true
  end.

Definition is_where (c : clause) := match c with CWhere _ _ _ _ | CIsNotNull _ => true | _ => false end.
Definition is_condc (c : clause) := match c with CWhere _ _ _ _ | CCond _ _ => true | _ => false end.
Definition is_plain_assign (c : clause) := match c with CAssign _ _ => true | _ => false end.
Definition is_assignc (c : clause) :=
  match c with CAssign _ _ | CSetUpd _ _ _ _ | CListUpd _ _ _ _ | CMapUpd _ _ _ _ | CCounter _ _ _ => true | _ => false end.
Definition is_delc (c : clause) := match c with CDelField _ | CMapDel _ _ _ => true | _ => false end.

(* where cqlengine itself places which clause class *)
Definition wf_add (k : skind) (p : part) (c : clause) : bool :=
  wfc c && match k, p with
           | Select, PWhere | Update, PWhere | Delete, PWhere => is_where c
           | Insert, PAssign => is_plain_assign c
           | Update, PAssign => is_assignc c
           | Update, PCond | Delete, PCond => is_condc c
           | Delete, PField => is_delc c
           | _, _ => false
           end.
Definition wf_op (k : skind) (o : sop) : bool := match o with Add p c => wf_add k p c | Renum _ => true end.

(* InsertStatement renders one placeholder per clause whatever its size: only plain assignments keep size = placeholders *)
Definition cok (k : skind) (c : clause) : Prop := wfc c = true /\ (k = Insert -> is_plain_assign c = true).

(* all clauses of a statement; the ids one clause owns; the ids of a clause list; how many they are *)
Definition allc (s : stmt) : list (Z * clause) := s_where s ++ s_assign s ++ s_field s ++ s_cond s.
Definition ivl (ic : Z * clause) : list Z := zseq (fst ic) (cn (snd ic)).
Definition occ (l : list (Z * clause)) : list Z := flat_map ivl l.
Fixpoint tot (l : list (Z * clause)) : nat := match l with [] => O | ic :: r => (cn (snd ic) + tot r)%nat end.

(* the field inv_parts of Inv, for use while Inv is being established *)
Definition placed (s : stmt) : Prop := forall p, ~ In p (render_parts (sk s)) -> get_part p s = [].

Record Inv (s : stmt) : Prop := {
  inv_parts : forall p, ~ In p (render_parts (sk s)) -> get_part p s = [];
  inv_wf : Forall (fun ic => cok (sk s) (snd ic)) (allc s);
  inv_nodup : NoDup (occ (allc s));
  inv_lt : Forall (fun x => x < ctr s) (occ (allc s)) }.

Definition bij (s : stmt) : Prop :=
  Permutation (placeholders (render s)) (map fst (context s)) /\ NoDup (placeholders (render s)) /\ NoDup (map fst (context s)).

Definition adds_of (p : part) (ops : list sop) : list clause :=
  flat_map (fun o => match o with
                     | Add p' c => if part_code p' =? part_code p then [c] else []
                     | Renum _ => []
                     end) ops.

Definition filters_of (ops : list qop) : list clause :=
  flat_map (fun o => match o with
                     | QFilter f op v _ => [CWhere f true op v]
                     | QFilterToken f op vals => [CWhere f false op (QToken vals (length vals))]
                     | QFilterRaw c => [c]
                     | _ => []
                     end) ops.
Definition iffs_of (ops : list qop) : list clause :=
  flat_map (fun o => match o with
                     | QIff f op v => [CWhere f true op v]
                     | QIffRaw c => [c]
                     | _ => []
                     end) ops.

Lemma zmem_In : forall x l, zmem x l = true <-> In x l.
Proof. exact (memb_In Z.eqb Z.eqb_eq). Qed.

Lemma filter_notin : forall (A : Type) (g : A -> Z) b a x,
  In x (filter (fun y => negb (zmem (g y) b)) a) <-> In x a /\ ~ In (g x) b.
Proof. intros. rewrite filter_In, negb_true_iff, <- zmem_In. destruct (zmem (g x) b); intuition congruence. Qed.

Lemma zseq_length : forall n i, length (zseq i n) = n.
Proof. induction n as [|n IH]; intros i; simpl; [reflexivity|]. rewrite IH. reflexivity. Qed.

Lemma zseq_In : forall n i x, In x (zseq i n) <-> i <= x < i + Z.of_nat n.
Proof.
  induction n as [|n IH]; intros i x; simpl.
  - split; [tauto | lia].
  - rewrite IH. lia.
Qed.

Lemma zseq_NoDup : forall n i, NoDup (zseq i n).
Proof.
  induction n as [|n IH]; intros i; simpl; constructor; [rewrite zseq_In; lia|apply IH].
Qed.

Lemma zseq_app : forall a b i, zseq i (a + b) = zseq i a ++ zseq (i + Z.of_nat a) b.
Proof.
  induction a as [|a IH]; intros b i; simpl.
  - f_equal. lia.
  - rewrite IH. do 3 f_equal. lia.
Qed.

Lemma b2z_nonneg : forall b, 0 <= b2z b.
Proof. destruct b; simpl; lia. Qed.

Lemma clause_size_nonneg : forall c, 0 <= clause_size c.
Proof.
  destruct c; simpl; try lia.
  - destruct q; simpl; lia.
  - destruct (set_analyze v op prev) as [[asg add] rem]. destruct (_ && _); [lia|].
    generalize (b2z_nonneg (truthy asg)) (b2z_nonneg (truthy add)) (b2z_nonneg (truthy rem)). lia.
  - destruct (list_analyze v op prev) as [[asg pre] app].
    generalize (b2z_nonneg (is_some asg)) (b2z_nonneg (truthy app)) (b2z_nonneg (truthy pre)). lia.
  - destruct (map_is_assignment v op prev); [lia|].
    destruct (map_analyze v op prev) as [upd rem]. generalize (b2z_nonneg (truthy rem)). lia.
Qed.

Lemma cn_z : forall c, Z.of_nat (cn c) = clause_size c.
Proof. intros. apply Z2Nat.id, clause_size_nonneg. Qed.

Lemma set_shape : forall v op prev asg add rem,
  set_analyze v op prev = (asg, add, rem) -> is_some asg = true -> prev = None /\ add = None /\ rem = None.
Proof.
  intros v op prev asg add rem H Hs. unfold set_analyze in H.
  destruct v as [vl|]; [destruct (opt_zlist_eqb (Some vl) prev)|].
  - injection H as <- <- <-. discriminate Hs.
  - destruct op as [[|]|]; [| |destruct prev]; injection H as <- <- <-; try discriminate Hs. auto.
  - injection H as <- <- <-. discriminate Hs.
Qed.

Lemma map_shape : forall v op prev upd rem,
  map_analyze v op prev = (upd, rem) -> rem = None \/ upd = None.
Proof.
  intros v op prev upd rem H. unfold map_analyze in H.
  destruct op as [[|]|]; [| |destruct prev]; injection H as <- <-; auto.
Qed.

Lemma render_mapputs_fps : forall n f i, flat_map fps (render_mapputs f i n) = zseq i (n * 2).
Proof. induction n as [|n IH]; intros f i; simpl; auto. rewrite IH. do 3 f_equal. lia. Qed.

Lemma ctx_mapputs_keys : forall keys i m, map fst (ctx_mapputs i keys m) = zseq i (length keys * 2).
Proof. induction keys as [|k keys IH]; intros i m; simpl; auto. rewrite IH. do 3 f_equal. lia. Qed.

Lemma zip_ids_keys : forall l i, map fst (zip_ids i l) = zseq i (length l).
Proof. induction l as [|x l IH]; intros i; simpl; [reflexivity|]. rewrite IH. reflexivity. Qed.

Lemma delkeys_fps : forall f l, flat_map fps (map (fun p => mk KDelKey f [p]) l) = l.
Proof. intros f l. induction l as [|x l IH]; simpl; [reflexivity|]. rewrite IH. reflexivity. Qed.

(* an optional container is absent, empty or non-empty; once each operand of a clause is split so, size, rendering and context compute *)
Ltac opt_cases o := destruct o as [[|? ?]|].

Lemma clause_ids : forall c i, wfc c = true ->
  flat_map fps (clause_render i c) = zseq i (cn c) /\ map fst (clause_ctx i c) = zseq i (cn c).
Proof.
  intros c i Hwf. unfold cn. destruct c; simpl; try (split; reflexivity).
  - (* CWhere *) destruct q; simpl; try (split; [|destruct op]; reflexivity).
    rewrite app_nil_r, Nat2Z.id. split; [reflexivity|].
    apply andb_prop in Hwf. destruct Hwf as [Hn Hop]. apply Nat.eqb_eq in Hn. subst ncols.
    destruct op; try discriminate Hop; rewrite firstn_all; apply zip_ids_keys.
  - destruct (set_analyze v op prev) as [[asg add] rem] eqn:E. destruct asg as [a|].
    + destruct (set_shape _ _ _ _ _ _ E eq_refl) as (-> & -> & ->). destruct a; split; reflexivity.
    + destruct prev; opt_cases add; opt_cases rem; split; reflexivity.
  - destruct (list_analyze v op prev) as [[asg pre] app].
    destruct asg; opt_cases pre; opt_cases app; split; reflexivity.
  - unfold map_is_assignment. destruct (map_analyze v op prev) as [upd rem] eqn:E.
    destruct (map_shape _ _ _ _ _ E) as [-> | ->].
    + destruct (negb (is_some prev) && negb (truthy upd) && negb (truthy None)); [split; reflexivity|].
      cbn [truthy b2z otruthy]. rewrite render_mapputs_fps, ctx_mapputs_keys. split; f_equal; lia.
    + destruct (negb (is_some prev) && negb (truthy None) && negb (truthy rem)); [split; reflexivity|].
      opt_cases rem; split; reflexivity.
  - (* CMapDel *) rewrite delkeys_fps, zip_ids_keys, Nat2Z.id. auto.
Qed.

Lemma render_opts_field : forall parts f i fr, In fr (render_opts f i parts) -> ff fr = f.
Proof.
  induction parts as [|[k b] parts IH]; intros f i fr H; simpl in H; [tauto|].
  destruct b; [destruct H as [<-|H]; auto|]; eauto.
Qed.

Lemma render_mapputs_field : forall n f i fr, In fr (render_mapputs f i n) -> ff fr = f.
Proof. induction n; intros f i fr H; simpl in H; [tauto|]. destruct H as [<-|H]; eauto. Qed.

Lemma clause_render_field : forall c i fr, In fr (clause_render i c) -> ff fr = clause_field c.
Proof.
  intros c i fr H. destruct c; cbn [clause_render] in *; try (destruct H as [<-|[]]; reflexivity).
  - destruct q; destruct H as [<-|[]]; reflexivity.
  - destruct (set_analyze v op prev) as [[asg add] rem]. apply in_app_or in H. destruct H as [H|H].
    + destruct (_ && _); [destruct H as [<-|[]]; reflexivity | destruct H].
    + eapply render_opts_field; eauto.
  - destruct (list_analyze v op prev) as [[asg pre] app]. eapply render_opts_field; eauto.
  - destruct (map_analyze v op prev) as [upd rem].
    destruct (map_is_assignment v op prev); [destruct H as [<-|[]]; reflexivity|].
    destruct (truthy rem); [destruct H as [<-|[]]; reflexivity|]. eapply render_mapputs_field; eauto.
  - (* CMapDel *) apply in_map_iff in H. destruct H as (p & <- & _). reflexivity.
Qed.

Lemma occ_app : forall a b, occ (a ++ b) = occ a ++ occ b.
Proof. intros; unfold occ; apply flat_map_app. Qed.
Lemma tot_app : forall a b, tot (a ++ b) = (tot a + tot b)%nat.
Proof. induction a as [|x a IH]; intros b; simpl; [reflexivity|]. rewrite IH. lia. Qed.
Lemma occ_length : forall l, length (occ l) = tot l.
Proof. induction l as [|ic l IH]; simpl; [reflexivity|]. rewrite app_length, IH. unfold ivl. rewrite zseq_length. reflexivity. Qed.

(* numbering composes through this: clause after clause in a list, list after list in a statement, statement after
   statement in a batch *)
Definition fills (l : list (Z * clause)) (i j : Z) : Prop := occ l = zseq i (tot l) /\ j = i + Z.of_nat (tot l).

Lemma fills_nil : forall i, fills [] i i.
Proof. intros i. split; [reflexivity | simpl; lia]. Qed.

Lemma fills_app : forall a b i j k, fills a i j -> fills b j k -> fills (a ++ b) i k.
Proof.
  intros a b i j k [Ha ->] [Hb ->]. unfold fills. rewrite occ_app, tot_app, zseq_app, Ha, Hb. split; [reflexivity | lia].
Qed.

Lemma fills_ids : forall l i j, fills l i j -> NoDup (occ l) /\ Forall (fun x => x < j) (occ l).
Proof.
  intros l i j [-> ->]. split; [apply zseq_NoDup|]. apply Forall_forall. intros x Hx. apply zseq_In in Hx. lia.
Qed.

Definition parts_of (ps : list part) (s : stmt) : list (Z * clause) := flat_map (fun p => get_part p s) ps.

Lemma part_eqb_spec : forall p q, reflect (p = q) (part_code p =? part_code q).
Proof. destruct p, q; constructor; (reflexivity || discriminate). Qed.

Lemma get_set_part : forall p q l c s,
  get_part q (set_part p l c s) = if part_code p =? part_code q then l else get_part q s.
Proof. destruct p, q; reflexivity. Qed.
Lemma sk_set_part : forall p l c s, sk (set_part p l c s) = sk s.
Proof. destruct p; reflexivity. Qed.
Lemma ctr_set_part : forall p l c s, ctr (set_part p l c s) = c.
Proof. destruct p; reflexivity. Qed.

Lemma sk_add : forall p c s, sk (add_clause p c s) = sk s.
Proof. intros. apply sk_set_part. Qed.
Lemma ctr_add : forall p c s, ctr (add_clause p c s) = ctr s + clause_size c.
Proof. intros. apply ctr_set_part. Qed.
Lemma get_part_add : forall p p' c s,
  get_part p' (add_clause p c s) = if Z.eqb (part_code p) (part_code p') then get_part p' s ++ [(ctr s, c)] else get_part p' s.
Proof.
  intros. unfold add_clause. rewrite get_set_part. destruct (part_eqb_spec p p') as [->|_]; reflexivity.
Qed.

Lemma perm_ins : forall {A} (a x b : list A), Permutation ((a ++ x) ++ b) ((a ++ b) ++ x).
Proof. intros. rewrite <- !app_assoc. apply Permutation_app_head, Permutation_app_comm. Qed.

Lemma allc_add : forall p c s, Permutation (allc (add_clause p c s)) (allc s ++ [(ctr s, c)]).
Proof.
  intros p c s. unfold allc. destruct p; simpl.
  - (* PWhere *) apply perm_ins.
  - (* PAssign *) rewrite <- (app_assoc (s_where s)). apply Permutation_app_head, perm_ins.
  - (* PCond *) rewrite <- !app_assoc. reflexivity.
  - (* PField *) rewrite <- (app_assoc (s_where s)), <- (app_assoc (s_assign s)). do 2 apply Permutation_app_head. apply perm_ins.
Qed.

Lemma wf_add_cok : forall k p c, wf_add k p c = true -> cok k c /\ In p (render_parts k).
Proof.
  intros k p c H. unfold wf_add in H. apply andb_prop in H. destruct H as [H1 H2].
  destruct k, p; try discriminate; simpl; (split; [split; [auto | intros E; try discriminate E; auto] | tauto]).
Qed.

Lemma nin1 : forall (p q : part), part_code p <> part_code q -> ~ In p [q].
Proof. intros p q H [E|[]]. subst. auto. Qed.

Lemma placed_allc : forall s, placed s ->
  allc s = parts_of (renum_parts (sk s)) s /\ Permutation (parts_of (render_parts (sk s)) s) (allc s).
Proof.
  intros s Hp. unfold allc, parts_of.
  pose proof (Hp PWhere) as Hw. pose proof (Hp PAssign) as Ha. pose proof (Hp PField) as Hf. pose proof (Hp PCond) as Hc.
  destruct (sk s); simpl in *; rewrite ?app_nil_r.
  - (* Select *) rewrite Ha, Hf, Hc by (apply nin1; discriminate). rewrite app_nil_r. auto.
  - (* Insert *) rewrite Hw, Hf, Hc by (apply nin1; discriminate). rewrite app_nil_r. auto.
  - (* Update *) rewrite Hf by (intros [E|[E|[E|[]]]]; discriminate). split; [reflexivity | apply Permutation_app_swap_app].
  - (* Delete *) rewrite Ha by (intros [E|[E|[E|[]]]]; discriminate). simpl. split; [reflexivity | apply Permutation_app_swap_app].
Qed.

Lemma Inv_empty : forall k, Inv (empty_stmt k).
Proof. intros k. constructor; try constructor. destruct p; auto. Qed.

Lemma Inv_add : forall p c s, Inv s -> wf_add (sk s) p c = true -> Inv (add_clause p c s).
Proof.
  intros p c s [Hp Hw Hn Hl] Hwf. apply wf_add_cok in Hwf. destruct Hwf as [Hc Hin].
  assert (P : Permutation (occ (allc (add_clause p c s))) (occ (allc s) ++ zseq (ctr s) (cn c))).
  { unfold occ. rewrite allc_add, flat_map_app. simpl. rewrite app_nil_r. reflexivity. }
  pose proof (clause_size_nonneg c) as Hc0.
  constructor.
  - rewrite sk_add. intros p' Hp'. rewrite get_part_add.
    destruct (part_eqb_spec p p') as [->|_]; [tauto | auto].
  - rewrite sk_add, allc_add. apply Forall_app. auto.
  - rewrite P. apply NoDup_app_intro; auto using zseq_NoDup.
    intros x Hx Hx'. rewrite Forall_forall in Hl. apply Hl in Hx. apply zseq_In in Hx'. lia.
  - rewrite ctr_add, P. apply Forall_app. split.
    + eapply Forall_impl; [|exact Hl]. simpl. intros. lia.
    + apply Forall_forall. intros x Hx. apply zseq_In in Hx. rewrite cn_z in Hx. lia.
Qed.

Lemma renumber_spec : forall l i,
  map snd (fst (renumber i l)) = map snd l /\ fills (fst (renumber i l)) i (snd (renumber i l)).
Proof.
  induction l as [|[j c] l IH]; intros i; simpl.
  - split; [reflexivity | apply fills_nil].
  - specialize (IH (i + clause_size c)). destruct (renumber (i + clause_size c) l) as [l' j']. simpl.
    destruct IH as (H1 & H2). split; [f_equal; exact H1|].
    apply (fills_app [(i, c)] l' i (i + clause_size c)); [|exact H2].
    unfold fills, occ, ivl. simpl. rewrite app_nil_r, Nat.add_0_r, cn_z. auto.
Qed.

(* one round of the loop of update_context_id *)
Definition renum_step (s : stmt) (p : part) : stmt :=
  let '(l, j) := renumber (ctr s) (get_part p s) in set_part p l j s.

Lemma renum_step_spec : forall s p,
  sk (renum_step s p) = sk s /\
  fills (get_part p (renum_step s p)) (ctr s) (ctr (renum_step s p)) /\
  (forall q, map snd (get_part q (renum_step s p)) = map snd (get_part q s)) /\
  (forall q, p <> q -> get_part q (renum_step s p) = get_part q s).
Proof.
  intros s p. unfold renum_step. destruct (renumber_spec (get_part p s) (ctr s)) as (H1 & H2).
  destruct (renumber (ctr s) (get_part p s)) as [l j]. simpl in *.
  rewrite sk_set_part, ctr_set_part, get_set_part, Z.eqb_refl. split; [reflexivity|]. split; [exact H2|].
  split; intros q; [|intros Hq]; rewrite get_set_part; destruct (part_eqb_spec p q) as [->|_]; auto; tauto.
Qed.

Lemma renum_parts_NoDup : forall k, NoDup (renum_parts k).
Proof. destruct k; repeat constructor; simpl; intuition discriminate. Qed.

Lemma uc_fold : forall i s,
  update_context_id i s = fold_left renum_step (renum_parts (sk s)) (set_part PWhere (s_where s) i s).
Proof. reflexivity. Qed.

Lemma uc_sk : forall i s, sk (update_context_id i s) = sk s.
Proof. intros i s. exact (fold_left_const renum_step sk (fun s' p => proj1 (renum_step_spec s' p)) _ _). Qed.

Lemma uc_clauses : forall i s p, map snd (get_part p (update_context_id i s)) = map snd (get_part p s).
Proof.
  intros i s p. rewrite uc_fold, (fold_left_const renum_step (fun s' => map snd (get_part p s'))).
  - destruct p; reflexivity.
  - intros s' q. apply renum_step_spec.
Qed.

Lemma renum_fold : forall ps s, NoDup ps ->
  let s' := fold_left renum_step ps s in
  (forall q, ~ In q ps -> get_part q s' = get_part q s) /\ fills (parts_of ps s') (ctr s) (ctr s').
Proof.
  induction ps as [|p ps IH]; intros s Hnd; simpl.
  - split; [auto | apply fills_nil].
  - inversion Hnd as [|? ? Hp Hnd']; subst.
    destruct (renum_step_spec s p) as (_ & A2 & _ & A4).
    destruct (IH (renum_step s p) Hnd') as (B1 & B2).
    split.
    + intros q Hq. rewrite B1 by tauto. apply A4. intros ->. tauto.
    + (* the later rounds leave list p as this round numbered it *)
      rewrite <- (B1 p Hp) in A2. exact (fills_app _ _ _ _ _ A2 B2).
Qed.

Lemma allc_clauses : forall i s, map snd (allc (update_context_id i s)) = map snd (allc s).
Proof.
  intros. pose proof (uc_clauses i s) as H. unfold allc. rewrite !map_app.
  f_equal; [apply (H PWhere)|]. f_equal; [apply (H PAssign)|]. f_equal; [apply (H PField) | apply (H PCond)].
Qed.

Lemma uc_placed : forall i s, placed s -> placed (update_context_id i s).
Proof.
  intros i s Hp p Hn. rewrite uc_sk in Hn. apply map_eq_nil with (f := snd). rewrite uc_clauses, (Hp p Hn). reflexivity.
Qed.

Lemma uc_spec : forall i s, placed s -> fills (allc (update_context_id i s)) i (ctr (update_context_id i s)).
Proof.
  intros i s Hp. destruct (placed_allc _ (uc_placed i s Hp)) as [-> _]. rewrite uc_sk, uc_fold.
  (* the loop starts from s with the counter set to i *)
  apply (renum_fold _ (set_part PWhere (s_where s) i s) (renum_parts_NoDup (sk s))).
Qed.

Lemma Inv_renum : forall i s, Inv s -> Inv (update_context_id i s).
Proof.
  intros i s [Hp Hw _ _]. destruct (fills_ids _ _ _ (uc_spec i s Hp)) as [Hn Hl].
  constructor; [exact (uc_placed i s Hp) | | exact Hn | exact Hl].
  (* cok reads the clause only, and the clauses are those of s *)
  rewrite uc_sk. apply (Forall_map snd (cok (sk s))). rewrite allc_clauses. apply Forall_map. exact Hw.
Qed.

Lemma sk_step : forall s o, sk (sstep s o) = sk s.
Proof. intros s [p c|i]; [apply sk_add | apply uc_sk]. Qed.

Lemma sk_fold : forall ops s, sk (fold_left sstep ops s) = sk s.
Proof. exact (fold_left_const sstep sk sk_step). Qed.

Lemma Inv_step : forall s o, Inv s -> wf_op (sk s) o = true -> Inv (sstep s o).
Proof. intros s [p c|i] HI Hw; [apply Inv_add | apply Inv_renum]; auto. Qed.

Lemma Inv_fold : forall ops s, Inv s -> forallb (wf_op (sk s)) ops = true -> Inv (fold_left sstep ops s).
Proof.
  induction ops as [|o ops IH]; intros s HI Hw; simpl; auto.
  apply andb_prop in Hw. destruct Hw as [H1 H2].
  apply IH; [apply Inv_step; auto | rewrite sk_step; auto].
Qed.

Lemma Inv_build : forall k ops, forallb (wf_op k) ops = true -> Inv (build k ops) /\ sk (build k ops) = k.
Proof. intros. unfold build. split; [apply Inv_fold; auto using Inv_empty | apply sk_fold]. Qed.

Lemma clause_render_in_ids : forall k c i, cok k c -> flat_map fps (clause_render_in k i c) = zseq i (cn c).
Proof.
  intros k c i [Hw Hi]. destruct k; try (apply clause_ids; auto).
  specialize (Hi eq_refl). destruct c; try discriminate. reflexivity.
Qed.

Lemma part_render_fps : forall k l, Forall (fun ic => cok k (snd ic)) l -> flat_map fps (part_render k l) = occ l.
Proof.
  induction 1 as [|[i c] l H _ IH]; auto.
  unfold part_render in *. simpl. rewrite flat_map_app, IH. f_equal. apply clause_render_in_ids, H.
Qed.

Lemma part_ctx_keys : forall k l, Forall (fun ic => cok k (snd ic)) l -> map fst (part_ctx l) = occ l.
Proof.
  induction 1 as [|[i c] l H _ IH]; auto.
  unfold part_ctx in *. simpl. rewrite map_app, IH. f_equal. apply clause_ids, H.
Qed.

Lemma flat_map_flat_map : forall (A B C : Type) (f : B -> list C) (g : A -> list B) l,
  flat_map f (flat_map g l) = flat_map (fun x => flat_map f (g x)) l.
Proof. induction l; simpl; [reflexivity|]. rewrite flat_map_app, IHl. reflexivity. Qed.

Lemma ctx_allc : forall s, placed s -> ctx_writes s = part_ctx (allc s).
Proof. intros s Hp. destruct (placed_allc s Hp) as [-> _]. symmetry. apply flat_map_flat_map. Qed.

Lemma render_allc : forall s, placed s ->
  Permutation (flat_map snd (render s)) (part_render (sk s) (allc s)).
Proof.
  intros s Hp. destruct (placed_allc s Hp) as [_ P]. unfold part_render. rewrite <- P.
  unfold render, parts_of. rewrite flat_map_flat_map, flat_map_concat_map, map_map, <- flat_map_concat_map. reflexivity.
Qed.

Lemma ph_render : forall s, Inv s -> Permutation (placeholders (render s)) (occ (allc s)).
Proof.
  intros s [Hp Hw _ _]. rewrite <- (part_render_fps _ _ Hw), <- (render_allc s Hp). rewrite flat_map_flat_map. reflexivity.
Qed.

Lemma dict_set_fresh : forall d k v, ~ In k (map fst d) -> dict_set k v d = d ++ [(k, v)].
Proof.
  induction d as [|[k' v'] d IH]; intros k v H; simpl; auto.
  simpl in H. destruct (k =? k') eqn:E; [apply Z.eqb_eq in E; subst; tauto|].
  f_equal. apply IH. tauto.
Qed.

Lemma dict_of_nodup : forall w d, NoDup (map fst (d ++ w)) -> dict_of w d = d ++ w.
Proof.
  intros w d H. rewrite map_app in H. rewrite <- (map_id w) at 2.
  exact (fold_set_fresh dict_set (fun kv => kv) (fun k v d => dict_set_fresh d k v) w d H).
Qed.

Lemma dict_get_in : forall d k v, NoDup (map fst d) -> In (k, v) d -> dict_get k d = Some v.
Proof.
  induction d as [|[k' v'] d IH]; intros k v Hnd Hin; simpl in *; [tauto|].
  apply NoDup_cons_iff in Hnd. destruct Hnd as [Hk Hnd]. destruct Hin as [E|Hin].
  - injection E as -> ->. rewrite Z.eqb_refl. reflexivity.
  - destruct (Z.eqb_spec k k') as [->|_]; [|exact (IH _ _ Hnd Hin)].
    exfalso. apply Hk. apply in_map_iff. exists (k', v). auto.
Qed.

Lemma dict_of_app : forall a b d, dict_of (a ++ b) d = dict_of b (dict_of a d).
Proof. intros. unfold dict_of. apply fold_left_app. Qed.

(* the ids being distinct, no write replaces another: the context is the writes, in order *)
Lemma context_allc : forall s, Inv s -> context s = part_ctx (allc s).
Proof.
  intros s [Hp Hw Hn _]. unfold context. rewrite (ctx_allc s Hp). apply dict_of_nodup. simpl.
  rewrite (part_ctx_keys _ _ Hw). exact Hn.
Qed.

Lemma context_keys : forall s, Inv s -> map fst (context s) = occ (allc s).
Proof. intros s HI. rewrite context_allc by exact HI. apply (part_ctx_keys (sk s)), HI. Qed.

Lemma stmt_bijection : forall s, Inv s -> bij s.
Proof.
  intros s HI. unfold bij. rewrite context_keys by auto. rewrite (ph_render s HI). split; [reflexivity|]. split; apply HI.
Qed.

Lemma get_part_allc : forall p s ic, In ic (get_part p s) -> In ic (allc s).
Proof. intros p s ic H. unfold allc. repeat rewrite in_app_iff. destruct p; auto. Qed.

Lemma stmt_own_value : forall s i c id v, Inv s ->
  In (i, c) (allc s) -> In (id, v) (clause_ctx i c) ->
  dict_get id (context s) = Some v /\ In id (flat_map fps (clause_render_in (sk s) i c)).
Proof.
  intros s i c id v HI Hic Hv.
  assert (Hc : cok (sk s) c) by (destruct HI as [_ Hw _ _]; rewrite Forall_forall in Hw; exact (Hw _ Hic)).
  split.
  - apply dict_get_in; [rewrite context_keys by auto; apply HI|].
    rewrite context_allc by auto. apply in_flat_map. exists (i, c). auto.
  - rewrite clause_render_in_ids by auto. rewrite <- (proj2 (clause_ids c i (proj1 Hc))).
    apply in_map_iff. exists (id, v). auto.
Qed.

Lemma parts_fold : forall ops s p,
  map snd (get_part p (fold_left sstep ops s)) = map snd (get_part p s) ++ adds_of p ops.
Proof.
  intros ops s p. apply (fold_left_collect sstep (fun s => map snd (get_part p s))). intros s' [p' c|i]; simpl.
  - rewrite get_part_add. destruct (part_code p' =? part_code p); [apply map_app|symmetry; apply app_nil_r].
  - rewrite uc_clauses. symmetry. apply app_nil_r.
Qed.

Lemma parts_build : forall k ops p, map snd (get_part p (build k ops)) = adds_of p ops.
Proof. intros. unfold build. rewrite parts_fold. destruct p; reflexivity. Qed.

Lemma adds_of_app : forall p a b, adds_of p (a ++ b) = adds_of p a ++ adds_of p b.
Proof. intros. unfold adds_of. apply flat_map_app. Qed.

Lemma adds_of_map : forall p q l, adds_of p (map (Add q) l) = if part_code q =? part_code p then l else [].
Proof. intros p q l. induction l as [|c l IH]; simpl; [destruct (_ =? _); auto|]. rewrite IH. destruct (_ =? _); auto. Qed.

Lemma wf_ops_map : forall k p l, forallb (wf_op k) (map (Add p) l) = forallb (wf_add k p) l.
Proof. intros k p l. induction l as [|c l IH]; simpl; congruence. Qed.

(* the way the query sets make their statements: whole clause lists, each into a part of its own (fewer than three
   lists: the others empty, put first so that the appends compute) *)
Lemma build3_ok : forall k p1 p2 p3 l1 l2 l3,
  (part_code p1 =? part_code p2) = false -> (part_code p1 =? part_code p3) = false -> (part_code p2 =? part_code p3) = false ->
  forallb (wf_add k p1) l1 = true -> forallb (wf_add k p2) l2 = true -> forallb (wf_add k p3) l3 = true ->
  let s := build k (map (Add p1) l1 ++ map (Add p2) l2 ++ map (Add p3) l3) in
  map snd (get_part p1 s) = l1 /\ map snd (get_part p2 s) = l2 /\ map snd (get_part p3 s) = l3 /\ bij s.
Proof.
  intros k p1 p2 p3 l1 l2 l3 D12 D13 D23 W1 W2 W3 s.
  assert (forall p, map snd (get_part p s) = (if part_code p1 =? part_code p then l1 else []) ++
            (if part_code p2 =? part_code p then l2 else []) ++ (if part_code p3 =? part_code p then l3 else [])) as Hparts
    by (intros p; unfold s; rewrite parts_build, !adds_of_app, !adds_of_map; reflexivity).
  split; [|split; [|split]].
  - rewrite Hparts, Z.eqb_refl, (Z.eqb_sym (part_code p2)), (Z.eqb_sym (part_code p3)), D12, D13. apply app_nil_r.
  - rewrite Hparts, Z.eqb_refl, (Z.eqb_sym (part_code p3)), D12, D23. apply app_nil_r.
  - rewrite Hparts, Z.eqb_refl, D13, D23. reflexivity.
  - apply stmt_bijection, Inv_build. rewrite !forallb_app, !wf_ops_map, W1, W2, W3. reflexivity.
Qed.

Lemma chain_parts : forall ops, q_where (chain ops) = filters_of ops /\ q_cond (chain ops) = iffs_of ops.
Proof.
  intros ops. unfold chain.
  split; [refine (fold_left_collect qstep q_where _ _ ops empty_qset)|refine (fold_left_collect qstep q_cond _ _ ops empty_qset)];
    intros q []; auto using app_nil_r.
Qed.

Lemma batch_exec_spec : forall qs c params,
  batch_exec c qs params = (map render (batch_stmts c qs), dict_of (flat_map context (batch_stmts c qs)) params).
Proof.
  induction qs as [|q qs IH]; intros c params; simpl; auto.
  rewrite IH. rewrite dict_of_app. auto.
Qed.

Lemma batch_ids : forall qs c, Forall Inv qs ->
  let ss := batch_stmts c qs in Forall Inv ss /\ exists j, fills (flat_map allc ss) c j.
Proof.
  induction qs as [|q qs IH]; intros c HF; simpl.
  - split; [constructor | exists c; apply fills_nil].
  - inversion HF as [|? ? Hq Hqs]; subst.
    set (q' := update_context_id c q).
    assert (HI : Inv q') by (apply Inv_renum; auto).
    pose proof (uc_spec c q (inv_parts q Hq)) as Hf. fold q' in Hf.
    (* the context has one entry per id, so the next statement starts at the counter of this one *)
    replace (c + Z.of_nat (length (context q'))) with (ctr q')
      by (rewrite <- (map_length fst), context_keys, occ_length by auto; apply Hf).
    destruct (IH (ctr q') Hqs) as (A & j & B).
    split; [constructor; auto|]. exists j. exact (fills_app _ _ _ _ _ Hf B).
Qed.

Lemma stmts_ids : forall ss, Forall Inv ss ->
  map fst (flat_map context ss) = occ (flat_map allc ss) /\
  Permutation (flat_map placeholders (map render ss)) (occ (flat_map allc ss)).
Proof.
  induction 1 as [|s ss HI _ [IH1 IH2]]; simpl; [split; reflexivity|].
  rewrite map_app, occ_app, IH1, IH2, (ph_render s HI), context_keys by auto. split; reflexivity.
Qed.

Lemma batch_spec : forall qs c, Forall Inv qs ->
  let ss := batch_stmts c qs in
  let ps := snd (batch_exec c qs []) in
  fst (batch_exec c qs []) = map render ss /\
  Forall Inv ss /\
  NoDup (flat_map placeholders (fst (batch_exec c qs []))) /\
  Permutation (flat_map placeholders (fst (batch_exec c qs []))) (map fst ps) /\
  (forall s id v, In s ss -> In (id, v) (context s) -> dict_get id ps = Some v).
Proof.
  intros qs c HF ss ps. subst ps. rewrite batch_exec_spec. fold ss.
  destruct (batch_ids qs c HF) as (A & j & F). fold ss in A, F.
  destruct (stmts_ids ss A) as [B C]. destruct (fills_ids _ _ _ F) as [N _]. rewrite <- B in N.
  rewrite dict_of_nodup by exact N. rewrite C, <- B.
  repeat split; auto.
  intros s id v Hs Hv. apply dict_get_in; auto. apply in_flat_map. exists s. auto.
Qed.

Lemma forallb_filter : forall (A : Type) (f g : A -> bool) l, forallb f l = true -> forallb f (filter g l) = true.
Proof.
  intros A f g l. induction l as [|x l IH]; simpl; intros H; [reflexivity|].
  apply andb_prop in H. destruct H as [H1 H2]. destruct (g x); simpl; [rewrite H1|]; auto.
Qed.

Lemma wf_delfields : forall nulled, forallb (wf_add Delete PField) (map CDelField nulled) = true.
Proof. induction nulled as [|f nulled IH]; simpl; auto. Qed.

Lemma perm_mid : forall (a x b : list Z), Permutation (a ++ x ++ b) ((a ++ b) ++ x).
Proof. intros. rewrite app_assoc. apply perm_ins. Qed.
