(* C35: what a container clause of statements.py emits, applied to the previous cell with the semantics of CqlSem.v, gives the new value.
   Lists: the search yields a split vl = A ++ pl ++ B.  Sets: the cell is always norm (VSet l), on which the optional operations are equations. *)
From Coq Require Import ZArith List Bool Lia.
From Verif Require Import Clauses CqlSem Mapper ListFacts Clauses_proofs.
Import ListNotations.
Local Open Scope Z_scope.

Lemma zlist_eqb_eq : forall a b, zlist_eqb a b = true <-> a = b.
Proof. exact (eq_listb_spec Z.eqb Z.eqb_eq). Qed.

Lemma counter_clause_ok : forall f v prev,
  apply_assigns (clause_assigns (CCounter f v prev)) (VInt (counter_prev prev)) = VInt v.
Proof.
  intros f v prev. unfold clause_assigns, apply_assigns. simpl.
  destruct (v - counter_prev prev <? 0) eqn:E; simpl; f_equal.
  - apply Z.ltb_lt in E. lia.
  - apply Z.ltb_ge in E. lia.
Qed.

Lemma window_match_eq : forall pl sub, window_match pl sub = true -> pl = sub.
Proof. intros pl sub H. unfold window_match in H. apply andb_prop in H. apply zlist_eqb_eq, H. Qed.

Lemma oz_eq_refl_hd : forall l, l <> [] -> oz_eq (hd_error l) (hd_error l) = true.
Proof. destruct l; [tauto|]. intros _. simpl. apply Z.eqb_refl. Qed.

Lemma list_search_sound : forall fuel i vl pl pre app, list_search fuel i vl pl = Some (pre, app) ->
  exists A B, vl = A ++ pl ++ B /\ pre = or_none A /\ app = or_none B.
Proof.
  induction fuel as [|fuel IH]; intros i vl pl pre app H; simpl in H; [discriminate|].
  destruct (window_match pl (firstn (length pl) (skipn i vl))) eqn:E; [|eapply IH; eassumption].
  injection H as <- <-. exists (firstn i vl), (skipn (i + length pl) vl). split; [|split; reflexivity].
  apply window_match_eq in E.
  rewrite <- (firstn_skipn i vl) at 1. f_equal.
  rewrite <- (firstn_skipn (length pl) (skipn i vl)) at 1. rewrite <- E. f_equal.
  apply skipn_skipn'.
Qed.

Lemma list_clause_ok : forall f vl prev,
  apply_assigns (clause_assigns (CListUpd f (Some vl) None prev)) (norm (olistv prev)) = norm (VList vl).
Proof.
  intros f vl prev. unfold clause_assigns, apply_assigns. cbn [clause_render clause_ctx].
  unfold list_analyze.
  destruct (opt_zlist_eqb (Some vl) prev) eqn:Eq.
  { destruct prev as [pl|]; simpl in Eq; [|discriminate]. apply zlist_eqb_eq in Eq. subst. reflexivity. }
  destruct prev as [pl|]; [|reflexivity].
  destruct (length vl <? length pl)%nat; [reflexivity|].
  destruct (length pl =? 0)%nat eqn:El; [reflexivity|].
  destruct (list_search (length vl - (length pl - 1)) 0 vl pl) as [[pre app]|] eqn:Es; [|reflexivity].
  apply list_search_sound in Es. destruct Es as (A & B & -> & -> & ->).
  destruct pl as [|p0 pl']; [discriminate El|].
  (* vl = A ++ pl ++ B; an empty A or B is not emitted, and with both empty the clause assigns vl *)
  destruct A as [|a0 A']; destruct B as [|b0 B']; simpl.
  - reflexivity.
  - reflexivity.
  - rewrite app_nil_r. reflexivity.
  - rewrite <- app_assoc. reflexivity.
Qed.

Lemma zinsert_u_In : forall x y l, In x (zinsert_u y l) <-> x = y \/ In x l.
Proof.
  induction l as [|z l IH]; simpl; [intuition|].
  destruct (y <? z); simpl; [intuition|].
  destruct (y =? z) eqn:E; simpl.
  - apply Z.eqb_eq in E. subst. intuition.
  - rewrite IH. intuition.
Qed.

Lemma set_union_In : forall x b a, In x (set_union a b) <-> In x a \/ In x b.
Proof.
  unfold set_union. induction b as [|y b IH]; intros a; simpl; [intuition|].
  rewrite zinsert_u_In, IH. intuition.
Qed.

Lemma set_diff_In : forall x a b, In x (set_diff a b) <-> In x a /\ ~ In x b.
Proof. intros. apply (filter_notin _ (fun y => y)). Qed.

Lemma as_set_norm : forall l, as_set (norm (VSet l)) = l.
Proof. destruct l; reflexivity. Qed.

(* `if self._additions:` / `if self._removals:` -- an empty operand emits nothing *)
Definition opt_op (mk : val -> assign) (s : list Z) : list assign := match s with [] => [] | _ => [mk (VSet s)] end.

Lemma opt_plus_set : forall f s l,
  apply_assigns (opt_op (APlus f) s) (norm (VSet l)) = norm (VSet (set_union l s)).
Proof. intros f [|y s] l; [reflexivity|]. cbn [opt_op apply_assigns fold_left apply_assign]. rewrite as_set_norm. reflexivity. Qed.

Lemma opt_minus_set : forall f s l,
  apply_assigns (opt_op (AMinus f) s) (norm (VSet l)) = norm (VSet (set_diff l s)).
Proof.
  intros f [|y s] l.
  - unfold set_diff. rewrite filter_all by reflexivity. reflexivity.
  - destruct l; reflexivity.
Qed.

Lemma set_diff_self : forall l, set_diff l l = [].
Proof. intros l. apply filter_none. intros x Hx. apply zmem_In in Hx. rewrite Hx. reflexivity. Qed.

(* against an equal previous value both differences are empty, and nothing is emitted either way *)
Lemma set_assigns : forall f vl pl,
  clause_assigns (CSetUpd f (Some vl) None (Some pl)) =
  opt_op (APlus f) (set_diff vl pl) ++ opt_op (AMinus f) (set_diff pl vl).
Proof.
  intros f vl pl. unfold clause_assigns. cbn [clause_render clause_ctx]. unfold set_analyze.
  destruct (opt_zlist_eqb (Some vl) (Some pl)) eqn:Eq.
  - apply zlist_eqb_eq in Eq. subst pl. rewrite set_diff_self. reflexivity.
  - destruct (set_diff vl pl), (set_diff pl vl); reflexivity.
Qed.

Lemma apply_assigns_app : forall a b old, apply_assigns (a ++ b) old = apply_assigns b (apply_assigns a old).
Proof. intros. apply fold_left_app. Qed.

Lemma set_clause_ok : forall f vl prev x,
  In x (as_set (apply_assigns (clause_assigns (CSetUpd f (Some vl) None prev)) (norm (osetv prev)))) <-> In x vl.
Proof.
  intros f vl [pl|] x; [|change (In x (as_set (norm (VSet vl))) <-> In x vl); rewrite as_set_norm; reflexivity].
  rewrite set_assigns, apply_assigns_app. cbn [osetv].
  (* the cell is norm (VSet ((pl + (vl - pl)) - (pl - vl))); membership is read off only now *)
  rewrite opt_plus_set, opt_minus_set, as_set_norm, !set_diff_In, set_union_In, set_diff_In.
  destruct (in_dec Z.eq_dec x vl), (in_dec Z.eq_dec x pl); tauto.
Qed.

Lemma zmap_eqb_refl : forall m, zmap_eqb m m = true.
Proof. induction m as [|[k v] m IH]; simpl; auto. rewrite !Z.eqb_refl. auto. Qed.
Lemma val_eqb_refl : forall v, val_eqb v v = true.
Proof. induction v; simpl; auto using Z.eqb_refl, zmap_eqb_refl; apply zlist_eqb_eq; reflexivity. Qed.

Lemma vm_changed_same : forall c, c_prev c = c_val c -> vm_changed c = false.
Proof.
  intros c H. unfold vm_changed. rewrite H, val_eqb_refl. destruct (c_expl c); [reflexivity|].
  destruct (is_container (c_kind c)); [apply andb_false_r|reflexivity].
Qed.

Lemma bq_fold : forall ops st,
  concat (snd (fold_left bq_step ops st)) ++ fst (fold_left bq_step ops st) = (concat (snd st) ++ fst st) ++ bq_added ops.
Proof.
  intros ops st. apply (fold_left_collect bq_step (fun st => concat (snd st) ++ fst st)). intros [q sent] [s|]; simpl.
  - apply app_assoc.
  - destruct q; simpl; [|rewrite concat_app; simpl]; rewrite !app_nil_r; reflexivity.
Qed.

Lemma or_none_not_nil : forall (A : Type) (l : list A), or_none l <> Some [].
Proof. destruct l; simpl; discriminate. Qed.

Lemma norm_cons_list : forall x l, norm (VList (x :: l)) = VList (x :: l).
Proof. reflexivity. Qed.

Lemma norm_app_list : forall a b, norm (VList (a ++ b)) = match a ++ b with [] => VNone | l => VList l end.
Proof. intros. destruct (a ++ b); reflexivity. Qed.
