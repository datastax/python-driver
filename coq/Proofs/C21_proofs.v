From Coq Require Import ZArith List Bool Lia.
From Verif Require Import LBP ListFacts LBP_base_proofs.
Import ListNotations.
Local Open Scope Z_scope.

(* populate never forgets a host the policy already knows; why the cluster's histories are such: head of Props/C21.v *)
Definition pop_ok (L : Z -> bool) (e : event) : Prop :=
  match e with Populate hs _ _ => forall h, L h = true -> mem h hs = true | _ => True end.
Fixpoint ok_from (L : Z -> bool) (evs : list event) : Prop :=
  match evs with [] => True | e :: r => pop_ok L e /\ ok_from (mstep L e) r end.
Definition delivered (evs : list event) : Prop := ok_from (fun _ => false) evs.

Lemma ok_from_app_l : forall a b L, ok_from L (a ++ b) -> ok_from L a.
Proof.
  induction a as [|x a IH]; intros b L H; [exact I|].
  destruct H as [H1 H2]. split; [exact H1 | exact (IH b _ H2)].
Qed.

Lemma no_populate_ok : forall evs L, forallb (fun e => negb (is_populate e)) evs = true -> ok_from L evs.
Proof.
  induction evs as [|e evs IH]; intros L H; [exact I|].
  apply andb_true_iff in H. destruct H as [H1 H2].
  split; [destruct e; try exact I; discriminate | apply IH; exact H2].
Qed.

Definition rr_inv (wl : option (Z -> bool)) (s : rr_state) (L : Z -> bool) : Prop :=
  enum (rr_live s) (fun h => L h = true /\ allowedb wl h = true).

Lemma rr_inv_init : forall wl, rr_inv wl rr_init (fun _ => false).
Proof. intros. split; [constructor|]. simpl. intuition discriminate. Qed.

Lemma rr_inv_up : forall wl s L h, rr_inv wl s L -> rr_inv wl (rr_on_up wl s h) (fun x => (x =? h) || L x).
Proof.
  intros wl s L h H. unfold rr_on_up, rr_inv. destruct (allowedb wl h) eqn:EA.
  - apply (enum_ext (enum_add_host h H)). intros x. rewrite orb_true_iff, Z.eqb_eq. intuition congruence.
  - (* h joins L but not rr_live: no admitted host is h *)
    assert (Hn : forall x, allowedb wl x = true -> x <> h) by (intros x Hx ->; congruence).
    apply (enum_ext H). intros x. specialize (Hn x). rewrite orb_true_iff, Z.eqb_eq. tauto.
Qed.

Lemma rr_inv_down : forall wl s L h, rr_inv wl s L -> rr_inv wl (rr_on_down s h) (fun x => negb (x =? h) && L x).
Proof.
  intros wl s L h H. apply (enum_ext (enum_remove_host h H)).
  intros x. rewrite andb_true_iff, negb_true_iff, Z.eqb_neq. tauto.
Qed.

Lemma rr_inv_step : forall wl s L e, rr_inv wl s L -> rr_inv wl (rr_step wl s e) (mstep L e).
Proof.
  intros wl s L e H. destruct e as [hs ord r|h|h|h|h|h dc rack|]; simpl.
  - (* Populate *) apply (enum_ext (enum_dedupe _)). intros x. rewrite filter_In, mem_In. tauto.
  - (* Up *) apply rr_inv_up. exact H.
  - (* Down *) apply rr_inv_down. exact H.
  - (* Add *) apply rr_inv_up. exact H.
  - (* Remove *) apply rr_inv_down. exact H.
  - (* SetLocation *) apply (enum_ext (rr_inv_up wl _ _ h (rr_inv_down wl s L h H))).
    intros x. destruct (x =? h); reflexivity.
  - (* MakePlan *) exact H.
Qed.

Lemma rr_plan_enum : forall s ord, enum (rr_plan s ord) (fun h => In h (rr_live s)).
Proof.
  intros s ord. pose proof (enum_set_order ord (rr_live s)) as Ho.
  unfold rr_plan. destruct (Z.eqb_spec (Z.of_nat (length (set_order ord (rr_live s)))) 0) as [E|E].
  - replace [] with (set_order ord (rr_live s)); [exact Ho|]. apply length_zero_iff_nil. lia.
  - exact (enum_rotate _ Ho).
Qed.

(* populate overwrites rr_live, so the two round-robin policies need no hypothesis on the history *)
Lemma rr_steps_enum : forall wl evs ord,
  enum (rr_plan (fold_left (rr_step wl) evs rr_init) ord) (fun h => members evs h = true /\ allowedb wl h = true).
Proof. intros wl evs ord. exact (enum_ext (rr_plan_enum _ ord) (proj2 (fold_left_rel _ _ _ (rr_inv_step wl) evs _ _ (rr_inv_init wl)))). Qed.

Definition binv (key : Z -> Z) (b : buckets) (L : Z -> bool) : Prop :=
  NoDup (map fst b) /\ forall d, enum (bget b d) (fun h => L h = true /\ key h = d).

Definition dca_inv (s : dca_state) (L : Z -> bool) : Prop := binv (dca_dc s) (d_live s) L.

Lemma binv_init : forall key, binv key [] (fun _ => false).
Proof. intros. split; [constructor|]. intros d. split; [constructor|]. simpl. intuition discriminate. Qed.

Lemma binv_In : forall key b L d x, binv key b L -> In x (bget b d) -> L x = true /\ key x = d.
Proof. intros key b L d x [_ HM] Hx. exact (proj1 (proj2 (HM d) x) Hx). Qed.

Lemma binv_ext : forall key b L L', binv key b L -> (forall x, L x = L' x) -> binv key b L'.
Proof.
  intros key b L L' [HK HM] E. split; [exact HK|]. intros d. apply (enum_ext (HM d)). intros h. rewrite E. tauto.
Qed.

Lemma binv_rekey : forall key key' b L, binv key b L -> (forall x, L x = true -> key' x = key x) -> binv key' b L.
Proof.
  intros key key' b L [HK HM] E. split; [exact HK|]. intros d. apply (enum_ext (HM d)).
  intros h. split; intros [H1 H2]; (split; [exact H1|]); [rewrite E | rewrite <- E]; assumption.
Qed.

Lemma binv_update : forall key b L b' L' dc X,
  binv key b L ->
  NoDup (map fst b') -> (forall d, bget b' d = if d =? dc then X else bget b d) ->
  enum X (fun h => L' h = true /\ key h = dc) ->
  (forall h, key h <> dc -> L' h = L h) ->
  binv key b' L'.
Proof.
  intros key b L b' L' dc X [_ HM] HK' Hget HX HL. split; [exact HK'|].
  intros d. rewrite Hget. destruct (Z.eqb_spec d dc) as [->|Hd]; [exact HX|]. apply (enum_ext (HM d)).
  intros h. split; intros [H1 H2]; (split; [|exact H2]); [rewrite HL | rewrite <- HL]; congruence.
Qed.

Lemma binv_add : forall key b L h,
  binv key b L ->
  let cur := bget b (key h) in
  binv key (if mem h cur then b else bset b (key h) (cur ++ [h])) (fun x => (x =? h) || L x).
Proof.
  intros key b L h H cur. pose proof H as [HK HM].
  (* written back or not, the bucket of h now holds add_host h cur *)
  apply (binv_update key b L) with (dc := key h) (X := add_host h cur).
  - exact H.
  - destruct (mem h cur); [exact HK|apply keys_bset, HK].
  - intros d. unfold add_host. destruct (mem h cur); [|apply bget_bset].
    destruct (Z.eqb_spec d (key h)) as [->|]; reflexivity.
  - apply (enum_ext (enum_add_host h (HM (key h)))).
    intros x. rewrite orb_true_iff, Z.eqb_eq. intuition congruence.
  - intros x Hx. destruct (Z.eqb_spec x h) as [->|]; [contradiction|reflexivity].
Qed.

Lemma binv_remove : forall key b L h,
  binv key b L ->
  let dc := key h in
  let cur := bget b dc in
  binv key (if mem h cur then match remove_host h cur with [] => bdel b dc | hosts => bset b dc hosts end else b)
       (fun x => negb (x =? h) && L x).
Proof.
  intros key b L h H dc cur. pose proof H as [HK HM]. destruct (mem h cur) eqn:E.
  - apply (binv_update key b L) with (dc := dc) (X := remove_host h cur).
    + exact H.
    + destruct (remove_host h cur); [apply keys_bdel|apply keys_bset]; exact HK.
    + intros d. destruct (remove_host h cur); [apply bget_bdel|apply bget_bset].
    + apply (enum_ext (enum_remove_host h (HM dc))).
      intros x. rewrite andb_true_iff, negb_true_iff, Z.eqb_neq. tauto.
    + intros x Hx. destruct (Z.eqb_spec x h) as [->|]; [contradiction|reflexivity].
  - apply mem_false in E. apply (binv_ext key b L); [exact H|].
    intros x. destruct (Z.eqb_spec x h) as [->|]; [simpl|reflexivity].
    destruct (L h) eqn:EL; [|reflexivity]. destruct E. apply HM. auto.
Qed.

Lemma binv_merge : forall key b L ord k g,
  binv key b L -> Forall (fun x => key x = k) g ->
  binv key (dca_merge ord b (k, g)) (fun x => L x || mem x g).
Proof.
  intros key b L ord k g H Hg. pose proof H as [HK HM]. rewrite Forall_forall in Hg.
  apply (binv_update key b L) with (dc := k) (X := set_order ord (bget b k ++ g)).
  - exact H.
  - apply keys_bset. exact HK.
  - intros d. apply bget_bset.
  - apply (enum_ext (enum_set_order _ _)).
    intros x. rewrite in_app_iff, (proj2 (HM k)), orb_true_iff, mem_In. specialize (Hg x). tauto.
  - intros x Hx. destruct (mem x g) eqn:E; [apply mem_In, Hg in E; contradiction|apply orb_false_r].
Qed.

Lemma binv_merge_all : forall key ord gs b L,
  binv key b L -> Forall (fun kg => Forall (fun x => key x = fst kg) (snd kg)) gs ->
  binv key (fold_left (dca_merge ord) gs b) (fun x => L x || mem x (flat_map snd gs)).
Proof.
  induction gs as [|[k g] gs IH]; intros b L H Hg; simpl.
  - apply (binv_ext key b L); [exact H|]. intros x. symmetry. apply orb_false_r.
  - inversion Hg as [|? ? Hk Hgs]; subst. apply (binv_ext _ _ _ _ (IH _ _ (binv_merge key b L ord k g H Hk) Hgs)).
    intros x. unfold mem. rewrite existsb_app. symmetry. apply orb_assoc.
Qed.

(* what dca_infer does to the buckets (late inference of local_dc): the hosts filed under key src join bucket c, entry src goes *)
Definition bmove (b : buckets) (src c : Z) : buckets :=
  match bget b src with [] => bdel b src | _ => bset (bdel b src) c (bget (bdel b src) c ++ bget b src) end.

Lemma bget_bmove : forall b src c d, c <> src ->
  bget (bmove b src c) d = if d =? c then bget b c ++ bget b src else if d =? src then [] else bget b d.
Proof.
  intros b src c d Hc. apply Z.eqb_neq in Hc. unfold bmove. destruct (bget b src).
  - rewrite bget_bdel. destruct (Z.eqb_spec d c) as [->|]; [rewrite Hc, app_nil_r|]; reflexivity.
  - rewrite bget_bset, !bget_bdel, Hc. reflexivity.
Qed.

Lemma binv_bmove : forall key key' b L src c, c <> src ->
  (forall h, key' h = if key h =? src then c else key h) ->
  binv key b L -> binv key' (bmove b src c) L.
Proof.
  intros key key' b L src c Hc Hk [HK HM]. split.
  - unfold bmove. destruct (bget b src); [|apply keys_bset]; apply keys_bdel, HK.
  - intros d. rewrite bget_bmove by exact Hc.
    assert (Hkey : forall h, key' h = d <-> if d =? c then key h = c \/ key h = src else d <> src /\ key h = d).
    { intros h. rewrite Hk. destruct (Z.eqb_spec (key h) src), (Z.eqb_spec d c); intuition congruence. }
    destruct (d =? c).
    + assert (D : forall h, L h = true /\ key h = c -> L h = true /\ key h = src -> False) by (intros h [_ H1] [_ H2]; congruence).
      apply (enum_ext (enum_app (HM c) (HM src) D)). intros h. rewrite Hkey. tauto.
    + destruct (Z.eqb_spec d src) as [->|Hd].
      * split; [constructor|]. intros h. rewrite Hkey. simpl. tauto.
      * apply (enum_ext (HM d)). intros h. rewrite Hkey. tauto.
Qed.

Lemma dca_inv_infer : forall s L h, dca_inv s L -> dca_inv (dca_infer s h) L.
Proof.
  intros s L h H. unfold dca_infer.
  destruct (Z.eqb_spec (d_local s) 0) as [E1|]; [|exact H].
  destruct (Z.eqb_spec (host_dc s h) 0) as [|E2]; [exact H|]. destruct (mem h (d_endpoints s)); [|exact H].
  apply (binv_bmove (dca_dc s) _ (d_live s) L (d_local s) (host_dc s h)); [congruence| |exact H].
  intros x. unfold dca_dc, host_dc, key_of. simpl. rewrite E1.
  destruct (aget (e_dc (d_env s)) x =? 0) eqn:Ex; [reflexivity|]. rewrite Ex. reflexivity.
Qed.

Lemma dca_inv_up : forall s L h, dca_inv s L -> dca_inv (dca_on_up s h) (fun x => (x =? h) || L x).
Proof.
  intros s L h H. apply (dca_inv_infer s L h) in H. unfold dca_on_up. set (s1 := dca_infer s h) in *.
  pose proof (binv_add (dca_dc s1) (d_live s1) L h H) as HA. simpl in HA.
  destruct (mem h (bget (d_live s1) (dca_dc s1 h))); exact HA.
Qed.

Lemma dca_inv_down : forall s L h, dca_inv s L -> dca_inv (dca_on_down s h) (fun x => negb (x =? h) && L x).
Proof.
  intros s L h H. unfold dca_on_down.
  pose proof (binv_remove (dca_dc s) (d_live s) L h H) as HA. simpl in HA.
  destruct (mem h (bget (d_live s) (dca_dc s h))); [|exact HA].
  destruct (remove_host h (bget (d_live s) (dca_dc s h))); exact HA.
Qed.

Lemma dca_inv_populate : forall s L hs ord r,
  dca_inv s L -> (forall h, L h = true -> mem h hs = true) -> dca_inv (dca_step s (Populate hs ord r)) (fun h => mem h hs).
Proof.
  intros s L hs ord r H HL.
  apply (binv_ext _ _ _ _ (binv_merge_all (dca_dc s) ord _ _ L H (groupby_keys (dca_dc s) hs))).
  intros x. rewrite groupby_concat. destruct (L x) eqn:E; [symmetry; exact (HL x E)|reflexivity].
Qed.

Lemma dca_inv_set_loc : forall s L h d r, dca_inv s L -> L h = false -> dca_inv (dca_set_loc s h d r) L.
Proof.
  intros s L h d r H Hh. apply (binv_rekey _ _ _ _ H). intros x Hx. unfold dca_dc, host_dc, dca_set_loc.
  cbn [d_env d_local estep e_dc]. rewrite aget_aset. destruct (Z.eqb_spec h x) as [->|]; [congruence|reflexivity].
Qed.

Lemma dca_inv_step : forall s L e, pop_ok L e -> dca_inv s L -> dca_inv (dca_step s e) (mstep L e).
Proof.
  intros s L e Hp H. destruct e as [hs ord r|h|h|h|h|h dc rack|].
  - (* Populate *) apply (dca_inv_populate s L); assumption.
  - (* Up *) apply dca_inv_up. exact H.
  - (* Down *) apply dca_inv_down. exact H.
  - (* Add *) apply dca_inv_up. exact H.
  - (* Remove *) apply dca_inv_down. exact H.
  - (* SetLocation *)
    assert (Hh : negb (h =? h) && L h = false) by (rewrite Z.eqb_refl; reflexivity).
    apply (dca_inv_down s L h) in H. apply (dca_inv_set_loc _ _ h dc rack) in H; [|exact Hh]. apply (dca_inv_up _ _ h) in H.
    apply (binv_ext _ _ _ _ H). intros x. cbn [mstep]. destruct (x =? h); reflexivity.
  - (* MakePlan *) exact H.
Qed.

Lemma dca_inv_run : forall evs s L, ok_from L evs -> dca_inv s L ->
  dca_inv (fold_left dca_step evs s) (fold_left mstep evs L).
Proof.
  induction evs as [|e evs IH]; intros s L Hn H; auto.
  destruct Hn as [H1 H2]. apply IH; [exact H2|]. apply dca_inv_step; assumption.
Qed.

Lemma dca_inv_delivered : forall local used contact e evs, delivered evs ->
  dca_inv (fold_left dca_step evs (dca_init local used contact e)) (members evs).
Proof.
  intros local used contact e evs Hd. apply dca_inv_run; [exact Hd|apply binv_init].
Qed.

Lemma d_used_on_up : forall s h, d_used (dca_on_up s h) = d_used s.
Proof.
  intros s h. assert (E : d_used (dca_infer s h) = d_used s).
  { unfold dca_infer. destruct ((d_local s =? 0) && negb (host_dc s h =? 0) && mem h (d_endpoints s)); reflexivity. }
  rewrite <- E. unfold dca_on_up. destruct (mem h (bget (d_live (dca_infer s h)) (dca_dc (dca_infer s h) h))); reflexivity.
Qed.

Lemma d_used_on_down : forall s h, d_used (dca_on_down s h) = d_used s.
Proof.
  intros s h. unfold dca_on_down. destruct (mem h (bget (d_live s) (dca_dc s h))); [|reflexivity].
  destruct (remove_host h (bget (d_live s) (dca_dc s h))); reflexivity.
Qed.

Lemma d_used_step : forall s e, d_used (dca_step s e) = d_used s.
Proof.
  intros s e. destruct e; simpl; auto using d_used_on_up, d_used_on_down.
  rewrite d_used_on_up. apply d_used_on_down.
Qed.

(* distance() treats used_hosts_per_remote_dc = 0 and a DC without live hosts apart; the slice is empty then *)
Lemma dca_distance_eq : forall s h, dca_distance s h =
  if dca_dc s h =? d_local s then LOCAL
  else if mem h (take_used (d_used s) (bget (d_live s) (dca_dc s h))) then REMOTE else IGNORED.
Proof.
  intros s h. unfold dca_distance. destruct (dca_dc s h =? d_local s); [reflexivity|].
  destruct (Z.eqb_spec (d_used s) 0) as [->|_]; [rewrite take_used_zero; reflexivity|].
  destruct (bget (d_live s) (dca_dc s h)); [rewrite take_used_nil|]; reflexivity.
Qed.

Lemma dca_distance_local : forall s h, dca_distance s h = LOCAL <-> dca_dc s h = d_local s.
Proof.
  intros s h. rewrite dca_distance_eq. destruct (Z.eqb_spec (dca_dc s h) (d_local s)); [tauto|].
  split; [|tauto]. destruct (mem h _); discriminate.
Qed.

Lemma dca_distance_remote : forall s h, dca_distance s h = REMOTE <->
  dca_dc s h <> d_local s /\ In h (take_used (d_used s) (bget (d_live s) (dca_dc s h))).
Proof.
  intros s h. rewrite dca_distance_eq, <- mem_In. destruct (Z.eqb_spec (dca_dc s h) (d_local s)).
  - split; [discriminate|tauto].
  - destruct (mem h _); intuition congruence.
Qed.

Section Plans.
  Variable s : dca_state.
  Variable L : Z -> bool.
  Hypothesis HI : dca_inv s L.

  Lemma dca_live_key : forall d x, In x (bget (d_live s) d) -> dca_dc s x = d.
  Proof. intros d x Hx. exact (proj2 (binv_In _ _ _ d x HI Hx)). Qed.

  Lemma dca_local_part_enum : enum (dca_local_part s) (fun h => L h = true /\ dca_distance s h = LOCAL).
  Proof.
    assert (H : enum (bget (d_live s) (d_local s)) (fun h => L h = true /\ dca_distance s h = LOCAL)).
    { apply (enum_ext (proj2 HI (d_local s))). intros h. rewrite dca_distance_local. tauto. }
    unfold dca_local_part. destruct (bget (d_live s) (d_local s)); [exact H|].
    exact (enum_rotate _ H).
  Qed.

  Lemma dca_remote_part_enum : enum (dca_remote_part s) (fun h => dca_distance s h = REMOTE).
  Proof.
    set (f := fun kl : Z * list Z => if fst kl =? d_local s then [] else take_used (d_used s) (snd kl)).
    assert (HN : forall d, NoDup (f (d, bget (d_live s) d))).
    { intros d. unfold f. simpl. destruct (d =? d_local s); [constructor|]. apply NoDup_take_used, (proj1 (proj2 HI d)). }
    apply (enum_ext (enum_flat_map_buckets (dca_dc s) f (take_remote_incl _ _) _ (proj1 HI) dca_live_key HN)).
    intros h. rewrite dca_distance_remote. unfold f. simpl. destruct (Z.eqb_spec (dca_dc s h) (d_local s)); simpl; tauto.
  Qed.

  Lemma dca_remote_part_bound : 0 <= d_used s -> forall d,
    Nat.le (length (filter (fun x => dca_dc s x =? d) (dca_remote_part s))) (Z.to_nat (d_used s)).
  Proof.
    intros Hu d. unfold dca_remote_part.
    rewrite (filter_flat_map_buckets (dca_dc s) _ (take_remote_incl _ _) _ d (proj1 HI) dca_live_key). simpl.
    destruct (d =? d_local s); [simpl; lia|apply length_take_used; exact Hu].
  Qed.

  Lemma dca_remote_live : forall h, dca_distance s h = REMOTE -> L h = true.
  Proof.
    intros h H. apply dca_distance_remote in H. destruct H as [_ H]. apply In_take_used in H.
    exact (proj1 (binv_In _ _ _ _ h HI H)).
  Qed.

  Lemma dca_plan_enum : enum (dca_plan s) (fun h => L h = true /\ dca_distance s h <> IGNORED).
  Proof.
    assert (D : forall h, L h = true /\ dca_distance s h = LOCAL -> dca_distance s h = REMOTE -> False)
      by (intros h [_ H1] H2; congruence).
    apply (enum_ext (enum_app dca_local_part_enum dca_remote_part_enum D)).
    intros h. pose proof (dca_remote_live h) as Hr. destruct (dca_distance s h); intuition congruence.
  Qed.
End Plans.

Lemma plan3_facts : forall s0 s1 s2 L0 L2 h, dca_inv s0 L0 -> dca_inv s2 L2 ->
  (In h (dca_plan3 s0 s1 s2) -> (L0 h = true /\ dca_distance s0 h = LOCAL) \/ L2 h = true) /\
  (d_local s1 = d_local s2 ->
   (L0 h = true /\ dca_distance s0 h = LOCAL) \/ (dca_distance s2 h = REMOTE /\ bget (d_live s1) (dca_dc s2 h) <> []) ->
   In h (dca_plan3 s0 s1 s2)).
Proof.
  intros s0 s1 s2 L0 L2 h H0 H2. pose proof (proj2 (dca_local_part_enum s0 L0 H0) h) as Hloc. unfold dca_plan3. split.
  - intros Hin. apply in_app_or in Hin. destruct Hin as [Hin|Hin]; [left; apply Hloc, Hin|right].
    apply in_flat_map in Hin. destruct Hin as [dc [_ Hh]].
    destruct (dc =? d_local s1); [destruct Hh|]. apply In_take_used in Hh. exact (proj1 (binv_In _ _ _ _ h H2 Hh)).
  - intros Hl [Hc|[Hr Hk]]; apply in_or_app; [left; apply Hloc, Hc|right].
    apply (dca_distance_remote s2) in Hr. destruct Hr as [Hne Hin].
    apply in_flat_map. exists (dca_dc s2 h). split; [apply bget_key_In; exact Hk|].
    rewrite Hl. destruct (Z.eqb_spec (dca_dc s2 h) (d_local s2)); [tauto|exact Hin].
Qed.

Lemma b_steps : forall b evs s, fold_left (b_step b) evs s =
  match s with SRR r => SRR (fold_left (rr_step (b_wl b)) evs r) | SDCA d => SDCA (fold_left dca_step evs d) end.
Proof. intros b. induction evs as [|e evs IH]; intros [r|d]; [reflexivity | reflexivity | apply IH | apply IH]. Qed.

Lemma rr_run_enum : forall b e evs ord, is_rr b = true ->
  enum (b_plan (b_run b e evs) ord) (fun h => members evs h = true /\ allowedb (b_wl b) h = true).
Proof.
  intros b e evs ord Hb. unfold b_run. rewrite b_steps. destruct b; try discriminate Hb; apply rr_steps_enum.
Qed.

Lemma b_run_enum : forall b e evs ord, delivered evs ->
  enum (b_plan (b_run b e evs) ord) (fun h => members evs h = true /\ b_distance b (b_run b e evs) h <> IGNORED).
Proof.
  intros b e evs ord Hd. unfold b_run. rewrite b_steps. destruct b; simpl.
  1, 2: apply (enum_ext (rr_steps_enum _ evs ord)); intros h; unfold rr_distance; destruct (allowedb _ h); intuition congruence.
  apply dca_plan_enum, dca_inv_delivered, Hd.
Qed.
