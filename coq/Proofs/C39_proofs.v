(* C39 over Model/Encryption.v: PKCS7 padding round-trips; under the round-trip laws assumed of AES and of the value codec so do a
   cell, a row and all rows; the policy plays no part. *)
From Coq Require Import ZArith List Lia.
From Verif Require Import ListFacts Encryption.
Import ListNotations.
Local Open Scope Z_scope.

Lemma pad_len_range : forall x, (1 <= pad_len x <= 16)%nat.
Proof. intros x. unfold pad_len. pose proof (Nat.mod_upper_bound (length x) 16). lia. Qed.

Lemma pad_aligned : forall x, (length (pad x) mod 16 = 0)%nat.
Proof.
  intros x. unfold pad, pad_len. rewrite app_length, repeat_length.
  pose proof (Nat.div_mod (length x) 16 ltac:(lia)). pose proof (Nat.mod_upper_bound (length x) 16 ltac:(lia)).
  replace (length x + (16 - length x mod 16))%nat with ((length x / 16 + 1) * 16)%nat by lia. apply Nat.mod_mul. lia.
Qed.

Lemma last_repeat : forall (v : Z) n l d, last (l ++ repeat v (S n)) d = v.
Proof. intros v n l d. cbn [repeat]. rewrite repeat_cons, app_assoc. apply last_last. Qed.

Lemma forallb_repeat : forall v n, forallb (Z.eqb v) (repeat v n) = true.
Proof. intros v n. induction n as [|n IH]; [reflexivity|]. cbn. rewrite Z.eqb_refl, IH. reflexivity. Qed.

Lemma unpad_pad : forall x, unpad (pad x) = Some x.
Proof.
  intros x. unfold unpad. rewrite (pad_aligned x). pose proof (pad_len_range x) as Hr. unfold pad.
  destruct (pad_len x) as [|n]; [lia|]. rewrite last_repeat, app_length, repeat_length, Nat2Z.id.
  destruct (Nat.eqb_spec (length x + S n) 0); [lia|]. cbn [Nat.eqb negb orb].
  destruct (Z.leb_spec 1 (Z.of_nat (S n))); [|lia]. destruct (Z.leb_spec (Z.of_nat (S n)) 16); [|lia]. cbn [andb].
  replace (length x + S n - S n)%nat with (length x) by lia.
  rewrite skipn_app_len, forallb_repeat, firstn_app_len. reflexivity.
Qed.

Lemma all_some_cons : forall {A} (o : option A) l r, all_some (o :: l) = Some r ->
  exists a r', o = Some a /\ all_some l = Some r' /\ r = a :: r'.
Proof.
  intros A o l r H. cbn [all_some] in H. destruct o as [a|]; [|discriminate].
  destruct (all_some l) as [r'|]; [|discriminate]. inversion H; subst. eauto.
Qed.

Lemma desc_eqb_refl : forall d, desc_eqb d d = true.
Proof. intros [[a b] c]. unfold desc_eqb. rewrite !Z.eqb_refl. reflexivity. Qed.

Section EncProofs.
  Variable V T : Type.
  Variable ser : T -> V -> option (list Z).
  Variable deser : T -> list Z -> option V.
  Variable enc dec : list Z -> list Z -> list Z -> list Z.
  Hypothesis aes_roundtrip : forall k iv x, (length x mod 16 = 0)%nat -> dec k iv (enc k iv x) = x.
  Hypothesis codec_roundtrip : forall t v b, ser t v = Some b -> deser t b = Some v.

  Lemma decrypt_encrypt : forall k iv x, length iv = 16%nat -> decrypt dec k (encrypt enc k iv x) = Some x.
  Proof.
    intros k iv x Hiv. unfold decrypt, encrypt. rewrite <- Hiv.
    rewrite firstn_app_len, skipn_app_len, aes_roundtrip by apply pad_aligned. apply unpad_pad.
  Qed.

  Lemma cell_roundtrip : forall iv c v w, length iv = 16%nat ->
    bind_cell V T ser enc iv c v = Some w -> decode_val V T deser dec c w = Some v.
  Proof.
    intros iv c v w Hiv H. unfold bind_cell, eff_type in H. unfold decode_val. destruct v as [x|].
    - (* a serialization that raised leaves no H; left: encrypted column, plain column *)
      destruct (ce_key c) as [k|]; destruct (ser _ x) as [b|] eqn:Es; inversion H.
      + rewrite decrypt_encrypt by exact Hiv. rewrite (codec_roundtrip _ _ _ Es). reflexivity.
      + rewrite (codec_roundtrip _ _ _ Es). reflexivity.
    - inversion H. destruct (ce_key c); reflexivity.
  Qed.

  Lemma row_roundtrip : forall iv vals cols w, length iv = 16%nat -> (length vals <= length cols)%nat ->
    bind_row V T ser enc iv cols vals = Some w ->
    decode_row_with V T (decode_val V T deser dec) cols w = Some vals.
  Proof.
    intros iv vals. unfold bind_row, decode_row_with.
    induction vals as [|v vals IH]; intros cols w Hiv Hlen H; [inversion H; reflexivity|].
    destruct cols as [|c cols]; [cbn in Hlen; lia|]. cbn [zip_with] in H.
    apply all_some_cons in H. destruct H as [cell [w' [Hc [Hr ->]]]]. cbn [zip_with all_some].
    rewrite (cell_roundtrip _ _ _ _ Hiv Hc), (IH cols w' Hiv); [reflexivity|cbn in Hlen; lia|exact Hr].
  Qed.

  Lemma rows_roundtrip : forall iv cols rows wire, length iv = 16%nat ->
    Forall (fun r => length r <= length cols)%nat rows ->
    bind_rows V T ser enc iv cols rows = Some wire ->
    decode_rows V T deser dec cols wire = Some rows.
  Proof.
    intros iv cols rows wire Hiv Hall. unfold bind_rows, decode_rows, decode_rows_with. revert wire.
    induction Hall as [|r rows Hr _ IH]; intros wire H; [inversion H; reflexivity|].
    cbn [map] in H. apply all_some_cons in H. destruct H as [w [wire' [Hw [Hrest ->]]]]. cbn [map all_some].
    rewrite (row_roundtrip _ _ _ _ Hiv Hr Hw), (IH wire' Hrest). reflexivity.
  Qed.

  Lemma bind_row_nth : forall iv vals cols w i c v, bind_row V T ser enc iv cols vals = Some w ->
    nth_error cols i = Some c -> nth_error vals i = Some v ->
    exists cell, nth_error w i = Some cell /\ bind_cell V T ser enc iv c v = Some cell.
  Proof.
    intros iv vals. unfold bind_row.
    induction vals as [|v0 vals IH]; intros cols w i c v H Hc Hv; [destruct i; discriminate|].
    destruct cols as [|c0 cols]; [destruct i; discriminate|]. cbn [zip_with] in H.
    apply all_some_cons in H. destruct H as [cell [w' [Hcell [Hr ->]]]].
    destruct i as [|i]; cbn [nth_error] in *; [inversion Hc; inversion Hv; subst; eauto|eapply IH; eauto].
  Qed.

  Lemma sent_cell : forall iv vals cols w i c, bind_row V T ser enc iv cols vals = Some w -> nth_error cols i = Some c ->
    (forall k x, ce_key c = Some k -> nth_error vals i = Some (Some x) ->
       exists b, ser (pol_type c) x = Some b /\ nth_error w i = Some (Some (encrypt enc k iv b))) /\
    (nth_error vals i = Some None -> nth_error w i = Some None) /\
    (forall x, ce_key c = None -> nth_error vals i = Some (Some x) ->
       exists b, ser (meta_type c) x = Some b /\ nth_error w i = Some (Some b)).
  Proof.
    intros iv vals cols w i c H Hc. pose proof (fun v => bind_row_nth _ _ _ _ _ _ v H Hc) as N.
    unfold bind_cell, eff_type in N. split; [|split].
    - intros k x Hk Hv. destruct (N _ Hv) as [cell [Hn Hb]]. rewrite Hk in Hb.
      destruct (ser (pol_type c) x) as [b|]; inversion Hb; subst; eauto.
    - intros Hv. destruct (N _ Hv) as [cell [Hn Hb]]. inversion Hb; subst. exact Hn.
    - intros x Hk Hv. destruct (N _ Hv) as [cell [Hn Hb]]. rewrite Hk in Hb.
      destruct (ser (meta_type c) x) as [b|]; inversion Hb; subst; eauto.
  Qed.

  Lemma add_column_wins : forall (p : policy T) d k t, pol_find T (add_column T p d k t) d = Some (k, t).
  Proof. intros. cbn [add_column pol_find]. rewrite desc_eqb_refl. reflexivity. Qed.

  Lemma resolved_roundtrip : forall (p : policy T) ms iv rows wire, length iv = 16%nat ->
    Forall (fun r => length r <= length ms)%nat rows ->
    bind_rows V T ser enc iv (map (resolve T p) ms) rows = Some wire ->
    decode_rows V T deser dec (map (resolve T p) ms) wire = Some rows.
  Proof.
    intros p ms iv rows wire Hiv Hall. apply rows_roundtrip; [exact Hiv|].
    rewrite map_length. exact Hall.
  Qed.

  Lemma handler_is_stmt_policy : forall (w : world T) sessions s sh,
    handler_policy T w sessions s = stmt_policy T w (nth s sessions 0%nat) sh.
  Proof. intros w sessions s sh. destruct sh; reflexivity. Qed.

  Lemma pstep_round_keeps : forall (p : policy T) ms iv rows, fst (pstep V T ser deser enc dec p (PRound V T ms iv rows)) = p.
  Proof. reflexivity. Qed.

  Lemma pstep_decode_keeps : forall (p : policy T) ms wire, fst (pstep V T ser deser enc dec p (PDecode V T ms wire)) = p.
  Proof. reflexivity. Qed.

End EncProofs.
