(* With a finite timeout, punctual timers and the per-page timer reset (pf = true), an unfinished page fetch
   is never older than timeout + 30 ms: while it has no outcome, some live timer that is not overdue stands for it (covers). *)
From Coq Require Import ZArith List Bool Lia.
From Verif Require Import ListFacts FutureState FutureOnce FutureOnce_effects C14_proofs.
Import ListNotations.
Local Open Scope Z_scope.

Lemma eff_keeps_timers g s s' : Eff g s s' -> final_set s' = false ->
  final_set s = false /\ forall j t, nth_error (timers s) j = Some t -> nth_error (timers s') j = Some t.
Proof.
  induction 1 as [s|s1 s2 s3 _ IH1 _ IH2|s s' ((hr & he & _) & _ & _ & Ht & _)|k d s|o s _|prep h s|a s|q s _|s _]; intros Hf;
    try (split; [exact Hf|intros j t H; exact H]; fail).   (* refl, clear, queue, tfired *)
  - destruct (IH2 Hf) as (f2 & K2). destruct (IH1 f2) as (f1 & K1). split; [exact f1|]. intros j t H. apply K2, K1, H.
  - (* frame *) unfold final_set in *. rewrite hr, he in Hf. rewrite Ht. split; [exact Hf|]. intros j t H. exact H.
  - split; [exact Hf|]. intros j t H. apply nth_app_old, H.
  - rewrite final_set_final in Hf. discriminate.
  - unfold query_gen in *. destruct (pool_of _ _); (split; [exact Hf|intros j t H; exact H]).
Qed.

(* up to the deadline send_request() does not call _on_timeout *)
Lemma send_loop_in_time g err : forall pl s, timed_out_now s = false -> final_set (send_loop g err pl s) = false ->
  cur_timer (send_loop g err pl s) = cur_timer s /\ (err = true -> attempts (send_loop g err pl s) <> []).
Proof.
  induction pl as [|h rest IH]; intros s Ht; cbn [send_loop].
  - destruct err; [rewrite final_after_exception; discriminate|]. intros _. split; [reflexivity|discriminate].
  - pose proof (query_gen_shape false h s) as Hq. fold (query h s) in Hq.
    assert (Hk : cur_timer (fst (query h s)) = cur_timer s /\ timed_out_now (fst (query h s)) = timed_out_now s)
      by (unfold query, query_gen; destruct (pool_of _ _); split; reflexivity).
    destruct (query h s) as [s1 r]. cbn [fst] in Hk. destruct Hk as (Hct & Hto), Hq as (_ & _ & q7). rewrite Ht in Hto. destruct r.
    + intros _. split; [exact Hct|]. intros _. cbn. rewrite (proj1 q7). apply app_one_nonnil.
    + rewrite Hto, <- Hct. exact (IH s1 Hto).
Qed.

Lemma live_fired t : live (mark_fired t) = false.
Proof. cbn. apply andb_false_r. Qed.

Lemma start_timer_creates s T : cur_timer s = None -> timeout s = Some T -> now s <= start s + T ->
  exists t, timers (start_timer s) = timers s ++ [t] /\ live t = true /\ now s <= due t /\
            match tk t with
            | TSpec => specs s <> [] /\ due t <= start s + T
            | TTimeout n => n = 0%nat /\ due t = start s + T
            end.
Proof.
  intros Hc HT Hn. unfold start_timer. rewrite Hc.
  set (s1 := set_specs (tl (specs s)) s).
  unfold time_remaining. change (timeout s1) with (timeout s). rewrite HT.
  change (start s1) with (start s). change (now s1) with (now s).
  destruct (_ && _) eqn:E; (eexists; split; [reflexivity|]; split; [reflexivity|]; cbn).
  - apply andb_prop in E. split; [lia|]. split; [destruct (specs s); [destruct E|]; discriminate|lia].
  - split; [lia|]. split; [reflexivity|lia].
Qed.

(* the fairness hypothesis of C15_bounded: no tick passes the due time of a live timer (Z.max 0 d is the advance `step` makes) *)
Definition punctual_tick (s : state) (d : Z) : Prop :=
  forall j t, nth_error (timers s) j = Some t -> live t = true -> now s + d <= due t.

Definition punctual_op (s : state) (o : op) : Prop :=
  match o with Tick d => punctual_tick s (Z.max 0 d) | _ => True end.

Fixpoint punctual (g pf : bool) (s : state) (h : list op) : Prop :=
  match h with
  | [] => True
  | o :: r => punctual_op s o /\ punctual g pf (step g pf s o) r
  end.

Section Main.
Variable T : Z.
Hypothesis HT : 0 <= T.   (* used where a page fetch starts: its deadline start + T is not in the past *)

(* A live timer that is not overdue covers the missing outcome: the timeout handler (re-armed n times), or, once a request is
   out, the next speculative execution, which will arm the handler in its turn. *)
Definition covers (s : state) (t : timer) : Prop :=
  live t = true /\ now s <= due t /\
  match tk t with
  | TTimeout n => (n <= 3)%nat /\ due t <= start s + T + 10 * Z.of_nat n
  | TSpec => attempts s <> [] /\ due t <= start s + T
  end.

Definition Covered (s : state) : Prop := exists j t, nth_error (timers s) j = Some t /\ covers s t.

Definition Watched (s : state) : Prop := final_set s = false -> Covered s.

Definition TInv (s : state) : Prop := timeout s = Some T /\ start s = pstart s /\ Watched s.

Definition CInv (s : state) : Prop := TInv s /\ SInv s.

Lemma Covered_eff g s s' : Covered s -> Eff g s s' -> final_set s' = false -> Covered s'.
Proof.
  intros (j & t & Hj & Hl & Hn & Hc) E Hf. destruct (eff_keeps_timers g _ _ E Hf) as (_ & K).
  destruct (eff_time g _ _ E) as (_ & Hst & _ & Hnow).
  exists j, t. split; [apply K, Hj|]. split; [exact Hl|]. rewrite Hnow, Hst. split; [exact Hn|].
  destruct (tk t); [split; [apply (eff_sent g _ _ E)|]; apply Hc|exact Hc].
Qed.

Lemma TInv_frame s s' : timeout s = Some T -> start s = pstart s -> frameT s s' -> Watched s' -> TInv s'.
Proof. intros h1 h2 (f1 & f2 & f3 & _) HJ. unfold TInv. rewrite f1, f2, f3. exact (conj h1 (conj h2 HJ)). Qed.

Lemma TInv_eff s s' : TInv s -> Eff true s s' -> TInv s'.
Proof.
  intros (h1 & h2 & h4) E. apply (TInv_frame s _ h1 h2 (eff_time true _ _ E)).
  intros Hf. exact (Covered_eff true s s' (h4 (proj1 (eff_keeps_timers true _ _ E Hf))) E Hf).
Qed.

(* res: where the call that ran _start_timer() ends.  A speculative timer covers only with a request out, which there is
   by then unless no speculative execution is planned. *)
Lemma Covered_armed s res :
  cur_timer s = None -> timeout s = Some T -> now s <= start s + T -> Eff true (start_timer s) res ->
  final_set res = false -> attempts res <> [] \/ specs s = [] -> Covered res.
Proof.
  intros Hc Ht Hnow E Hf Hne. destruct (eff_time true _ _ E) as (_ & f2 & _ & f4). destruct (eff_keeps_timers true _ _ E Hf) as (_ & K).
  destruct (calm_time _ _ (calm_start_timer s)) as (_ & g2 & _ & g4).
  destruct (start_timer_creates s T Hc Ht Hnow) as (tn & Htn & Hln & Hdn & Hkind).
  exists (length (timers s)), tn. split; [apply K; rewrite Htn; apply (nth_error_app_len _ [_])|]. split; [exact Hln|]. rewrite f2, f4, g2, g4.
  split; [exact Hdn|].
  destruct (tk tn); [destruct Hkind as (Hsp & Hd); destruct Hne as [Hne|Hne]; [split; [exact Hne|lia]|contradiction]|].
  destruct Hkind as (-> & Hd). lia.
Qed.

Lemma TInv_armed s res :
  cur_timer s = None -> timeout s = Some T -> start s = pstart s -> now s <= start s + T ->
  Eff true (start_timer s) res -> (final_set res = false -> attempts res <> [] \/ specs s = []) -> TInv res.
Proof.
  intros Hc Ht Hst Hnow E Hne.
  apply (TInv_frame s _ Ht Hst (frameT_trans _ _ _ (calm_time _ _ (calm_start_timer s)) (eff_time true _ _ E))).
  intros Hf. apply (Covered_armed s); auto.
Qed.

Lemma in_time s : timeout s = Some T -> now s <= start s + T -> timed_out_now s = false.
Proof. intros Ht H. unfold timed_out_now. rewrite Ht. apply Z.ltb_ge. lia. Qed.

(* how a page fetch starts; s1: the op Send notes that it ran (ghost `started`) between the two calls *)
Lemma TInv_armed_sent s s1 :
  cur_timer s = None -> timeout s = Some T -> start s = pstart s -> now s <= start s + T ->
  frame (start_timer s) s1 -> TInv (send_request true true s1).
Proof.
  intros Hc Ht Hst Hnow F. apply (TInv_armed s); try assumption; [exact (eff_after true _ _ _ F (eff_send_request true true s1))|].
  intros Hf. left. apply (send_loop_in_time true true (plan s1) s1); [|exact Hf|reflexivity].
  destruct F as (_ & (f1 & f2 & _ & f4) & _), (calm_time _ _ (calm_start_timer s)) as (g1 & g2 & _ & g4).
  apply in_time; [rewrite f1, g1; exact Ht|rewrite f2, f4, g2, g4; exact Hnow].
Qed.

(* _on_timeout(_attempts = n) re-arms itself for 10 ms, while n < 3 *)
Lemma Covered_on_timeout n s : now s <= start s + T + 10 * Z.of_nat n ->
  final_set (on_timeout true n s) = false -> Covered (on_timeout true n s).
Proof.
  intros Hn Hf. destruct (on_timeout_cases true n s) as [(_ & Hn3 & Heq)|Hfin]; [|congruence]. rewrite Heq.
  exists (length (timers s)), (mkTimer (TTimeout (S n)) (now s + 10) false false).
  split; [apply (nth_error_app_len _ [_])|]. split; [reflexivity|]. cbn [tk due now start new_timer set_cur_timer set_timers]. lia.
Qed.

(* at the deadline _on_speculative_execute is _on_timeout(0); before, it sends again, which leaves self._timer cleared, so
   _start_timer() arms the next timer *)
Lemma Covered_on_spec s :
  timeout s = Some T -> now s <= start s + T -> event s = false -> attempts s <> [] ->
  final_set (on_spec true s) = false -> Covered (on_spec true s).
Proof.
  intros h1 Hn He Hne. unfold on_spec. set (s0 := set_cur_timer None s).
  change (event s0) with (event s). change (attempts s0) with (attempts s). rewrite He.
  destruct (attempts s) as [|a0 al] eqn:Ea; [contradiction|].
  fold (expired s0). destruct (expired s0); [apply (Covered_on_timeout 0 s0); cbn; lia|].
  set (s2 := send_request true false s0). intros Hf.
  pose proof (eff_send_request true false s0) as E2. fold s2 in E2.
  destruct (eff_time _ _ _ E2) as (g1 & g2 & _ & g4).
  assert (Hf2 : final_set s2 = false) by (rewrite <- (same_view_final _ _ (calm_view _ _ (calm_start_timer s2))); exact Hf).
  assert (Hc2 : cur_timer s2 = None)
    by (apply (send_loop_in_time true false (plan s0) s0); [exact (in_time s0 h1 Hn)|exact Hf2]).
  assert (Ht2 : timeout s2 = Some T) by (rewrite g1; exact h1).
  assert (Hn2 : now s2 <= start s2 + T) by (rewrite g2, g4; exact Hn).
  assert (Hne2 : attempts (start_timer s2) <> []).
  { rewrite (calm_attempts _ _ (calm_start_timer s2)). apply (eff_sent _ _ _ E2). change (attempts s0) with (attempts s). rewrite Ea. discriminate. }
  exact (Covered_armed s2 (start_timer s2) Hc2 Ht2 Hn2 (Eff_refl true _) Hf (or_introl Hne2)).
Qed.

Lemma Covered_handler s t :
  timeout s = Some T -> event s = false -> covers s t ->
  final_set (handler true t s) = false -> Covered (handler true t s).
Proof.
  intros h1 He (_ & Hn & Hc). unfold handler. destruct (tk t) as [|n].
  - destruct Hc as (Hne & Hd). apply Covered_on_spec; try assumption. lia.
  - apply Covered_on_timeout. lia.
Qed.

Lemma TInv_fire s k t :
  TInv s -> event s = final_set s -> nth_error (timers s) k = Some t -> TInv (handler true t (timer_fired k s)).
Proof.
  intros (h1 & h2 & h4) He Hk. set (s1 := timer_fired k s). set (res := handler true t s1).
  pose proof (eff_handler true t s1 : Eff true s1 res) as E.
  apply (TInv_frame s1 _ h1 h2 (eff_time true _ _ E)).
  intros Hf. pose proof (proj1 (eff_keeps_timers _ _ _ E Hf)) as Hf0.
  destruct (h4 Hf0) as (j & tw & Hj & Hc). destruct (Nat.eq_dec j k) as [->|Hne].
  - rewrite Hk in Hj. inversion Hj. subst tw. exact (Covered_handler s1 t h1 (eq_trans He Hf0) Hc Hf).
  - apply (Covered_eff true s1 res); [|exact E|exact Hf]. exists j, tw. split; [|exact Hc].
    cbn. rewrite nth_error_update_at, (proj2 (Nat.eqb_neq _ _) Hne). exact Hj.
Qed.

Lemma page_timer_reset_true s : page_timer_reset true s = set_start (now s) (set_cur_timer None (cancel_timer s)).
Proof. reflexivity. Qed.

Lemma TInv_next_page pl s : timeout s = Some T -> TInv (next_page true true pl s).
Proof.
  intros h1.
  unfold next_page. rewrite page_timer_reset_true.
  generalize (page_reset pl s) (page_reset_keeps pl s). intros s1 (ht & rn & rp & _).
  destruct (calm_time _ _ (calm_cancel s1)) as (c1 & _ & c3 & c4).
  apply (TInv_armed_sent (set_start (now s1) (set_cur_timer None (cancel_timer s1)))); [reflexivity| | | |repeat split].
  - cbn. rewrite c1, ht. exact h1.
  - cbn. rewrite c3. congruence.
  - cbn. rewrite c4. lia.
Qed.

Lemma TInv_step s o : CInv s -> punctual_op s o -> TInv (step true true s o).
Proof.
  intros (H & (He & _)) Hp. revert Hp.
  destruct (step_Op true true s o) as [o s' E|d|k t Hk|pl _|]; intros Hp.
  - exact (TInv_eff s _ H E).
  - (* Tick: punctuality keeps the covering timer not overdue *)
    destruct H as (h1 & h2 & h4). refine (conj h1 (conj h2 _)). intros Hf. destruct (h4 Hf) as (j & t & Hj & Hl & _ & Hc).
    exists j, t. exact (conj Hj (conj Hl (conj (Hp j t Hj Hl) Hc))).
  - exact (TInv_fire s k t H He Hk).
  - exact (TInv_next_page pl s (proj1 H)).
  - exact H.
Qed.

Lemma CInv_step s o : CInv s -> punctual_op s o -> CInv (step true true s o).
Proof. intros H Hp. exact (conj (TInv_step s o H Hp) (SInv_step true s o (proj2 H))). Qed.

(* __init__ followed at once by Session.execute_async's send_request() *)
Lemma CInv_start c : c_timeout c = Some T -> CInv (step true true (init c) Send).
Proof.
  intros Hc. split; [|exact (SInv_step true _ Send (SInv_init c))].
  cbn [step]. rewrite init_eq. apply (TInv_armed_sent (init0 c)); try assumption; try reflexivity; [cbn; lia|repeat split].
Qed.

(* no speculative execution configured: the bound needs no assumption about when (or whether) send_request() happens *)
Lemma CInv_init_nospec c : c_timeout c = Some T -> c_specs c = [] -> CInv (init c).
Proof.
  intros Hc Hsp. split; [|exact (SInv_init c)]. rewrite init_eq.
  apply (TInv_armed (init0 c)); try assumption; try reflexivity; [cbn; lia|apply Eff_refl|].
  intros _. right. exact Hsp.
Qed.

Lemma CInv_run : forall h s, CInv s -> punctual true true s h -> CInv (run true true s h).
Proof.
  induction h as [|o h IH]; intros s H Hp; [exact H|]. destruct Hp as (Ho & Hr).
  apply IH; [apply CInv_step; assumption|exact Hr].
Qed.

Lemma CInv_bound s : CInv s -> final_set s = false -> now s <= pstart s + T + 30.
Proof.
  intros ((_ & h2 & h4) & _) Hf. destruct (h4 Hf) as (j & t & _ & _ & Hn & Hc). destruct (tk t); lia.
Qed.

End Main.

Lemma min_among {A} (p : A -> bool) (f : A -> Z) (l : list A) :
  (forall j x, nth_error l j = Some x -> p x = false)
  \/ exists k x, nth_error l k = Some x /\ p x = true /\ forall j y, nth_error l j = Some y -> p y = true -> f x <= f y.
Proof.
  induction l as [|a l IH]; [left; intros [|j] x Hj; discriminate|].
  destruct (p a) eqn:Ea, IH as [Hnone|(k & x & Hk & Hx & Hmin)].
  - right. exists 0%nat, a. repeat split; try assumption.
    intros [|j] y Hj Hy; [inversion Hj; lia|]. rewrite (Hnone j y Hj) in Hy. discriminate.
  - right. destruct (Z_le_gt_dec (f a) (f x)) as [Hle|Hgt].
    + exists 0%nat, a. repeat split; try assumption.
      intros [|j] y Hj Hy; [inversion Hj; lia|]. specialize (Hmin j y Hj Hy). lia.
    + exists (S k), x. repeat split; try assumption.
      intros [|j] y Hj Hy; [inversion Hj; subst; lia|]. exact (Hmin j y Hj Hy).
  - left. intros [|j] y Hj; [inversion Hj; subst; exact Ea|exact (Hnone j y Hj)].
  - right. exists (S k), x. repeat split; try assumption.
    intros [|j] y Hj Hy; [inversion Hj; subst; congruence|exact (Hmin j y Hj Hy)].
Qed.

(* whichever tick is refused, the earliest live timer is due before its end, and can fire now or after an admissible tick *)
Lemma tick_or_fire (s : state) (d : Z) :
  punctual_tick s d
  \/ exists k t, nth_error (timers s) k = Some t /\ live t = true /\ due t < now s + d
                 /\ (due t <= now s \/ punctual_tick s (due t - now s)).
Proof.
  destruct (min_among live due (timers s)) as [Hnone|(k & t & Hk & Hl & Hmin)].
  - left. intros j t Hj Hl. rewrite (Hnone j t Hj) in Hl. discriminate.
  - destruct (Z_lt_le_dec (due t) (now s + d)) as [Hlt|Hge].
    + right. exists k, t. repeat split; try assumption.
      destruct (Z_le_gt_dec (due t) (now s)) as [Hle|Hgt]; [left; exact Hle|right].
      intros j t' Hj Hl'. specialize (Hmin j t' Hj Hl'). lia.
    + left. intros j t' Hj Hl'. specialize (Hmin j t' Hj Hl'). lia.
Qed.

(* a concrete history is punctual: by evaluation *)
Fixpoint punctualb (g pf : bool) (s : state) (h : list op) : bool :=
  match h with
  | [] => true
  | o :: r => match o with Tick d => forallb (fun t => negb (live t) || (now s + Z.max 0 d <=? due t)) (timers s) | _ => true end && punctualb g pf (step g pf s o) r
  end.

Lemma punctualb_sound g pf : forall h s, punctualb g pf s h = true -> punctual g pf s h.
Proof.
  induction h as [|o h IH]; intros s H; [exact I|]. apply andb_prop in H as (Ho & Hr). split; [|exact (IH _ Hr)].
  destruct o; try exact I. intros j t Hj Hl.
  pose proof (proj1 (forallb_forall _ _) Ho t (nth_error_In _ _ Hj)) as X. cbn in X. rewrite Hl in X. apply Z.leb_le, X.
Qed.
