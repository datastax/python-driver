(* Bytes are Z in 0..255: the shifts and masks of the Python code are read as div, mod and sums of powers of two, a byte string as
   its big-endian value. *)
From Coq Require Import ZArith List Bool Lia ZifyBool.
From Verif Require Import PyBase JavaBigInteger ListFacts Bits64.
Import ListNotations.
Local Open Scope Z_scope.

Lemma land_255 x : Z.land x 255 = x mod 256.
Proof. change 255 with (Z.ones 8). rewrite Z.land_ones by lia. reflexivity. Qed.

Lemma shiftr_8 x : Z.shiftr x 8 = x / 256.
Proof. rewrite Z.shiftr_div_pow2 by lia. reflexivity. Qed.

Lemma mod256_range x : 0 <= x mod 256 < 256.
Proof. apply Z.mod_pos_bound. lia. Qed.

Lemma pow2_pos k : 0 <= k -> 0 < 2 ^ k.
Proof. intros. apply Z.pow_pos_nonneg; lia. Qed.

Lemma pow2_le a b : 0 <= a <= b -> 2 ^ a <= 2 ^ b.
Proof. intros. apply Z.pow_le_mono_r; lia. Qed.

Lemma pow2_lt a b : 0 <= a < b -> 2 ^ a < 2 ^ b.
Proof. intros. apply Z.pow_lt_mono_r; lia. Qed.

Lemma pow2_add a b : 0 <= a -> 0 <= b -> 2 ^ (a + b) = 2 ^ a * 2 ^ b.
Proof. intros. apply Z.pow_add_r; lia. Qed.

Lemma pow256 (k : nat) : 2 ^ (8 * Z.of_nat k) = 256 ^ Z.of_nat k.
Proof. rewrite Z.pow_mul_r by lia. reflexivity. Qed.

Lemma lnot_byte b : 0 <= b < 256 -> Z.land (Z.lnot b) 255 = 255 - b.
Proof.
  intros Hb. rewrite land_255. unfold Z.lnot. replace (Z.pred (- b)) with ((255 - b) + (-1) * 256) by lia.
  rewrite Z.mod_add by lia. apply Z.mod_small. lia.
Qed.

Lemma land_disjoint a m k : 0 <= k -> 0 <= a < 2 ^ k -> Z.land a (m * 2 ^ k) = 0.
Proof.
  intros Hk Ha. apply Z.bits_inj'. intros i Hi. rewrite Z.land_spec, Z.bits_0.
  destruct (Z_lt_dec i k) as [Hlt|Hge].
  - rewrite Z.mul_pow2_bits_low by lia. apply andb_false_r.
  - rewrite (testbit_above k a i) by lia. reflexivity.
Qed.

Lemma lor_disjoint_add a m k : 0 <= k -> 0 <= a < 2 ^ k -> Z.lor a (m * 2 ^ k) = a + m * 2 ^ k.
Proof.
  intros Hk Ha. pose proof (land_disjoint a m k Hk Ha) as Hl.
  rewrite <- Z.lxor_lor by assumption. symmetry. apply Z.add_nocarry_lxor. assumption.
Qed.

(* the test `b & 0x80` of the Python code: bit 7 is all of 128 *)
Lemma land_128 b : 0 <= b < 256 -> (Z.land b 128 =? 0) = (b <? 128).
Proof.
  intros Hb. change 128 with (1 * 2 ^ 7) at 1. destruct (b <? 128) eqn:E.
  - rewrite land_disjoint by (change (2 ^ 7) with 128; lia). reflexivity.
  - replace b with (Z.lor (b - 128) (1 * 2 ^ 7)) by (rewrite lor_disjoint_add by (change (2 ^ 7) with 128; lia); change (2 ^ 7) with 128; lia).
    rewrite Z.land_lor_distr_l, land_disjoint, Z.land_diag by (change (2 ^ 7) with 128; lia). reflexivity.
Qed.

Lemma shl8_lor_byte a b : 0 <= b < 256 -> Z.lor (Z.shiftl a 8) (Z.land b 255) = a * 256 + b.
Proof.
  intros Hb. rewrite land_255, Z.mod_small, Z.shiftl_mul_pow2 by lia. rewrite Z.lor_comm.
  change 256 with (2 ^ 8). rewrite lor_disjoint_add by (change (2 ^ 8) with 256; lia). lia.
Qed.

Lemma nbits_nonneg n : 0 <= nbits n.
Proof. unfold nbits. destruct (n <=? 0) eqn:E; [lia|]. pose proof (Z.log2_nonneg n). lia. Qed.

Lemma nbits_spec n : 0 < n -> 2 ^ (nbits n - 1) <= n < 2 ^ (nbits n).
Proof.
  intros Hn. unfold nbits. destruct (n <=? 0) eqn:E; [lia|].
  replace (Z.log2 n + 1 - 1) with (Z.log2 n) by lia. replace (Z.log2 n + 1) with (Z.succ (Z.log2 n)) by lia.
  apply Z.log2_spec. assumption.
Qed.

Lemma nbits_lt_pow2 n b : 0 <= n -> 0 <= b -> (n < 2 ^ b <-> nbits n <= b).
Proof.
  intros Hn Hb. unfold nbits. destruct (n <=? 0) eqn:E.
  - assert (n = 0) by lia. subst. pose proof (pow2_pos b Hb). lia.
  - assert (0 < n) by lia. rewrite (Z.log2_lt_pow2 n b) by assumption. lia.
Qed.

Lemma py_bit_length_nbits n : py_bit_length n = nbits (Z.abs n).
Proof. unfold py_bit_length, nbits. destruct (n =? 0) eqn:E1; destruct (Z.abs n <=? 0) eqn:E2; lia. Qed.

Lemma be_bytes_length n z : length (be_bytes n z) = n.
Proof. induction n as [|n IH]; [reflexivity|]. cbn [be_bytes length]. rewrite IH. reflexivity. Qed.

Lemma be_bytes_bytes n z : Forall is_byte (be_bytes n z).
Proof.
  induction n as [|n IH]; [constructor|]. cbn [be_bytes]. constructor; [|exact IH].
  apply mod256_range.
Qed.

Lemma be_bytes_head n z : be_bytes (S n) z = (Z.shiftr z (8 * Z.of_nat n)) mod 256 :: be_bytes n z.
Proof. reflexivity. Qed.

Lemma be_bytes_snoc n z : be_bytes (S n) z = be_bytes n (Z.shiftr z 8) ++ [z mod 256].
Proof.
  induction n as [|n IH].
  - cbn [be_bytes app]. rewrite Z.shiftr_0_r. reflexivity.
  - change (be_bytes (S (S n)) z) with (Z.shiftr z (8 * Z.of_nat (S n)) mod 256 :: be_bytes (S n) z).
    rewrite IH. cbn [be_bytes app]. f_equal. rewrite Z.shiftr_shiftr by lia. f_equal. f_equal. lia.
Qed.

Lemma be_bytes_add_pow n z c : be_bytes n (z + c * 2 ^ (8 * Z.of_nat n)) = be_bytes n z.
Proof.
  revert z c. induction n as [|n IH]; intros z c; [reflexivity|]. rewrite !be_bytes_snoc, !shiftr_8.
  replace (c * 2 ^ (8 * Z.of_nat (S n))) with (c * 2 ^ (8 * Z.of_nat n) * 256)
    by (replace (8 * Z.of_nat (S n)) with (8 * Z.of_nat n + 8) by lia; rewrite pow2_add by lia; change (2 ^ 8) with 256; ring).
  rewrite Z.div_add, Z.mod_add, IH by lia. reflexivity.
Qed.

Lemma be_fold_acc bs a :
  fold_left (fun acc b => acc * 256 + b) bs a = a * 2 ^ (8 * Z.of_nat (length bs)) + be_unsigned bs.
Proof.
  unfold be_unsigned. revert a. induction bs as [|b bs IH]; intros a; [cbn; lia|].
  cbn [fold_left length]. rewrite IH, (IH (0 * 256 + b)).
  replace (8 * Z.of_nat (S (length bs))) with (8 + 8 * Z.of_nat (length bs)) by lia.
  rewrite pow2_add by lia. change (2 ^ 8) with 256. ring.
Qed.

Lemma be_unsigned_be_bytes n z : be_unsigned (be_bytes n z) = z mod 2 ^ (8 * Z.of_nat n).
Proof.
  induction n as [|n IH]; [change (2 ^ (8 * Z.of_nat 0)) with 1; rewrite Z.mod_1_r; reflexivity|].
  unfold be_unsigned. cbn [be_bytes fold_left]. rewrite be_fold_acc, be_bytes_length, IH.
  replace (8 * Z.of_nat (S n)) with (8 * Z.of_nat n + 8) by lia. rewrite pow2_add by lia. change (2 ^ 8) with 256.
  rewrite (Z.rem_mul_r z (2 ^ (8 * Z.of_nat n)) 256) by (pose proof (pow2_pos (8 * Z.of_nat n)); lia).
  rewrite Z.shiftr_div_pow2 by lia. ring.
Qed.

Lemma be_fold_range bs a : Forall is_byte bs ->
  a * 2 ^ (8 * Z.of_nat (length bs)) <= fold_left (fun acc b => acc * 256 + b) bs a < (a + 1) * 2 ^ (8 * Z.of_nat (length bs)).
Proof.
  intros Hb. revert a. induction Hb as [|x l Hx _ IH]; intros a; [cbn; lia|].
  cbn [fold_left length]. specialize (IH (a * 256 + x)). unfold is_byte in Hx.
  replace (8 * Z.of_nat (S (length l))) with (8 + 8 * Z.of_nat (length l)) by lia.
  rewrite pow2_add by lia. change (2 ^ 8) with 256.
  pose proof (pow2_pos (8 * Z.of_nat (length l)) ltac:(lia)). nia.
Qed.

Lemma shiftr_split v k : 0 <= k -> Z.shiftr v k * 2 ^ k + v mod 2 ^ k = v.
Proof.
  intros Hk. rewrite Z.shiftr_div_pow2 by lia. pose proof (pow2_pos k Hk).
  pose proof (Z.div_mod v (2 ^ k) ltac:(lia)). lia.
Qed.

Lemma py_be_acc_fold bs a : py_be_acc bs a = fold_left (fun acc b => acc * 256 + b) bs a.
Proof. revert a. induction bs as [|b bs IH]; intros a; [reflexivity|]. cbn [py_be_acc fold_left]. apply IH. Qed.

Lemma be_fold_app bs cs a :
  fold_left (fun acc b => acc * 256 + b) (bs ++ cs) a =
  fold_left (fun acc b => acc * 256 + b) cs (fold_left (fun acc b => acc * 256 + b) bs a).
Proof. apply fold_left_app. Qed.

Lemma py_index_nth_ok (l : list Z) (n : nat) v : nth_error l n = Some v -> py_index l (Z.of_nat n) = Ok v.
Proof.
  intros H. unfold py_index.
  assert (Hlt : (n < length l)%nat) by (apply nth_error_Some; congruence).
  destruct (Z.of_nat n <? 0) eqn:E1; [lia|].
  destruct ((Z.of_nat n <? 0) || (Z.of_nat (length l) <=? Z.of_nat n)) eqn:E2.
  { apply orb_prop in E2. destruct E2 as [E2|E2]; lia. }
  rewrite Nat2Z.id, H. reflexivity.
Qed.

Lemma py_index_app_mid (pre : list Z) x post : py_index (pre ++ x :: post) (Z.of_nat (length pre)) = Ok x.
Proof. apply py_index_nth_ok, (nth_error_app_len pre (x :: post)). Qed.

Lemma py_index_head x (l : list Z) : py_index (x :: l) 0 = Ok x.
Proof. exact (py_index_app_mid [] x l). Qed.

Lemma py_index_last (l : list Z) x : py_index (l ++ [x]) (-1) = Ok x.
Proof.
  unfold py_index. rewrite app_length. cbn [length]. cbn [Z.ltb Z.compare].
  replace (-1 + Z.of_nat (length l + 1)) with (Z.of_nat (length l)) by lia.
  destruct ((Z.of_nat (length l) <? 0) || (Z.of_nat (length l + 1) <=? Z.of_nat (length l))) eqn:E.
  { apply orb_prop in E. destruct E as [E|E]; lia. }
  rewrite Nat2Z.id, nth_error_app_len. reflexivity.
Qed.

Lemma py_index_out (l : list Z) i : Z.of_nat (length l) <= i -> py_index l i = Raise.
Proof.
  intros H. unfold py_index. destruct (i <? 0) eqn:E1; [lia|].
  destruct ((i <? 0) || (Z.of_nat (length l) <=? i)) eqn:E2; [reflexivity|].
  apply orb_false_elim in E2. lia.
Qed.

Lemma py_byte_check_ok x : 0 <= x < 256 -> py_byte_check x = Ok tt.
Proof. intros H. unfold py_byte_check. destruct ((0 <=? x) && (x <? 256)) eqn:E; [reflexivity|]. apply andb_false_elim in E. destruct E; lia. Qed.

Lemma py_byte_check_bad x : ~ (0 <= x < 256) -> py_byte_check x = Raise.
Proof. intros H. unfold py_byte_check. destruct ((0 <=? x) && (x <? 256)) eqn:E; [|reflexivity]. apply andb_prop in E. lia. Qed.

(* how the result of a generated function is read against an option-valued specification: Ok for Some, Raise for None, and
   never Fuel.  Names: f_run : f x = of_option (spec x); f_spec / f_rejects its two cases; f_matches_spec the res_to_option form *)
Definition of_option {A} (o : option A) : res A := match o with Some a => Ok a | None => Raise end.

Lemma res_of_option {A} (o : option A) : res_to_option (of_option o) = o.
Proof. destruct o; reflexivity. Qed.

Lemma of_option_total {A} (o : option A) : of_option o <> Fuel.
Proof. destruct o; discriminate. Qed.

Lemma py_range_up a n : py_range a (a + Z.of_nat n) 1 = map (fun k => a + Z.of_nat k) (seq 0 n).
Proof.
  unfold py_range. cbn [Z.ltb Z.compare]. rewrite Z.div_1_r.
  replace (Z.to_nat (a + Z.of_nat n - a + 1 - 1)) with n by lia.
  apply map_ext. intros k. lia.
Qed.
