(* Every step of Model/Conn.v preserves the bookkeeping invariant (as long as no response overtook a timeout).
   Each op is read as one move of an id (Section Moves) under updates that move none (Conn_inv, Section Laws); the offsets
   written beside them, e.g. -1 for an id leaving _requests and +1 for the unit then owed, add up to 0 by computation. *)
From Coq Require Import ZArith List Lia.
From Verif Require Import ListFacts Conn Conn_lemmas Conn_inv.
Import ListNotations.
Local Open Scope Z_scope.

Section Moves.
Context {d : Z} {s : state} (G : GoodD d s) {i : Z}.

Lemma retag [t] t' : lookup i (ghost s) = Some t -> GoodD (d + unit_tag t' - unit_tag t) (put_ghost i t' s).
Proof. intros L. moved G i (in_ghost d s i t G L). Qed.

Lemma release [t] : lookup i (ghost s) = Some t ->
  GoodD (d - unit_tag t) (set_free (free s ++ [i]) (highest s) (del_ghost i s)).
Proof. intros L. moved G i (in_ghost d s i t G L). Qed.

Lemma registered cb [t] : lookup i (ghost s) = Some t -> GoodD (d + 1 - unit_tag t) (register i cb s).
Proof. intros L. moved G i (in_ghost d s i t G L). Qed.

Lemma orphaned b [t] : lookup i (ghost s) = Some t ->
  GoodD (d + 1 - unit_tag t) (set_orph (i :: rm i (orphans s)) b (del_ghost i s)).
Proof. intros L. moved G i (in_ghost d s i t G L). Qed.

Lemma to_session v [t] : lookup i (ghost s) = Some t -> GoodD (d - unit_tag t) (set_cps ((i, v) :: cps s) (del_ghost i s)).
Proof. intros L. moved G i (in_ghost d s i t G L). Qed.

Lemma unregistered [cb] t : lookup i (reqs s) = Some cb ->
  GoodD (d + unit_tag t - 1) (put_ghost i t (set_reqs (rmk i (reqs s)) s)).
Proof. intros L. moved G i (conj (id_counts s i (d_tot d s G)) (lookup_cnt _ _ _ L)). Qed.

Lemma unorphaned b t : mem i (orphans s) = true ->
  GoodD (d + unit_tag t) (put_ghost i t (set_orph (rm i (orphans s)) b (set_inf (in_flight s - 1) s))).
Proof. intros M. moved G i (conj (id_counts s i (d_tot d s G)) (mem_cnt _ _ M)). Qed.

Lemma session_kept [v] w : lookup i (cps s) = Some v -> GoodD d (set_cps ((i, w) :: rmk i (cps s)) s).
Proof. intros L. moved G i (conj (id_counts s i (d_tot d s G)) (lookup_cnt _ _ _ L)). Qed.

Lemma session_released [v] : lookup i (cps s) = Some v ->
  GoodD d (set_free (free s ++ [i]) (highest s) (set_cps (rmk i (cps s)) s)).
Proof. intros L. moved G i (conj (id_counts s i (d_tot d s G)) (lookup_cnt _ _ _ L)). Qed.
End Moves.

(* the end of every region that counted a unit first and asks for an id second: on the assert the unit is leaked *)
Lemma good_alloc s : GoodD (-1) s ->
  GoodD 0 (match get_id s with (Some _, s') => s' | (None, s') => add_leak s' end).
Proof.
  intros G. pose proof (get_id_spec _ _ G) as A. destruct (get_id s) as [[i|] s']; [exact (proj1 A)|exact (goodD_leaked (proj1 A) 1)].
Qed.

Section Step.
Variable s : state.
Hypothesis G : GoodD 0 s.

Lemma good_borrow : GoodD 0 (step s Borrow).
Proof. exact (goodD_if (good_alloc _ (goodD_inf G 1)) (goodD_ev G _)). Qed.

Lemma good_waitids n : GoodD 0 (step s (WaitIds n)).
Proof.
  unfold step. set (k := Z.max 0 (Z.min n (max_id s - in_flight s + 1))). assert (K : 0 <= k) by (unfold k; lia).
  destruct (take_ids_good (Z.to_nat k) 0 s G) as [A B]. rewrite Z2Nat.id in B by exact K.
  destruct (take_ids (Z.to_nat k) s) as [taken s1]. cbn [fst snd] in A, B.
  destruct (Z.ltb_spec taken k); [refine (goodD_eq (goodD_leaked A (- taken)) _ _)|refine (goodD_eq (goodD_inf A k) _ _)]; lia.
Qed.

Lemma good_sendcheck i : GoodD 0 (step s (SendCheck i)).
Proof.
  unfold step. destruct (lookup i (ghost s)) as [[]|] eqn:L; try exact G.
  destruct (send_verdict_cases s) as [V|[V|V]]; rewrite V;
    [exact (retag G TChecked L)|exact (goodD_ev (goodD_owed (retag G TLost L) 1) _)|exact (goodD_ev (goodD_owed (retag G TBusy L) 1) _)].
Qed.

Lemma good_idrelease i : GoodD 0 (step s (IdRelease i)).
Proof. unfold step. destruct (lookup i (ghost s)) as [[]|] eqn:L; try exact G. exact (release G L). Qed.

Lemma good_sendreg i cb : GoodD 0 (step s (SendReg i cb)).
Proof. unfold step. destruct (lookup i (ghost s)) as [[]|] eqn:L; try exact G. exact (registered G cb L). Qed.

Lemma good_repaid : GoodD 0 (set_units (owed s - 1) (ks_pending s) (leaked s) (spurious s) (set_inf (in_flight s - 1) s)).
Proof. exact (goodD_owed (goodD_inf G (-1)) (-1)). Qed.

Lemma good_returnconn : GoodD 0 (step s ReturnConn).
Proof. exact (goodD_if good_repaid G). Qed.

Lemma good_recvbegin i : GoodD 0 (step s (RecvBegin i)).
Proof.
  unfold step. destruct (cur s) eqn:C; [exact G|]. pose proof (goodD_flags G (defunct s) (closed s) (writable s) true) as G0.
  destruct (lookup i (cps s)); [exact (goodD_cur G0 (Some (i, -1, PBegunCp)) C)|]. destruct (lookup i (wire s)) as [r|]; [|exact G].
  pose proof (goodD_wire G0 (rmk i (wire s))) as G1. fields.
  destruct (mem i (orphans s)) eqn:M;
    [exact (goodD_cur (unorphaned G1 _ TCur M) (Some (i, r, PBegun)) C)|exact (goodD_cur G1 (Some (i, r, PBegun)) C)].
Qed.

Lemma good_recvpop i d : raced (step s (RecvPop i d)) = false -> GoodD 0 (step s (RecvPop i d)).
Proof.
  unfold step. destruct (cur s) as [[[j r] []]|] eqn:C; try (intros; exact G);
    (destruct (Z.eqb_spec i j) as [<-|]; [|intros; exact G]).
  - (* PBegun *) destruct (lookup i (reqs s)) as [cb|] eqn:L.
    + intros _. pose proof (fun t => goodD_ev (goodD_owed (unregistered G t L) 1)) as M.
      (* a decode failure loses the id (TLost), every other outcome delivers on it (TCur); the callback's unit is owed
         from its invocation on, which a ProtocolException puts off until RecvDeliver *)
      destruct d as [ (* DOk *) | (* DFail *) | (* DProto *) | (* DLast *) ];
        [exact (goodD_cur (M TCur _) (Some (i, r, PDelivered)) C)|exact (goodD_cur (M TLost _) None C)
        |exact (goodD_cur (unregistered G TCur L) (Some (i, r, PHeld cb)) C)|exact (goodD_cur (M TCur _) (Some (i, r, PDelivered)) C)].
    + (* no callback: the id is released from wherever the ghost has it.  Nowhere, or waiting for _on_timeout's orphan region
         (TPend): the model sets `raced`, against the hypothesis; with a tag that carries a unit the unit is leaked *)
      destruct (lookup i (ghost s)) as [t|] eqn:LG; [|discriminate].
      pose proof (goodD_cur (goodD_leaked (release G LG) 1) None C) as Leak. pose proof (goodD_cur (release G LG) None C) as Plain.
      destruct t as [ (* THeld *) | (* TChecked *) | (* TPend *) | (* TAband *) | (* TCur *) | (* TLost *) | (* TBusy *) ];
        intros R; [exact Leak|exact Leak|discriminate R|exact Leak|exact Plain|exact Plain|exact Plain].
  - (* PBegunCp *) destruct (lookup i (cps s)) as [[sess rel]|] eqn:L; intros _; [|exact (goodD_cur G None C)].
    exact (goodD_cur (goodD_ev (session_kept G (sess, match d with DLast => true | _ => rel end) L) _) (Some (i, r, PDelivered)) C).
Qed.

Lemma good_recvdeliver : GoodD 0 (step s RecvDeliver).
Proof.
  unfold step. destruct (cur s) as [[[j r] []]|] eqn:C; try exact G.
  exact (goodD_cur (goodD_ev (goodD_owed G 1) _) (Some (j, r, PDelivered)) C).
Qed.

Lemma good_cpnew se : GoodD 0 (step s (CpNew se)).
Proof.
  unfold step. destruct (cur s) as [[[i r] []]|]; try exact G. destruct (lookup i (cps s)); [exact G|].
  destruct (lookup i (ghost s)) as [[]|] eqn:L; try exact G. exact (to_session G _ L).
Qed.

Lemma good_recvend : raced (step s RecvEnd) = false -> GoodD 0 (step s RecvEnd).
Proof.
  unfold step. destruct (cur s) as [[[i r] []]|] eqn:C; try (intros; exact G).
  destruct (lookup i (cps s)) as [[se []]|] eqn:L.
  - intros _. exact (goodD_cur (session_released G L) None C).
  - intros _. exact (goodD_cur G None C).
  - (* an ordinary stream: it carries the TCur mark RecvPop gave it; for any other mark, or none, the model sets `raced`,
       against the hypothesis *)
    destruct (lookup i (ghost s)) as [[]|] eqn:LG; intros R; try discriminate R.
    exact (goodD_cur (release G LG) None C).
Qed.

Lemma good_timeoutpop i live : GoodD 0 (step s (TimeoutPop i live)).
Proof.
  unfold step. destruct (lookup i (reqs s)) as [cb|] eqn:L; [|exact (goodD_ev G _)].
  destruct live; [exact (goodD_ev (unregistered G TPend L) _)|exact (goodD_ev (unregistered G TAband L) _)].
Qed.

Lemma good_timeoutorphan i : GoodD 0 (step s (TimeoutOrphan i)).
Proof. unfold step. destruct (lookup i (ghost s)) as [[]|] eqn:L; try exact G. exact (orphaned G _ L). Qed.

Lemma good_defunctflag : GoodD 0 (step s DefunctFlag).
Proof. exact (goodD_if G (goodD_flags G _ _ _ _)). Qed.

Lemma good_close : GoodD 0 (step s Close).
Proof. exact (goodD_if G (goodD_flags G _ _ _ _)). Qed.

Lemma good_errcp : GoodD 0 (step s ErrCp).
Proof.
  (* induction on the list the loop runs over (second occurrence), not on the one that is rewritten (first) *)
  unfold step. induction (cps s) as [|c l IH] at 2; [cbn [fold_right]|exact (goodD_ev IH _)].
  destruct G as [T U H]. split; [|bal|exact H]. intros x. rewrite <- T. unfold tot. fields.
  rewrite (keys_map_tag (fun v => (fst v, true))). reflexivity.
Qed.

Lemma good_errswap : GoodD 0 (err_swap s).
Proof.
  destruct G as [T U H]. rewrite units_eq in U. destruct (err_swap_spec s) as [_ E]. split; [| |exact H].
  - intros x. rewrite <- T. unfold tot, err_swap. fields. rewrite keys_app, cnt_app, (keys_map_tag (fun _ => TLost)). cbn [keys map cnt]. lia.
  - rewrite units_eq, E. unfold err_swap. fields. rewrite unit_tags_lost. change (zlen (@nil (Z * Z))) with 0. lia.
Qed.

Lemma good_closerun : GoodD 0 (step s CloseRun).
Proof. exact (goodD_if G good_errswap). Qed.

Lemma good_errcall : GoodD 0 (step s ErrCall).
Proof. unfold step. destruct (erroring s) as [|cb rest] eqn:E; [exact G|exact (goodD_ev (goodD_owed (goodD_called G cb rest E) 1) _)]. Qed.

Lemma good_hbsend cb : GoodD 0 (step s (HbSend cb)).
Proof.
  unfold step. destruct (in_flight s <? max_id s); [|exact (goodD_ev G _)].
  pose proof (get_id_spec _ _ (goodD_inf G 1)) as A.
  destruct (get_id (set_inf (in_flight s + 1) s)) as [[i|] s2]; [|exact (goodD_leaked (proj1 A) 1)]. destruct A as (B & L & _).
  destruct (send_verdict_cases s2) as [V|[V|V]]; rewrite V;
    [exact (registered B cb L)|exact (goodD_ev (goodD_leaked (retag B TLost L) 1) _)..].
Qed.

Lemma good_hbdone : GoodD 0 (step s HbDone).
Proof. exact (goodD_if (goodD_flags good_repaid _ _ _ _) G). Qed.

Lemma good_ownerreturn : GoodD 0 (step s OwnerReturn).
Proof. exact (goodD_ev (goodD_spurious (goodD_inf G (-1)) 1) _). Qed.

Lemma good_setkslock : GoodD 0 (step s SetKsLock).
Proof. exact (goodD_if (goodD_ks (goodD_inf G 1) 1) G). Qed.

Lemma good_setksgetid : GoodD 0 (step s SetKsGetId).
Proof. exact (goodD_if (good_alloc _ (goodD_ks G (-1))) G). Qed.

Lemma step_goodD o : raced (step s o) = false -> GoodD 0 (step s o).
Proof.
  exact (match o with
  | Borrow => fun _ => good_borrow
  | WaitIds n => fun _ => good_waitids n
  | SendCheck i => fun _ => good_sendcheck i
  | SendReg i cb => fun _ => good_sendreg i cb
  | IdRelease i => fun _ => good_idrelease i
  | ReturnConn => fun _ => good_returnconn
  | RecvBegin i => fun _ => good_recvbegin i
  | RecvPop i d => good_recvpop i d
  | RecvDeliver => fun _ => good_recvdeliver
  | CpNew se => fun _ => good_cpnew se
  | RecvEnd => good_recvend
  | TimeoutPop i live => fun _ => good_timeoutpop i live
  | TimeoutOrphan i => fun _ => good_timeoutorphan i
  | DefunctFlag => fun _ => good_defunctflag
  | Close => fun _ => good_close
  | ErrCp => fun _ => good_errcp
  | ErrSwap => fun _ => good_errswap
  | ErrCall => fun _ => good_errcall
  | HbSend cb => fun _ => good_hbsend cb
  | HbDone => fun _ => good_hbdone
  | OwnerReturn => fun _ => good_ownerreturn
  | SetKsLock => fun _ => good_setkslock
  | SetKsGetId => fun _ => good_setksgetid
  | HbSkipBusy | SetWritable _ | RecvPush => fun _ => goodD_flags G _ _ _ _
  | CloseRun => fun _ => good_closerun
  end).
Qed.
End Step.

Lemma step_good s o : Good s -> raced (step s o) = false -> Good (step s o).
Proof. intros G R. apply goodD0. exact (step_goodD s (proj1 (goodD0 s) G) o R). Qed.

Lemma raced_get_id s : raced (snd (get_id s)) = raced s.
Proof. unfold get_id. destruct (free s); [destruct (highest s + 1 <=? max_id s)|]; reflexivity. Qed.

Lemma raced_take_ids k : forall s, raced (snd (take_ids k s)) = raced s.
Proof.
  induction k as [|k IH]; intros s; cbn [take_ids]; [reflexivity|]. rewrite <- (raced_get_id s).
  destruct (get_id s) as [[i|] s1]; cbn [snd]; [|reflexivity]. rewrite <- (IH s1). destruct (take_ids k s1). reflexivity.
Qed.

Lemma raced_errcp {A} (f : A -> event) l s : raced (fold_right (fun c acc => ev (f c) acc) s l) = raced s.
Proof. induction l as [|c l IH]; [reflexivity|exact IH]. Qed.

(* only set_bad writes `raced`, with true or its old value; every test of `step` is split, each leaf is a chain of
   record updates on s or on a state returned by get_id / take_ids *)
Lemma raced_stays s o : raced s = true -> raced (step s o) = true.
Proof.
  intros R. pose proof (raced_get_id (set_inf (in_flight s + 1) s)) as E1.
  pose proof (raced_get_id (set_units (owed s) (ks_pending s - 1) (leaked s) (spurious s) s)) as E2.
  cbn [raced set_inf set_units] in E1, E2. rewrite R in E1, E2.
  destruct o; cbn [step]; try rewrite raced_errcp;
    try match goal with |- context [take_ids ?k s] => pose proof (raced_take_ids k s) as E3; rewrite R in E3 end;
    repeat match goal with |- context [match ?x with _ => _ end] => destruct x end;
    unfold err_swap; fields; first [reflexivity|assumption].
Qed.

Theorem run_good ops s : Good s -> raced (run s ops) = false -> Good (run s ops).
Proof.
  intros G. apply (fold_left_inv step (fun s => raced s = false -> Good s)); [|intros _; exact G].
  (* a race flag never clears: a step that ends without one started without one *)
  intros s' o IH R. apply step_good; [apply IH|exact R].
  destruct (raced s') eqn:E; [|reflexivity]. rewrite (raced_stays _ o E) in R. discriminate R.
Qed.

Lemma retag_units i g t t' : lookup i g = Some t -> cnt i (keys g) = 1 ->
  unit_tags ((i, t') :: rmk i g) = unit_tags g - unit_tag t + unit_tag t'.
Proof. intros L C. cbn [unit_tags]. rewrite (unit_tags_rmk_one _ _ _ L C). lia. Qed.
