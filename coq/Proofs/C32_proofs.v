From Coq Require Import List Bool Arith Lia Permutation Sorted.
From Verif Require Import Concurrent ListFacts.
Import ListNotations.

Definition once {A} (blank a b : A) : Prop := a <> blank -> b = a.

Lemma once_refl {A} (blank a : A) : once blank a a.
Proof. intros _. reflexivity. Qed.

Lemma once_trans {A} (blank a b c : A) : once blank a b -> once blank b c -> once blank a c.
Proof. intros H1 H2 H. pose proof (H1 H) as E. subst b. exact (H2 H). Qed.

Definition mono (s s' : state) : Prop :=
  once FPending (fut s) (fut s') /\ fut_err s' = fut_err s /\ once None (exc s) (exc s').

Lemma mono_refl s : mono s s.
Proof. split; [apply once_refl | split; [reflexivity | apply once_refl]]. Qed.

Lemma mono_trans a b c : mono a b -> mono b c -> mono a c.
Proof.
  intros (F1 & E1 & X1) (F2 & E2 & X2).
  split; [exact (once_trans _ _ _ _ F1 F2) | split; [congruence | exact (once_trans _ _ _ _ X1 X2)]].
Qed.

(* frame reads pc, fut, fut_err, exc and inflight: a write to the other fields is frame_refl, by conversion *)
Definition frame (k : nat) (s s' : state) : Prop :=
  pc s' = pc s /\ mono s s' /\ length (inflight s') <= k + length (inflight s).

Lemma frame_refl k s : frame k s s.
Proof. split; [reflexivity | split; [apply mono_refl | lia]]. Qed.

Lemma frame_trans j k a b c : frame j a b -> frame k b c -> frame (j + k) a c.
Proof.
  intros (P1 & M1 & L1) (P2 & M2 & L2).
  split; [congruence | split; [exact (mono_trans _ _ _ M1 M2) | lia]].
Qed.

Lemma set_core_frame k s r st cu rs e fl :
  once None (exc s) e -> length fl <= k + length (inflight s) -> frame k s (set_core s r st cu rs e fl).
Proof.
  intros E L. split; [reflexivity | split; [|exact L]].
  split; [exact (once_refl _ _) | split; [reflexivity | exact E]].
Qed.

Lemma notify_frame s : frame 0 s (notify s).
Proof.
  unfold notify. destruct (pc s) eqn:P; try exact (frame_refl 0 s).
  (* MWait: frame_refl by conversion once the new pc reads `pc s` again *)
  rewrite <- P. exact (frame_refl 0 s).
Qed.

Lemma fut_set_frame s v : frame 0 s (fut_set s v).
Proof.
  unfold fut_set. destruct (fut s) eqn:F; try exact (frame_refl 0 s).
  split; [reflexivity | split; [|exact (le_n _)]].
  split; [|split; [reflexivity | exact (once_refl _ _)]].
  intros H. contradiction.
Qed.

Definition fut_of (o : outcome) : fstate := match o with Return l => FResult l | RaiseExc e => FExc e end.

Definition verdict (c : cfg) (s : state) : outcome :=
  match exc s, ff c with Some e, true => RaiseExc e | _, _ => Return (sort_res (results s)) end.

Lemma region2_eq c s : region2 c s = if current s =? started s then fut_set s (fut_of (verdict c s)) else s.
Proof. unfold region2, verdict. destruct (exc s), (ff c); reflexivity. Qed.

Lemma finish_list_eq c s : finish_list c s = set_pc s (MRet (verdict c s)) false.
Proof. unfold finish_list, verdict. destruct (exc s), (ff c); reflexivity. Qed.

Lemma region2_frame c s : frame 0 s (region2 c s).
Proof. rewrite region2_eq. destruct (current s =? started s); [apply fut_set_frame | apply frame_refl]. Qed.

(* the two bodies of put_result: _put_result of ConcurrentExecutorGenResults, and of ConcurrentExecutorListResults
   (for the async variant its first region) *)
Definition put_gen (next : nat -> state -> state * bool) (depth : nat) (s : state) (idx : nat) (ok : bool) : state :=
  let s1 := set_core s (rest s) (started s) (current s) (results s ++ [(idx, ok)]) (exc s) (inflight s) in
  let '(s2, _) := next depth s1 in notify s2.

Definition put_list (c : cfg) (next : nat -> state -> state * bool) (depth : nat) (s : state) (idx : nat) (ok : bool) : state :=
  let s1 := set_core s (rest s) (started s) (S (current s)) (results s ++ [(idx, ok)]) (exc s) (inflight s) in
  if negb ok && ff c then
    notify (set_core s1 (rest s1) (started s1) (current s1) (results s1)
                     (match exc s1 with Some e => Some e | None => Some idx end) (inflight s1))
  else
    let '(s2, r) := next depth s1 in
    if negb r && (current s2 =? started s2) then notify s2 else s2.

Lemma put_result_eq c next d s idx ok :
  put_result c next d s idx ok = match var c with VGen => put_gen next d s idx ok | _ => put_list c next d s idx ok end.
Proof. unfold put_result. destruct (var c); reflexivity. Qed.

Definition next_frame1 (next : nat -> state -> state * bool) : Prop := forall d s, frame 1 s (fst (next d s)).

Lemma put_gen_frame next d s idx ok : next_frame1 next -> frame 1 s (put_gen next d s idx ok).
Proof.
  intros N. unfold put_gen.
  set (s1 := set_core s (rest s) (started s) (current s) (results s ++ [(idx, ok)]) (exc s) (inflight s)).
  specialize (N d s1). destruct (next d s1) as [s2 r].
  (* the goal is `frame 1 s1 _`, by conversion *)
  exact (frame_trans 1 0 s1 s2 _ N (notify_frame s2)).
Qed.

Lemma put_list_frame c next d s idx ok : next_frame1 next -> frame 1 s (put_list c next d s idx ok).
Proof.
  intros N. unfold put_list.
  set (s1 := set_core s (rest s) (started s) (S (current s)) (results s ++ [(idx, ok)]) (exc s) (inflight s)).
  destruct (negb ok && ff c).
  - refine (frame_trans 1 0 s1 _ _ _ (notify_frame _)).
    apply set_core_frame; [|lia]. intros H. destruct (exc s); [reflexivity | contradiction].
  - specialize (N d s1). destruct (next d s1) as [s2 r].
    destruct (negb r && (current s2 =? started s2)); [|exact N].
    exact (frame_trans 1 0 s1 s2 _ N (notify_frame s2)).
Qed.

Lemma put_result_frame c next d s idx ok : next_frame1 next -> frame 1 s (put_result c next d s idx ok).
Proof.
  intros N. rewrite put_result_eq.
  destruct (var c); [apply put_list_frame | apply put_gen_frame | apply put_list_frame]; exact N.
Qed.

Lemma put_result_nested_frame c next d s idx ok : next_frame1 next -> frame 1 s (put_result_nested c next d s idx ok).
Proof.
  intros N. unfold put_result_nested. pose proof (put_result_frame c next d s idx ok N) as F.
  destruct (var c); try exact F.
  exact (frame_trans 1 0 _ _ _ F (region2_frame c _)).
Qed.

(* of a statement that keeps its slot (BLater*, or BRaise past the recursion limit: a _put_result handed to session.submit)
   only `b <> BSyncOk` is recorded: it is what makes `later_ok` its `ok_of` *)
Lemma exec_next_cons c b r' d s :
  let s1 := set_core s r' (S (started s)) (current s) (results s) (exc s) (inflight s) in
  fst (exec_next c (b :: r') d s) =
    set_core s1 (rest s1) (started s1) (current s1) (results s1) (exc s1) (inflight s1 ++ [started s]) /\ b <> BSyncOk
  \/ fst (exec_next c (b :: r') d s) = put_result_nested c (exec_next c r') (S d) s1 (started s) (ok_of b).
Proof.
  intros s1. cbn [exec_next fst]. destruct b; [destruct (S d <? maxrec c)|..];
    (right; reflexivity) || (left; split; [reflexivity | discriminate]).
Qed.

Lemma exec_next_frame c : forall r, next_frame1 (exec_next c r).
Proof.
  induction r as [|b r' IH]; intros d s; [apply frame_refl|].
  pose proof (exec_next_cons c b r' d s) as E.
  set (s1 := set_core s r' (S (started s)) (current s) (results s) (exc s) (inflight s)) in *.
  apply (frame_trans 0 1 s s1 _ (frame_refl 0 s)). (* frame 0 s s1: frame_refl, by conversion *)
  destruct E as [[-> _] | ->].
  - apply set_core_frame; [apply once_refl|]. rewrite app_length. cbn. lia.
  - exact (put_result_nested_frame c _ (S d) s1 (started s) _ IH).
Qed.

Lemma exec_next_top_frame c : next_frame1 (exec_next_top c).
Proof. intros d s. apply exec_next_frame. Qed.

Lemma start_loop_frame c : forall k s, frame k s (start_loop c k s).
Proof.
  induction k as [|k IH]; intros s; cbn [start_loop]; [apply frame_refl|].
  pose proof (exec_next_top_frame c 0 s) as F.
  destruct (exec_next_top c 0 s) as [s' r].
  destruct r; [exact (frame_trans 1 k s s' _ F (IH s')) | exact (frame_trans 1 k s s' s' F (frame_refl k s'))].
Qed.

Lemma remove_first_perm i l : mem i l = true -> Permutation (i :: remove_first i l) l.
Proof.
  induction l as [|x l IH]; cbn; [discriminate|]. destruct (x =? i) eqn:E.
  - apply Nat.eqb_eq in E. subst x. reflexivity.
  - cbn. intros H. exact (perm_trans (perm_swap x i _) (perm_skip x (IH H))).
Qed.

Lemma complete_frame c s i : frame 0 s (step c s (Complete i)).
Proof.
  cbn [step]. destruct (mem i (inflight s)) eqn:M; [|apply frame_refl].
  apply remove_first_perm, Permutation_length in M. cbn in M.
  set (s0 := set_core s (rest s) (started s) (current s) (results s) (exc s) (remove_first i (inflight s))).
  destruct (put_result_frame c (exec_next_top c) 0 s0 i (later_ok c i) (exec_next_top_frame c)) as (P & Mo & L).
  assert (F : frame 0 s (put_result c (exec_next_top c) 0 s0 i (later_ok c i))).
  { split; [exact P | split; [exact Mo|]]. (* s0 holds one slot fewer than s (M); the chain takes at most one (L) *) cbn in L |- *. lia. }
  destruct (var c); exact F.
Qed.

Lemma finish2_frame c s i : frame 0 s (step c s (Finish2 i)).
Proof. cbn [step]. destruct (mem i (pend2 s)); [exact (region2_frame c s) | apply frame_refl]. Qed.

(* slots that the caller's initial loop may still take *)
Definition budget (c : cfg) (p : mainpc) : nat := match p with MInit => conc c | _ => 0 end.
Definition slots (c : cfg) (s : state) : nat := length (inflight s) + budget c (pc s).

Definition fin_ok (s : state) : Prop := match pc s with MFin _ => fut s <> FPending | _ => True end.

(* what every region (one `with self._condition` block, a `step` of the model) keeps *)
Definition region (c : cfg) (s s' : state) : Prop := mono s s' /\ slots c s' <= slots c s /\ (fin_ok s -> fin_ok s').

Lemma frame_region c s s' : frame 0 s s' -> region c s s'.
Proof.
  intros (P & M & L). split; [exact M | split].
  - unfold slots. rewrite P. lia.
  - unfold fin_ok. rewrite P. destruct (pc s); auto. intros F. rewrite (proj1 M F). exact F.
Qed.

Lemma region_trans c a b d : region c a b -> region c b d -> region c a d.
Proof.
  intros (M1 & L1 & F1) (M2 & L2 & F2).
  split; [exact (mono_trans _ _ _ M1 M2) | split; [lia | exact (fun H => F2 (F1 H))]].
Qed.

Lemma stretch_region c s s' : inflight s' = inflight s -> fut s' = fut s -> fut_err s' = fut_err s -> exc s' = exc s ->
  budget c (pc s') = 0 -> fin_ok s' -> region c s s'.
Proof.
  intros Hi Hf He Hx B F. split; [|split].
  - unfold mono. rewrite Hf, He, Hx. exact (mono_refl s).
  - unfold slots. rewrite Hi, B. lia.
  - intros _. exact F.
Qed.

Lemma results_gen_region c s : region c s (results_gen c s).
Proof.
  unfold results_gen.
  destruct (current s <? started s); [|now apply stretch_region].
  destruct (min_res (results s)) as [[i ok]|]; [|now apply stretch_region].
  destruct (i =? current s); [|now apply stretch_region].
  destruct (ff c && negb ok); now apply stretch_region.
Qed.

Lemma fut_set_done s v : v <> FPending -> fut (fut_set s v) <> FPending.
Proof. intros V. unfold fut_set. destruct (fut s) eqn:F; cbn; congruence. Qed.

(* under fail fast a stored failure ends the caller's wait; otherwise every started statement must have its result *)
Definition ready (c : cfg) (s : state) : Prop := (ff c = true -> exc s = None) -> started s <= current s.

(* all that main_step can do; main_step_region and main_step_steady go by these cases *)
Inductive main_view (c : cfg) (s : state) : state -> Prop :=
| v_stay : main_view c s s
| v_init : pc s = MInit -> main_view c s (set_pc (start_loop c (conc c) s) MRun false)
| v_gen : var c = VGen -> main_view c s (results_gen c s)
| v_yield : pc s = MYield -> main_view c s (results_gen c (bump_current s))
| v_wait : main_view c s (set_pc s MWait false)
| v_ret : ready c s -> main_view c s (set_pc s (MRet (verdict c s)) false)
| v_fin o : pc s = MRet o -> main_view c s (set_pc (fut_set s (fut_of o)) (MFin o) false).

Lemma results_list_view c s : main_view c s (results_list c s).
Proof.
  unfold results_list. rewrite finish_list_eq. destruct (current s <? started s) eqn:E; [apply v_wait | apply v_ret].
  intros _. apply Nat.ltb_ge, E.
Qed.

Lemma main_step_view c s : main_view c s (main_step c s).
Proof.
  unfold main_step. destruct (pc s) as [| | | |o|o] eqn:P.
  - exact (v_init c s P).
  - (* MRun *) destruct (var c) eqn:V; [apply results_list_view | exact (v_gen c s V) | apply results_list_view].
  - (* MWait *) destruct (notified s); [|apply v_stay].
    assert (W : main_view c s (match exc s, ff c with
                            | Some e, true => set_pc s (MRet (RaiseExc e)) false
                            | _, _ => results_list c s
                            end)).
    { (* a failure stored under fail fast is the verdict, and is raised without the loop test *)
      pose proof (v_ret c s) as R. unfold ready, verdict in R.
      destruct (exc s), (ff c); [apply R; intros H; discriminate (H eq_refl) | apply results_list_view ..]. }
    destruct (var c) eqn:V; [exact W | exact (v_gen c s V) | exact W].
  - exact (v_yield c s P).
  - (* MRet *) destruct (var c); [apply v_stay | apply v_stay | destruct o; exact (v_fin c s _ P)].
  - (* MFin *) apply v_stay.
Qed.

Lemma main_step_region c s : region c s (main_step c s).
Proof.
  destruct (main_step_view c s) as [|P| | | | |o _].
  - apply frame_region, frame_refl.
  - (* v_init: the loop draws on the budget that leaving MInit gives up *)
    destruct (start_loop_frame c (conc c) s) as (_ & M & L).
    split; [exact M | split; [|intros _; exact I]]. unfold slots. rewrite P. cbn in L |- *. lia.
  - apply results_gen_region.
  - exact (results_gen_region c (bump_current s)).
  - (* v_wait *) now apply stretch_region.
  - (* v_ret *) now apply stretch_region.
  - destruct (fut_set_frame s (fut_of o)) as (_ & M & L).
    split; [exact M | split; [|intros _; apply fut_set_done; destruct o; discriminate]]. unfold slots. cbn in *. lia.
Qed.

Lemma step_region c s o : region c s (step c s o).
Proof. destruct o; [apply main_step_region | apply frame_region, complete_frame | apply frame_region, finish2_frame]. Qed.

(* with ops = [] the stretch starts at `init c`, where slots = conc c, fut_err = 0 and fin_ok holds *)
Lemma run_region c ops more : region c (run c ops) (run c (ops ++ more)).
Proof.
  unfold run. rewrite fold_left_app.
  apply (fold_left_inv (step c) (region c (fold_left (step c) ops (init c)))); [|apply frame_region, frame_refl].
  intros s o R. exact (region_trans c _ s _ R (step_region c s o)).
Qed.

Lemma run_mono c ops more : mono (run c ops) (run c (ops ++ more)).
Proof. exact (proj1 (run_region c ops more)). Qed.

Lemma slots_bound c ops : slots c (run c ops) <= conc c.
Proof. exact (proj1 (proj2 (run_region c [] ops))). Qed.

Lemma fut_err_zero c ops : fut_err (run c ops) = 0.
Proof. exact (proj1 (proj2 (run_mono c [] ops))). Qed.

Lemma fin_done c ops o : pc (run c ops) = MFin o -> fut (run c ops) <> FPending.
Proof.
  assert (F : fin_ok (run c ops)) by exact (proj2 (proj2 (run_region c [] ops)) I).
  unfold fin_ok in F. intros E. rewrite E in F. exact F.
Qed.

(* sorted() compares (idx, success); in a queue that holds each index once the index alone decides the place *)
Definition lt_idx (a b : res) : Prop := fst a < fst b.

Lemma sorted_split x : forall e1 e2, StronglySorted lt_idx (e1 ++ x :: e2) ->
  Forall (fun y => lt_idx y x) e1 /\ Forall (lt_idx x) e2 /\ StronglySorted lt_idx (e1 ++ e2).
Proof.
  induction e1 as [|y e1 IH]; cbn [app]; intros e2 S; apply StronglySorted_inv in S; destruct S as [S F].
  - repeat split; [constructor | exact F | exact S].
  - destruct (IH e2 S) as (F1 & F2 & S'). apply Forall_app in F. destruct F as [Fa Fb].
    repeat split; [constructor; [exact (Forall_inv Fb) | exact F1] | exact F2 | constructor; [exact S'|]].
    apply Forall_app. split; [exact Fa | exact (Forall_inv_tail Fb)].
Qed.

Lemma insert_res_at x : forall e1 e2, Forall (fun y => lt_idx y x) e1 -> Forall (lt_idx x) e2 ->
  insert_res x (e1 ++ e2) = e1 ++ x :: e2.
Proof.
  induction e1 as [|y e1 IH]; cbn [app insert_res]; intros e2 F1 F2.
  - destruct e2 as [|y e2]; [reflexivity|]. apply Forall_inv in F2.
    cbn [insert_res]. unfold res_leb. rewrite (proj2 (Nat.ltb_lt _ _) F2). reflexivity.
  - pose proof (Forall_inv F1) as L. unfold lt_idx in L. unfold res_leb.
    rewrite (proj2 (Nat.ltb_ge _ _)), (proj2 (Nat.eqb_neq _ _)) by lia.
    rewrite (IH e2 (Forall_inv_tail F1) F2). reflexivity.
Qed.

Lemma sort_res_sorted : forall l e, Permutation l e -> StronglySorted lt_idx e -> sort_res l = e.
Proof.
  induction l as [|x l IH]; intros e P S.
  - apply Permutation_nil in P. subst e. reflexivity.
  - destruct (in_split x e) as (e1 & e2 & ->); [apply (Permutation_in _ P); left; reflexivity|].
    apply Permutation_cons_app_inv in P. destruct (sorted_split _ _ _ S) as (F1 & F2 & S').
    cbn [sort_res]. rewrite (IH _ P S'). apply insert_res_at; assumption.
Qed.

Lemma combine_seq_sorted : forall (l : list bool) a, StronglySorted lt_idx (combine (seq a (length l)) l).
Proof.
  induction l as [|b l IH]; intros a; cbn; [constructor|]. constructor; [apply IH|].
  rewrite Forall_forall. intros [i y] H. apply in_combine_l, in_seq in H. unfold lt_idx. cbn. lia.
Qed.

Lemma combine_seq_fst : forall (l : list bool) a, map fst (combine (seq a (length l)) l) = seq a (length l).
Proof. induction l as [|x l IH]; intros a; cbn; [reflexivity | rewrite IH; reflexivity]. Qed.

Lemma expected_sorted c : StronglySorted lt_idx (expected c).
Proof. unfold expected. rewrite <- (map_length ok_of (behs c)). apply combine_seq_sorted. Qed.

Lemma expected_fst c : map fst (expected c) = seq 0 (length (behs c)).
Proof. unfold expected. rewrite <- (map_length ok_of (behs c)). apply combine_seq_fst. Qed.

Lemma expected_length c : length (expected c) = length (behs c).
Proof. rewrite <- (seq_length (length (behs c)) 0), <- expected_fst. symmetry. apply map_length. Qed.

Lemma nth_error_combine_seq : forall (l : list beh) a i,
  nth_error (combine (seq a (length l)) (map ok_of l)) i = option_map (fun b => (a + i, ok_of b)) (nth_error l i).
Proof.
  induction l as [|x l IH]; intros a [|i]; cbn; [reflexivity.. | rewrite Nat.add_0_r; reflexivity|].
  rewrite IH, Nat.add_succ_r. reflexivity.
Qed.

Lemma expected_nth c i : nth_error (expected c) i = option_map (fun b => (i, ok_of b)) (nth_error (behs c) i).
Proof. exact (nth_error_combine_seq (behs c) 0 i). Qed.

Definition failed (c : cfg) (e : nat) : Prop := exists b, nth_error (behs c) e = Some b /\ ok_of b = false.

Lemma failed_expected c e : In (e, false) (expected c) -> failed c e.
Proof.
  intros H. apply In_nth_error in H. destruct H as [n H]. rewrite expected_nth in H.
  destruct (nth_error (behs c) n) as [b|] eqn:N; [|discriminate]. injection H as <- H. exists b. auto.
Qed.

Lemma firstn_S_nth {A} : forall n (l : list A) x, nth_error l n = Some x -> firstn (S n) l = firstn n l ++ [x].
Proof.
  induction n as [|n IH]; intros [|y l] x H; try discriminate.
  - injection H as ->. reflexivity.
  - cbn [firstn app]. rewrite <- (IH l x H). reflexivity.
Qed.

Lemma perm_snoc_mid {A} (r m : list A) x : Permutation ((r ++ [x]) ++ m) ((r ++ m) ++ [x]).
Proof. rewrite <- !app_assoc. apply Permutation_app_head, Permutation_app_comm. Qed.

Definition fut_ok (c : cfg) (f : fstate) : Prop :=
  match f with FPending => True | FResult l => l = expected c | FExc e => failed c e end.

Definition outcome_ok (c : cfg) (o : outcome) : Prop := fut_ok c (fut_of o).

Definition pending (c : cfg) (i : nat) : res := (i, later_ok c i).

(* the statements started so far are those in the queue or in flight, each with its right outcome *)
Record J_at (c : cfg) (r : list beh) (st cu : nat) (rs : list res) (e : option nat) (fl : list nat) (f : fstate) : Prop := {
  j_rest : r = skipn st (behs c);
  j_cur : cu = length rs;
  j_held : Permutation (rs ++ map (pending c) fl) (firstn st (expected c));
  j_exc : forall x, e = Some x -> In (x, false) rs;
  j_fut : fut_ok c f
}.

(* J, and busy below, read seven fields: a write to any other keeps them by conversion *)
Definition J (c : cfg) (s : state) : Prop :=
  J_at c (rest s) (started s) (current s) (results s) (exc s) (inflight s) (fut s).

Lemma failed_of_J c s e : J c s -> exc s = Some e -> failed c e.
Proof.
  intros [_ _ Hh Hx _] He. apply failed_expected, (In_firstn (started s)).
  apply (Permutation_in _ Hh), in_or_app. left. exact (Hx e He).
Qed.

Lemma skipn_cons_nth {A} : forall k (l : list A) b r, skipn k l = b :: r -> nth_error l k = Some b /\ skipn (S k) l = r.
Proof.
  induction k; destruct l; cbn; intros b r H; try discriminate.
  - inversion H; subst. split; reflexivity.
  - exact (IHk _ _ _ H).
Qed.

Lemma start_entry c s b r' : J c s -> rest s = b :: r' ->
  r' = skipn (S (started s)) (behs c)
  /\ firstn (S (started s)) (expected c) = firstn (started s) (expected c) ++ [(started s, ok_of b)]
  /\ (b <> BSyncOk -> pending c (started s) = (started s, ok_of b)).
Proof.
  intros [Hj _ _ _ _] Hr. rewrite Hj in Hr. destruct (skipn_cons_nth _ _ _ _ Hr) as [N Sk].
  split; [symmetry; exact Sk | split].
  - apply firstn_S_nth. rewrite expected_nth, N. reflexivity.
  - intros X. unfold pending, later_ok. rewrite N. destruct b; try reflexivity. congruence.
Qed.

(* what every chain ends in: unless fail fast has stored a failure, a statement in flight or the iterator run out *)
Definition busy (c : cfg) (s : state) : Prop := (ff c = true -> exc s = None) -> rest s = [] \/ 0 < length (inflight s).
Definition post (c : cfg) (s : state) : Prop := J c s /\ busy c s.

Lemma all_done c s : post c s -> (ff c = true -> exc s = None) -> started s <= current s -> sort_res (results s) = expected c.
Proof.
  intros [[Hr Hc Hh _ _] Hbusy] F Hcs.
  pose proof (Permutation_length Hh) as L. rewrite app_length, map_length in L.
  pose proof (firstn_le_length (started s) (expected c)) as L'.
  assert (Hi : inflight s = []) by (apply length_zero_iff_nil; rewrite Hc in Hcs; lia).
  destruct (Hbusy F) as [Hrest | Hfl]; [|rewrite Hi in Hfl; inversion Hfl].
  rewrite Hr in Hrest. apply (f_equal (@length beh)) in Hrest. rewrite skipn_length in Hrest. cbn in Hrest.
  rewrite Hi, app_nil_r, firstn_all2 in Hh by (rewrite expected_length; lia).
  exact (sort_res_sorted _ _ Hh (expected_sorted c)).
Qed.

Lemma post_notify c s : post c s -> post c (notify s).
Proof. intros P. unfold notify. destruct (pc s); exact P. Qed.

Lemma post_fut_set c s v : post c s -> fut_ok c v -> post c (fut_set s v).
Proof.
  intros P Hv. unfold fut_set. destruct (fut s); try exact P.
  destruct P as [[A1 A2 A3 A4 _] B]. split; [split; assumption | exact B].
Qed.

Lemma verdict_ok c s : post c s -> ready c s -> outcome_ok c (verdict c s).
Proof.
  intros P R. unfold verdict. destruct (exc s) eqn:X; [destruct (ff c) eqn:F|].
  - exact (failed_of_J _ _ _ (proj1 P) X).
  - apply (all_done c s P); [|apply R]; congruence.
  - apply (all_done c s P); [|apply R]; intros _; exact X.
Qed.

Lemma post_region2 c s : post c s -> post c (region2 c s).
Proof.
  intros P. rewrite region2_eq. destruct (current s =? started s) eqn:E; [|exact P]. apply Nat.eqb_eq in E.
  apply post_fut_set; [exact P | apply verdict_ok; [exact P | intros _; lia]].
Qed.

Definition next_post (c : cfg) (r' : list beh) (next : nat -> state -> state * bool) : Prop :=
  forall d s, rest s = r' -> J c s -> post c (fst (next d s)).

Lemma put_list_J c next d s idx ok :
  let s1 := set_core s (rest s) (started s) (S (current s)) (results s ++ [(idx, ok)]) (exc s) (inflight s) in
  next_post c (rest s) next -> J c s1 -> post c (put_list c next d s idx ok).
Proof.
  intros s1 N J1. unfold put_list. fold s1.
  destruct (negb ok && ff c) eqn:B.
  - apply andb_true_iff in B. destruct B as [B1 B2]. apply negb_true_iff in B1. subst ok.
    apply post_notify. destruct J1 as [A1 A2 A3 A4 A5]. split; [split; try assumption|].
    + (* j_exc *) cbn in *. intros e He. destruct (exc s) eqn:X; [apply A4; congruence|].
      inversion He; subst. apply in_or_app. right. left. reflexivity.
    + (* busy *) intros F. specialize (F B2). destruct (exc s); discriminate.
  - specialize (N d s1 eq_refl J1). destruct (next d s1) as [s2 r].
    destruct (negb r && (current s2 =? started s2)); [apply post_notify|]; exact N.
Qed.

Lemma put_nested_J c next d s idx ok : var c <> VGen -> next_post c (rest s) next ->
  J c (set_core s (rest s) (started s) (S (current s)) (results s ++ [(idx, ok)]) (exc s) (inflight s)) ->
  post c (put_result_nested c next d s idx ok).
Proof.
  intros V N Hj. unfold put_result_nested. rewrite put_result_eq.
  pose proof (put_list_J c next d s idx ok N Hj) as P.
  destruct (var c); [exact P | congruence | exact (post_region2 c _ P)].
Qed.

Lemma exec_next_J c : var c <> VGen -> forall r, next_post c r (exec_next c r).
Proof.
  intros V. induction r as [|b r' IH]; intros d s Hrest Hj.
  - split; [exact Hj | intros _; left; exact Hrest].
  - destruct (start_entry c s b r' Hj Hrest) as (Sk & Fn & Pe). destruct Hj as [_ Hc Hh Hexc Hf].
    destruct (exec_next_cons c b r' d s) as [[-> HX] | ->].
    + split; [split; cbn [set_core rest started current results exc inflight fut]; try assumption|].
      * (* j_held *) rewrite Fn, map_app, app_assoc. cbn [map]. rewrite (Pe HX). apply Permutation_app_tail, Hh.
      * (* busy *) intros _. right. cbn. rewrite app_length. cbn. lia.
    + apply put_nested_J; [exact V | exact IH|].
      split; cbn [set_core rest started current results exc inflight fut].
      * (* j_rest *) exact Sk.
      * (* j_cur *) rewrite app_length. cbn. lia.
      * (* j_held *) rewrite Fn, perm_snoc_mid. apply Permutation_app_tail, Hh.
      * (* j_exc *) intros e He. apply in_or_app. left. exact (Hexc e He).
      * (* j_fut *) exact Hf.
Qed.

Lemma exec_next_top_J c r : var c <> VGen -> next_post c r (exec_next_top c).
Proof. intros V d s Hrest. unfold exec_next_top. rewrite Hrest. exact (exec_next_J c V r d s Hrest). Qed.

(* execute(): already the first _execute_next leaves a statement in flight or the iterator empty *)
Lemma start_loop_post c : var c <> VGen -> forall k s, 0 < k \/ busy c s -> J c s -> post c (start_loop c k s).
Proof.
  intros V. induction k as [|k IH]; intros s Hk Hj; cbn [start_loop].
  - destruct Hk as [Hk | B]; [inversion Hk | exact (conj Hj B)].
  - pose proof (exec_next_top_J c (rest s) V 0 s eq_refl Hj) as N.
    destruct (exec_next_top c 0 s) as [s1 r]. destruct r; [exact (IH s1 (or_intror (proj2 N)) (proj1 N)) | exact N].
Qed.

Lemma complete_post c s i : var c <> VGen -> J c s -> mem i (inflight s) = true ->
  post c (put_list c (exec_next_top c) 0
            (set_core s (rest s) (started s) (current s) (results s) (exc s) (remove_first i (inflight s))) i (later_ok c i)).
Proof.
  intros V [A1 A2 A3 A4 A5] M. apply remove_first_perm in M.
  apply put_list_J; [exact (exec_next_top_J c _ V)|].
  split; cbn.
  - (* j_rest *) exact A1.
  - (* j_cur *) rewrite app_length. cbn. lia.
  - (* j_held *) rewrite <- A3, <- (Permutation_map (pending c) M), perm_snoc_mid, <- app_assoc.
    apply Permutation_app_head. symmetry. apply (Permutation_cons_append _ (pending c i)).
  - (* j_exc *) intros e He. apply in_or_app. left. exact (A4 e He).
  - (* j_fut *) exact A5.
Qed.

Definition pc_ok (c : cfg) (p : mainpc) : Prop :=
  match p with MRet o | MFin o => outcome_ok c o | MInit | MYield => False | _ => True end.

Definition steady (c : cfg) (s : state) : Prop := post c s /\ pc_ok c (pc s).

Lemma main_step_steady c s : var c <> VGen -> steady c s -> steady c (main_step c s).
Proof.
  intros V [P Hp]. destruct (main_step_view c s) as [|E|G|E| |R|o E]; try rewrite E in Hp.
  2-4: contradiction. (* v_init: not pc_ok; v_gen: not this variant; v_yield: not pc_ok *)
  - exact (conj P Hp).
  - exact (conj P I).
  - exact (conj P (verdict_ok c s P R)).
  - exact (conj (post_fut_set c s _ P Hp) Hp).
Qed.

(* nothing happens before the caller's first region *)
Definition Inv (c : cfg) (s : state) : Prop := s = init c \/ steady c s.

Lemma J_init c : J c (init c).
Proof. split; cbn; [reflexivity | reflexivity | reflexivity | discriminate | exact I]. Qed.

Lemma step_Inv c s o : var c <> VGen -> 0 < conc c -> Inv c s -> Inv c (step c s o).
Proof.
  intros V Hc [-> | [P Hp]].
  - destruct o; [right | left; reflexivity..].
    exact (conj (start_loop_post c V (conc c) (init c) (or_introl Hc) (J_init c)) I).
  - right. destruct o; [exact (main_step_steady c s V (conj P Hp)) | |].
    + split; [|rewrite (proj1 (complete_frame c s i)); exact Hp].
      cbn [step]. destruct (mem i (inflight s)) eqn:M; [|exact P].
      pose proof (complete_post c s i V (proj1 P) M) as P1. rewrite put_result_eq.
      destruct (var c); [exact P1 | congruence | exact P1].
    + split; [|rewrite (proj1 (finish2_frame c s i)); exact Hp].
      cbn [step]. destruct (mem i (pend2 s)); [exact (post_region2 c s P) | exact P].
Qed.

Lemma Inv_run c ops : var c <> VGen -> 0 < conc c -> Inv c (run c ops).
Proof. intros V Hc. apply (fold_left_inv (step c) (Inv c)); [intros; apply step_Inv; assumption | left; reflexivity]. Qed.

(* with fail fast on as well: a list is then returned only while no failure is stored, and `busy` still holds *)
Lemma delivered_ok c ops o : var c <> VGen -> 0 < conc c ->
  pc (run c ops) = MRet o \/ pc (run c ops) = MFin o \/ fut (run c ops) = fut_of o -> outcome_ok c o.
Proof.
  intros V Hc H. destruct (Inv_run c ops V Hc) as [E | [[Hj _] Hp]].
  - rewrite E in H. destruct H as [H|[H|H]]; [discriminate.. | destruct o; discriminate].
  - destruct Hj as [_ _ _ _ Hf].
    destruct H as [H|[H|H]]; [rewrite H in Hp; exact Hp | rewrite H in Hp; exact Hp | rewrite H in Hf; exact Hf].
Qed.

Lemma set_pc_proj s p nt : inflight (set_pc s p nt) = inflight s /\ fut (set_pc s p nt) = fut s /\ fut_err (set_pc s p nt) = fut_err s
  /\ exc (set_pc s p nt) = exc s /\ pc (set_pc s p nt) = p.
Proof. repeat split. Qed.
