(* C44: one heartbeat on one connection, as a composition of Conn steps; the wait phase of a round (Model/Heartbeat.v). *)
From Coq Require Import ZArith List Lia.
From Verif Require Import Conn Conn_lemmas Heartbeat.
Import ListNotations.
Local Open Scope Z_scope.

(* a successful heartbeat: HeartbeatFuture.__init__, the SUPPORTED reply processed by process_msg, run()'s locked
   in_flight -= 1 and reset_idle *)
Definition hb_ok (i cb : Z) : list op := [HbSend cb; RecvBegin i; RecvPop i DOk; RecvEnd; HbDone].

(* a failed / unanswered heartbeat: run() calls connection.defunct(exc) then owner.return_connection(connection) *)
Definition hb_failed : list op := [DefunctFlag; Close; ErrCp; ErrSwap; OwnerReturn].

Lemma wait_one_spec T now a : now <= T ->
  fst (wait_one now (T - now) a) = in_time T a /\ snd (wait_one now (T - now) a) <= T.
Proof.
  intros Hn. unfold wait_one, in_time. destruct a as [t|]; [|cbn [fst snd]; lia].
  destruct (Z.leb_spec t now), (Z.ltb_spec 0 (T - now)), (Z.leb_spec t (now + (T - now))), (Z.leb_spec t T);
    cbn [andb fst snd]; lia.
Qed.

Lemma wait_loop_spec T : forall arrivals now, now <= T ->
  wait_loop T now (T - now) arrivals = map (in_time T) arrivals.
Proof.
  induction arrivals as [|a rest IH]; intros now Hn; [reflexivity|]. cbn [wait_loop map].
  destruct (wait_one_spec T now a Hn) as [E B]. destruct (wait_one now (T - now) a) as [ok now'].
  cbn [fst snd] in E, B. rewrite E, IH by lia. reflexivity.
Qed.

Lemma wait_phase_spec T arrivals : 0 <= T -> wait_phase T arrivals = map (in_time T) arrivals.
Proof. intros HT. unfold wait_phase. rewrite <- (Z.sub_0_r T) at 2. apply wait_loop_spec. lia. Qed.

(* `register` appends to `wire`: lookup and rmk at an association list of that shape *)
Lemma lookup_app_none {A} i (l : list (Z * A)) v : lookup i l = None -> lookup i (l ++ [(i, v)]) = Some v.
Proof.
  induction l as [|[k w] l IH]; cbn [lookup app]; intros E.
  - rewrite Z.eqb_refl. reflexivity.
  - destruct (i =? k); [discriminate|]. exact (IH E).
Qed.

Lemma rmk_app_none {A} i (l : list (Z * A)) v : lookup i l = None -> rmk i (l ++ [(i, v)]) = l.
Proof.
  induction l as [|[k w] l IH]; cbn [lookup app rmk]; intros E.
  - rewrite Z.eqb_refl. reflexivity.
  - destruct (i =? k); [discriminate|]. rewrite (IH E). reflexivity.
Qed.

Lemma rmk_none {A} i (l : list (Z * A)) : lookup i l = None -> rmk i l = l.
Proof. intros E. exact (rmk_id i l (lookup_none_cnt i l E)). Qed.
