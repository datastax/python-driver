(* C47: `reached` lists the configurations (replies so far, state, frames so far) of a run of Model/Handshake.v: the four
   stations of a handshake under way, each a closed form in the compression negotiated, and what is left of a station once
   the connection has ended.  One induction keeps a run on the list (reached_run); the end results are read off it by cases. *)
From Coq Require Import ZArith List Bool.
From Verif Require Import Handshake ListFacts.
Import ListNotations.
Local Open Scope Z_scope.

Lemma memZ_In : forall x l, memZ x l = true <-> In x l.
Proof. exact (memb_In Z.eqb Z.eqb_eq). Qed.

Definition nego_ok (cfg : config) (remote : list Z) (n : nego) : Prop :=
  match n with
  | NegoNone => True
  | NegoSome a => In a (c_local cfg) /\ In a remote /\ c_comp cfg <> CompOff /\ (forall n, c_comp cfg = CompName n -> a = n)
                  /\ (a =? snappy) && has_cs (c_version cfg) = false
  | NegoFail e => e = EProtocolError \/ e = EKeyError
  end.

Lemma negotiate_ok cfg remote : nego_ok cfg remote (negotiate cfg remote).
Proof.
  unfold negotiate.
  assert (Hpick : forall a0, In a0 remote -> c_comp cfg <> CompOff -> (forall n, c_comp cfg = CompName n -> a0 = n) ->
            nego_ok cfg remote (if (a0 =? snappy) && has_cs (c_version cfg) then NegoNone
                                else if memZ a0 (c_local cfg) then NegoSome a0 else NegoFail EKeyError)).
  { intros a0 Hr Hoff Hname. destruct (_ && _) eqn:Es; [exact I|].
    destruct (memZ a0 (c_local cfg)) eqn:Em; cbn; [apply memZ_In in Em | ]; auto. }
  destruct (c_comp cfg) as [| |n] eqn:Ec; [exact I | |];
    (destruct (filter (fun k => memZ k remote) (c_local cfg)) as [|first rest] eqn:Ef; [exact I|]).
  - apply Hpick; [| discriminate | discriminate].
    assert (Hin : In first (filter (fun k => memZ k remote) (c_local cfg))) by (rewrite Ef; left; auto).
    apply filter_In in Hin. apply memZ_In, Hin.
  - destruct (memZ n remote) eqn:Er; [| left; reflexivity].
    apply Hpick; [apply memZ_In, Er | discriminate | intros n0 [= ->]; reflexivity].
Qed.

Lemma negotiate_some : forall cfg remote a,
  negotiate cfg remote = NegoSome a ->
  In a (c_local cfg) /\ In a remote /\ c_comp cfg <> CompOff /\ (forall n, c_comp cfg = CompName n -> a = n)
  /\ ((a =? snappy) && has_cs (c_version cfg) = false).
Proof. intros cfg remote a E. pose proof (negotiate_ok cfg remote) as H. rewrite E in H. exact H. Qed.

Lemma negotiate_fail cfg remote e : negotiate cfg remote = NegoFail e -> e = EProtocolError \/ e = EKeyError.
Proof. intros E. pose proof (negotiate_ok cfg remote) as H. rewrite E in H. exact H. Qed.

Definition authphase (s : state) : Prop := pending s = Some CbAuth \/ pending s = Some (CbStartup true).

Definition nego_of (pc : option Z) : nego := match pc with Some a => NegoSome a | None => NegoNone end.

(* A connection that has not ended: pc is the compression negotiated, acc says that the server has accepted STARTUP
   (READY or AUTHENTICATE: `enable` has run), p is the request outstanding. *)
Definition shape (v : Z) (pc : option Z) (acc : bool) (p : option cb) (conn : bool) : state :=
  mkState p pc (if acc then pc else None) pc (acc && has_cs v) (acc && has_cs v && is_some pc) conn false false None.

Definition ended (s : state) (df : bool) (le : option errtag) : state :=
  mkState None (pcomp s) (comp s) (decomp s) (cksum s) (seglz4 s) true df true le.

Definition startup_frame (pc : option Z) : frame := mkFrame (MStartup pc) false false false.

(* The two ways to authenticate (an Authenticator object, a credentials dict): each has its message and the handler that
   waits for the answer. *)
Inductive auth_by := BySasl | ByDict.
Definition auth_msg (w : auth_by) : mkind := match w with BySasl => MAuthResponse | ByDict => MCredentials end.
Definition auth_cb (w : auth_by) : cb := match w with BySasl => CbAuth | ByDict => CbStartup true end.
Definition auth_frame (v : Z) (pc : option Z) (w : auth_by) : frame :=
  mkFrame (auth_msg w) (is_some pc && negb (has_cs v)) (has_cs v) (has_cs v && is_some pc).

Definition sent_so_far (cfg : config) (pc : option Z) (ks : list auth_by) : list frame :=
  init_frames cfg ++ startup_frame pc :: map (auth_frame (c_version cfg) pc) ks.

Inductive station (cfg : config) : list reply -> state -> list frame -> Prop :=
| at_options : station cfg [] init_state (init_frames cfg)
| at_startup remote pc : negotiate cfg remote = nego_of pc ->
    station cfg [RSupported remote] (shape (c_version cfg) pc false (Some (CbStartup false)) false) (sent_so_far cfg pc [])
| at_auth remote pc w rest ks : negotiate cfg remote = nego_of pc -> In RAuthenticate rest ->
    station cfg (RSupported remote :: rest) (shape (c_version cfg) pc true (Some (auth_cb w)) false) (sent_so_far cfg pc ks)
| at_ready remote pc rest ks : negotiate cfg remote = nego_of pc ->
    In RReady rest \/ In RAuthenticate rest /\ In RAuthSuccess rest ->
    station cfg (RSupported remote :: rest) (shape (c_version cfg) pc true None true) (sent_so_far cfg pc ks).

(* A connection ends by close() or defunct().  close() records no error when the handshake was over (no request
   outstanding: the station was at_ready), or when the reactor lacks the guard; AuthenticationFailed is recorded for
   authentication reasons only. *)
Inductive reached (cfg : config) : list reply -> state -> list frame -> Prop :=
| under_way h s o : station cfg h s o -> reached cfg h s o
| has_ended h s o more df le : station cfg h s o ->
    (le = None -> c_guard cfg = true -> pending s = None) ->
    (le = Some EAuthFailed -> In RAuthenticate (h ++ more) /\ (c_auth cfg = ANone \/ exists k, In (RError k) (h ++ more))) ->
    reached cfg (h ++ more) (ended s df le) o.

Lemma ended_final cfg s df le r : step cfg (ended s df le) r = (ended s df le, []).
Proof. destruct r, df; reflexivity. Qed.

Lemma ended_final_run cfg s df le rs : run_from cfg (ended s df le) rs = (ended s df le, []).
Proof. induction rs as [|r rs IH]; cbn [run_from]; [| rewrite ended_final, IH]; reflexivity. Qed.

Lemma enable_shape v pc acc p n : enable v (shape v pc acc p n) = shape v pc true p n.
Proof. unfold enable, shape. destruct acc, (has_cs v), pc; reflexivity. Qed.

Lemma auth_frame_eq v pc p n w : mk_frame v (shape v pc true p n) (auth_msg w) = auth_frame v pc w.
Proof. unfold mk_frame, auth_frame; cbn. destruct w, (has_cs v), pc; reflexivity. Qed.

Lemma sent_more cfg pc ks k : sent_so_far cfg pc ks ++ [auth_frame (c_version cfg) pc k] = sent_so_far cfg pc (ks ++ [k]).
Proof. unfold sent_so_far. rewrite map_app, <- app_assoc. reflexivity. Qed.

(* The handlers run on the state with the request popped, which is again a `shape`: the left-hand sides are spelt out
   with `change` so that enable_shape and auth_frame_eq apply. *)
Lemma supported_step cfg remote pc : negotiate cfg remote = nego_of pc ->
  step cfg init_state (RSupported remote) = (shape (c_version cfg) pc false (Some (CbStartup false)) false, [startup_frame pc]).
Proof. intros E. cbn. rewrite E. destruct pc; reflexivity. Qed.

Lemma ready_step cfg pc acc did :
  step cfg (shape (c_version cfg) pc acc (Some (CbStartup did)) false) RReady = (shape (c_version cfg) pc true None true, []).
Proof.
  change (step _ _ _) with (set_connected (enable (c_version cfg) (shape (c_version cfg) pc acc None false)), @nil frame).
  rewrite enable_shape. reflexivity.
Qed.

Lemma authenticate_step cfg pc acc did : let v := c_version cfg in let s := shape v pc acc (Some (CbStartup did)) false in
  step cfg s RAuthenticate =
  match c_auth cfg with
  | ANone => (ended s true (Some EAuthFailed), [])
  | ASasl => (shape v pc true (Some CbAuth) false, [auth_frame v pc BySasl])
  | ADict => if v <=? 1 then (shape v pc true (Some (CbStartup true)) false, [auth_frame v pc ByDict])
             else (ended (enable v s) true (Some EUnsupportedOp), [])
  end.
Proof.
  intros v s.
  change (step cfg s RAuthenticate) with (match c_auth cfg with
    | ANone => (do_defunct (shape v pc acc None false) EAuthFailed, [])
    | ADict => send v (enable v (shape v pc acc None false)) MCredentials (CbStartup true)
    | ASasl => send v (enable v (shape v pc acc None false)) MAuthResponse CbAuth end).
  unfold s, send. cbn [encode_ok]. rewrite !enable_shape, (auth_frame_eq _ _ _ _ BySasl), (auth_frame_eq _ _ _ _ ByDict).
  destruct (c_auth cfg); [| | destruct (v <=? 1)]; reflexivity.
Qed.

Lemma auth_success_step cfg pc :
  step cfg (shape (c_version cfg) pc true (Some CbAuth) false) RAuthSuccess = (shape (c_version cfg) pc true None true, []).
Proof. destruct pc; reflexivity. Qed.

Lemma challenge_step cfg pc : let s := shape (c_version cfg) pc true (Some CbAuth) false in
  step cfg s (RChallenge true) = (s, [auth_frame (c_version cfg) pc BySasl]).
Proof.
  intros s. change (step _ _ _) with (s, [mk_frame (c_version cfg) (shape (c_version cfg) pc true None false) (auth_msg BySasl)]).
  rewrite auth_frame_eq. reflexivity.
Qed.

(* AUTHENTICATE in answer to STARTUP or to CREDENTIALS.  A CREDENTIALS message that cannot be encoded (v > 1) fails after
   `enable` has run: the connection ends at the authentication station it would have reached. *)
Lemma authenticate_reached cfg remote rest pc acc did ks :
  let s := shape (c_version cfg) pc acc (Some (CbStartup did)) false in
  station cfg (RSupported remote :: rest) s (sent_so_far cfg pc ks) -> negotiate cfg remote = nego_of pc ->
  reached cfg ((RSupported remote :: rest) ++ [RAuthenticate]) (fst (step cfg s RAuthenticate))
    (sent_so_far cfg pc ks ++ snd (step cfg s RAuthenticate)).
Proof.
  intros s H En.
  pose proof (fun w ks' => at_auth cfg remote pc w (rest ++ [RAuthenticate]) ks' En (in_elt _ _ _)) as Hat.
  unfold s. rewrite authenticate_step. cbn [app].
  destruct (c_auth cfg) eqn:Ea; [| | destruct (c_version cfg <=? 1)]; cbn [fst snd]; rewrite ?app_nil_r, ?sent_more.
  - (* ANone *) apply (has_ended cfg _ _ _ [RAuthenticate] _ _ H); [discriminate | intros _; split; [apply in_elt | auto]].
  - apply under_way, (Hat BySasl).
  - apply under_way, (Hat ByDict).
  - (* ADict, v > 1: ended, with nothing more heard, at the station that `Hat` gives without the frame *)
    rewrite enable_shape, <- (app_nil_r (_ :: _)). apply (has_ended cfg _ _ _ [] true _ (Hat ByDict ks)); discriminate.
Qed.

Lemma station_step cfg h s o r : station cfg h s o -> reached cfg (h ++ [r]) (fst (step cfg s r)) (o ++ snd (step cfg s r)).
Proof.
  intros H.
  assert (Hend : forall df le, (le = None -> c_guard cfg = true -> pending s = None) ->
            (le = Some EAuthFailed -> In RAuthenticate (h ++ [r]) /\ (c_auth cfg = ANone \/ exists k, In (RError k) (h ++ [r]))) ->
            reached cfg (h ++ [r]) (ended s df le) (o ++ [])).
  { intros df le E1 E2. rewrite app_nil_r. apply has_ended; assumption. }
  assert (Herr : forall e, e <> EAuthFailed -> reached cfg (h ++ [r]) (ended s true (Some e)) (o ++ [])).
  { intros e Hn. apply Hend; [discriminate | intros [= ->]; contradiction]. }
  assert (Hclose : forall b, pending s = None \/ b = true ->
     reached cfg (h ++ [r]) (ended s false (if c_guard cfg && b then Some EConnShutdown else None)) (o ++ [])).
  { intros b Hb. apply Hend; destruct (c_guard cfg), b; try discriminate; intros; destruct Hb; congruence. }
  (* whatever is not singled out below is a failure that `Herr`, `Hclose` (or `Hfail`) recognises by computation *)
  assert (H0 := H). destruct H0 as [|remote pc En|remote pc w rest ks En Hin|remote pc rest ks En Hin].
  - (* at_options *)
    destruct r as [remote| | | | |[| |]| | |]; try (apply Herr; discriminate); try (apply (Hclose true); auto).
    (* RSupported *) destruct (negotiate cfg remote) as [|a|e] eqn:En.
    + rewrite (supported_step cfg remote None En). apply under_way, (at_startup cfg remote None En).
    + rewrite (supported_step cfg remote (Some a) En). apply under_way, (at_startup cfg remote (Some a) En).
    + cbn. rewrite En. apply Herr. destruct (negotiate_fail _ _ _ En) as [-> | ->]; discriminate.
  - (* at_startup *)
    destruct r as [| | | | |[| |]| | |]; try (apply Herr; discriminate); try (apply (Hclose true); auto).
    + (* RReady *) rewrite ready_step. cbn [fst snd]. rewrite app_nil_r.
      apply under_way, (at_ready cfg remote pc [RReady] [] En); cbn; auto.
    + (* RAuthenticate *) apply authenticate_reached; auto.
  - (* at_auth *)
    assert (Hfail : forall k, r = RError k -> reached cfg ((RSupported remote :: rest) ++ [r])
              (ended (shape (c_version cfg) pc true (Some (auth_cb w)) false) true (Some EAuthFailed)) (sent_so_far cfg pc ks ++ [])).
    { intros k ->. apply Hend; [discriminate | intros _; split; [right; apply in_or_app; auto | right; exists k; apply in_elt]]. }
    destruct w; cbn [auth_cb]; destruct r as [| | |[|]| |[| |]| | |]; try (apply Herr; discriminate);
      try (eapply Hfail; reflexivity); try (apply (Hclose true); auto).
    + (* BySasl, RChallenge true *) rewrite challenge_step. cbn [fst snd app]. rewrite sent_more.
      apply under_way, (at_auth cfg remote pc BySasl); auto using in_or_app.
    + (* BySasl, RAuthSuccess *) rewrite auth_success_step. cbn [fst snd app]. rewrite app_nil_r.
      apply under_way, at_ready; auto using in_or_app, in_elt.
    + (* ByDict, RReady *) rewrite ready_step. cbn [fst snd app]. rewrite app_nil_r. apply under_way, at_ready; auto using in_elt.
    + (* ByDict, RAuthenticate *) apply authenticate_reached; auto.
  - (* at_ready: a protocol reply is dropped *)
    destruct r; try (cbn [fst snd step pending shape app]; rewrite app_nil_r; apply under_way, at_ready; auto;
      destruct Hin as [Hin|[Hin Hin']]; auto using in_or_app).
    + (* RDisconnect *) apply (Hclose false). auto.
    + (* RSockErr *) apply Herr. discriminate.
Qed.

Lemma reached_step cfg h s o r : reached cfg h s o -> reached cfg (h ++ [r]) (fst (step cfg s r)) (o ++ snd (step cfg s r)).
Proof.
  intros [h0 s0 o0 H | h0 s0 o0 more df le H E1 E2]; [apply station_step, H|].
  rewrite ended_final, <- app_assoc. rewrite app_nil_r. apply (has_ended cfg h0 s0 o0); [assumption.. |].
  intros El. rewrite app_assoc. destruct (E2 El) as [A [B|[k B]]]; split; eauto using in_or_app.
Qed.

Lemma reached_from cfg rs : forall h s o, reached cfg h s o ->
  reached cfg (h ++ rs) (fst (run_from cfg s rs)) (o ++ snd (run_from cfg s rs)).
Proof.
  induction rs as [|r rs IH]; intros h s o H; cbn [run_from].
  - rewrite !app_nil_r. exact H.
  - apply (reached_step cfg h s o r) in H. destruct (step cfg s r) as [s1 o1]. apply IH in H. cbn [fst snd] in H.
    destruct (run_from cfg s1 rs) as [s2 o2]. cbn [fst snd] in *. rewrite <- !app_assoc in H. exact H.
Qed.

Lemma reached_run cfg rs : reached cfg rs (fst (run cfg rs)) (snd (run cfg rs)).
Proof.
  pose proof (reached_from cfg rs [] init_state (init_frames cfg) (under_way _ _ _ _ (at_options cfg))) as H.
  unfold run. destruct (run_from cfg init_state rs). exact H.
Qed.

Lemma run_from_app : forall cfg rs1 rs2 s,
  run_from cfg s (rs1 ++ rs2) =
  let '(s1, o1) := run_from cfg s rs1 in let '(s2, o2) := run_from cfg s1 rs2 in (s2, o1 ++ o2).
Proof.
  induction rs1 as [|r rs1 IH]; intros rs2 s; cbn [run_from app].
  - destruct (run_from cfg s rs2); reflexivity.
  - destruct (step cfg s r) as [s1 o1]. rewrite IH.
    destruct (run_from cfg s1 rs1) as [s2 o2]. destruct (run_from cfg s2 rs2) as [s3 o3].
    rewrite app_assoc. reflexivity.
Qed.

Lemma run_app_state cfg rs more : fst (run cfg (rs ++ more)) = fst (run_from cfg (fst (run cfg rs)) more).
Proof.
  unfold run. rewrite run_from_app. destruct (run_from cfg init_state rs) as [s o]. cbn [fst].
  destruct (run_from cfg s more). reflexivity.
Qed.

Lemma error_ended {cfg h s o} e : reached cfg h s o -> last_error s = Some e -> exists s0 df, s = ended s0 df (Some e).
Proof. intros [h0 s0 o0 H | h0 s0 o0 more df le H _ _] He; [destruct H; discriminate He | cbn in He; subst le; eauto]. Qed.

Lemma error_final {cfg h s o} e rs : reached cfg h s o -> last_error s = Some e -> run_from cfg s rs = (s, []).
Proof. intros HR He. destruct (error_ended e HR He) as (s0 & df & ->). apply ended_final_run. Qed.

Lemma error_after_step {cfg h s o} r post e : reached cfg h s o -> last_error (fst (step cfg s r)) = Some e ->
  last_error (fst (run_from cfg s (r :: post))) = Some e.
Proof.
  intros HR He. apply (reached_step cfg h s o r) in HR. cbn [run_from].
  destruct (step cfg s r) as [s1 o1]. cbn [fst snd] in *. rewrite (error_final e post HR He). exact He.
Qed.

Lemma error_connected {cfg h s o} e : reached cfg h s o -> last_error s = Some e -> connected s = true.
Proof. intros HR He. destruct (error_ended e HR He) as (s0 & df & ->). reflexivity. Qed.

Lemma waiting {cfg h s o} : reached cfg h s o -> connected s = false -> last_error s = None /\ exists c, pending s = Some c.
Proof.
  intros [h0 s0 o0 H | h0 s0 o0 more df le H _ _] Hc; [| discriminate Hc].
  destruct H; try discriminate Hc; (split; [reflexivity | eexists; reflexivity]).
Qed.

Lemma connected_replies_dropped {cfg h s o} r : reached cfg h s o -> connected s = true -> r <> RDisconnect -> r <> RSockErr ->
  step cfg s r = (s, []).
Proof.
  intros [h0 s0 o0 H | h0 s0 o0 more df le H _ _] Hc H1 H2; [| apply ended_final].
  destruct H; try discriminate Hc. destruct r; try reflexivity; contradiction.
Qed.

Lemma authenticate_without_authenticator {cfg h s o} did : reached cfg h s o -> pending s = Some (CbStartup did) ->
  c_auth cfg = ANone -> last_error (fst (step cfg s RAuthenticate)) = Some EAuthFailed.
Proof.
  intros [h0 s0 o0 H | h0 s0 o0 more df le H _ _] Hp Ha; [| discriminate Hp].
  destruct H as [| | ? ? [|] |]; try discriminate Hp; cbn [auth_cb]; rewrite authenticate_step, Ha; reflexivity.
Qed.

Lemma credentials_rejected {cfg h s o} : reached cfg h s o -> authphase s ->
  last_error (fst (step cfg s (RError EkAuth))) = Some EAuthFailed.
Proof.
  intros [h0 s0 o0 H | h0 s0 o0 more df le H _ _] Hp; [| destruct Hp; discriminate].
  destruct H as [| | ? ? [|] |]; try (destruct Hp; discriminate); reflexivity.
Qed.

Lemma station_ready {cfg h s o} : station cfg h s o -> pending s = None ->
  exists remote rest, h = RSupported remote :: rest /\ (In RReady rest \/ In RAuthSuccess rest).
Proof. intros [| | |remote pc rest ks _ Hin]; try discriminate. intros _. exists remote, rest. tauto. Qed.

Lemma ready_heard {cfg h s o} : reached cfg h s o -> c_guard cfg = true -> reported_ready s = true ->
  (exists remote rest, h = RSupported remote :: rest) /\ (In RReady h \/ In RAuthSuccess h).
Proof.
  intros [h0 s0 o0 H | h0 s0 o0 more df le H E _] Hg Hr.
  - destruct (station_ready H) as (remote & rest & -> & Hin); [destruct H; try discriminate Hr; reflexivity|].
    split; [eauto | destruct Hin; [left | right]; right; assumption].
  - (* ended without an error under the guard: it was ready *)
    destruct le; [discriminate Hr|]. destruct (station_ready H (E eq_refl Hg)) as (remote & rest & -> & Hin).
    split; [cbn; eauto | destruct Hin; [left | right]; right; apply in_or_app; auto].
Qed.

Lemma authfailed_heard {cfg h s o} : reached cfg h s o -> last_error s = Some EAuthFailed ->
  In RAuthenticate h /\ (c_auth cfg = ANone \/ exists k, In (RError k) h).
Proof. intros [h0 s0 o0 H | h0 s0 o0 more df le H _ E]; [destruct H; discriminate | exact E]. Qed.

Definition named (s : state) (o : list frame) (a : Z) : Prop :=
  pcomp s = Some a \/ comp s = Some a \/ decomp s = Some a \/ exists f, In f o /\ f_kind f = MStartup (Some a).

Lemma in_sent {cfg pc ks f} : In f (sent_so_far cfg pc ks) ->
  f = mkFrame MOptions false false false \/ f = startup_frame pc \/ exists w, f = auth_frame (c_version cfg) pc w.
Proof. intros [<-|[<-|Hin]]; auto. apply in_map_iff in Hin. destruct Hin as (w & <- & _). eauto. Qed.

Lemma shape_named cfg pc acc p n ks a : named (shape (c_version cfg) pc acc p n) (sent_so_far cfg pc ks) a -> pc = Some a.
Proof.
  intros [H|[H|[H|(f & Hin & Hf)]]]; [exact H | destruct acc; [exact H | discriminate H] | exact H |].
  destruct (in_sent Hin) as [-> |[-> |([|] & ->)]]; cbn in Hf; congruence.
Qed.

Lemma named_negotiated {cfg h s o} a : reached cfg h s o -> named s o a ->
  exists remote rest, h = RSupported remote :: rest /\ negotiate cfg remote = NegoSome a.
Proof.
  assert (Hst : forall h s o, station cfg h s o -> named s o a ->
            exists remote rest, h = RSupported remote :: rest /\ negotiate cfg remote = NegoSome a).
  { intros h0 s0 o0 [|remote pc En|remote pc w rest ks En _|remote pc rest ks En _] Hn;
      [| apply shape_named in Hn; subst pc; eauto ..].
    (* at_options *) destruct Hn as [H|[H|[H|(f & [<-|[]] & H)]]]; discriminate. }
  (* `ended` keeps the compression fields, and the frames stay: what holds at the station holds after the end *)
  intros [h0 s0 o0 H | h0 s0 o0 more df le H _ _] Hn; [exact (Hst _ _ _ H Hn)|].
  destruct (Hst _ _ _ H Hn) as (remote & rest & -> & En). exists remote, (rest ++ more). auto.
Qed.

Definition plain (f : frame) : Prop := f_compressed f = false /\ f_segcomp f = false /\ f_checksummed f = false.

Lemma pre_accept {cfg h s o} : reached cfg h s o -> In RReady h \/ In RAuthenticate h \/ comp s = None /\ Forall plain o.
Proof.
  assert (Hst : forall h s o, station cfg h s o -> In RReady h \/ In RAuthenticate h \/ comp s = None /\ Forall plain o).
  { intros h0 s0 o0 [|remote pc En|remote pc w rest ks En Hin|remote pc rest ks En Hin].
    - right. right. repeat constructor.
    - right. right. repeat constructor.
    - right. left. right. exact Hin.
    - destruct Hin as [Hin|[Hin _]]; [left | right; left]; right; exact Hin. }
  intros [h0 s0 o0 H | h0 s0 o0 more df le H _ _]; [exact (Hst _ _ _ H)|].
  destruct (Hst _ _ _ H) as [Hin|[Hin|Hp]]; auto using in_or_app.
Qed.
