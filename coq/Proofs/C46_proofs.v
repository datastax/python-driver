From Coq Require Import ZArith Bool Lia.
From Verif Require Import Options.
Local Open Scope Z_scope.

(* the options in effect, whatever the kind of message *)
Definition eff_cl m st pr se := match s_cl st with Some v => v | None => match m with Legacy => d_cl se | Profiles => p_cl pr end end.
Definition eff_serial m st pr se := match s_serial st with Some v => Some v | None => match m with Legacy => d_serial se | Profiles => p_serial pr end end.
Definition eff_retry m st pr se := match s_retry st with Some v => v | None => match m with Legacy => d_retry se | Profiles => p_retry pr end end.
Definition eff_timeout m t pr se := match t with TSet v => v | TNotSet => match m with Legacy => d_timeout se | Profiles => p_timeout pr end end.

Lemma effective_some m k st pr se t pg pv : (k = Batch -> 2 <= pv) -> exists f, effective m k st pr se t pg pv = Some f.
Proof.
  intros H. destruct k; cbn; eauto. destruct (pv <? 2) eqn:E; eauto. specialize (H eq_refl). lia.
Qed.

Lemma effective_fields m k st pr se t pg pv f : effective m k st pr se t pg pv = Some f ->
  f = {| m_cl := eff_cl m st pr se; m_serial := eff_serial m st pr se;
         m_fetch := match k with
                    | Batch => None
                    | _ => match s_fetch st with
                           | FUnset => if 2 <=? pv then d_fetch se else None
                           | FSet v => if pv =? 1 then None else v
                           end
                    end;
         m_ts := if (3 <=? pv) && d_use_ts se then Some (d_ts se) else None;
         m_keyspace := match k with Bound => None | _ => if uses_keyspace_flag pv then s_keyspace st else None end;
         m_paging := match k with Batch => None | _ => pg end;
         f_timeout := eff_timeout m t pr se; f_retry := eff_retry m st pr se;
         f_rowf := match m with Legacy => d_rowf se | Profiles => p_rowf pr end;
         f_lbp := match m with Legacy => d_lbp se | Profiles => p_lbp pr end;
         f_spec := match m with
                   | Legacy => None
                   | Profiles => if s_idem st then Some (p_spec pr, or_else (s_keyspace st) (d_keyspace se)) else None
                   end |}.
Proof. destruct k, m; cbn; try (destruct (pv <? 2); [discriminate|]); intros H; injection H as <-; reflexivity. Qed.

Lemma committed_stays : forall ops m, m <> Uncommitted -> cfg_final m ops = m.
Proof.
  induction ops as [|o ops IH]; intros m H; [reflexivity|].
  destruct m, o; try contradiction; apply IH; discriminate.
Qed.

Lemma truthy_some : forall o, truthy o = true -> o <> None.
Proof. intros [v|] E; [discriminate | discriminate E]. Qed.

Lemma is_some_some : forall o, is_some o = true -> o <> None.
Proof. intros [v|] E; [discriminate | discriminate E]. Qed.
