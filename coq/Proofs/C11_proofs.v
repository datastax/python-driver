From Coq Require Import List Arith Lia.
From Verif Require Import Push ListFacts.
Import ListNotations.

Lemma split_every_ok : forall fuel n m, (0 < n)%nat -> (length m <= fuel)%nat ->
  exists cs, split_every fuel n m = Some cs /\ concat cs = m /\ Forall (fun c => (length c <= n)%nat) cs.
Proof.
  induction fuel as [|f IH]; intros n m Hn Hlen.
  - destruct m as [|x m']; [|cbn in Hlen; lia]. exists []. repeat split; constructor.
  - destruct m as [|x m'].
    + exists []. repeat split; constructor.
    + assert (Hs : (length (skipn n (x :: m')) <= f)%nat).
      { rewrite skipn_length. lia. }
      destruct (IH n (skipn n (x :: m')) Hn Hs) as [cs [H1 [H2 H3]]].
      exists (firstn n (x :: m') :: cs). cbn [split_every]. rewrite H1. repeat split.
      * cbn [concat]. rewrite H2. apply firstn_skipn.
      * constructor; [apply firstn_le_length|exact H3].
Qed.

Lemma chunks_ok : forall n m, (0 < n)%nat ->
  exists cs, chunks n m = Some cs /\ concat cs = m /\ Forall (fun c => (length c <= n)%nat) cs /\ cs <> [].
Proof.
  intros n m Hn. unfold chunks.
  destruct (length m <=? n)%nat eqn:E.
  - exists [m]. apply Nat.leb_le in E. repeat split; cbn; try rewrite app_nil_r; auto; discriminate.
  - apply Nat.leb_gt in E. destruct (n =? 0)%nat eqn:E0; [apply Nat.eqb_eq in E0; lia|].
    destruct (split_every_ok (length m) n m Hn (le_n _)) as [cs [H1 [H2 H3]]].
    exists cs. repeat split; auto.
    intro Hc. subst cs. subst m. cbn in E. lia.
Qed.

Lemma chunks_mode_ok : forall md m, mode_ok md -> exists cs, chunks_mode md m = Some cs /\ concat cs = m.
Proof.
  intros [n|] m H; cbn.
  - destruct (chunks_ok n m H) as [cs [H1 [H2 _]]]. eauto.
  - exists [m]. cbn. rewrite app_nil_r. auto.
Qed.

Definition entry_task (e : entry) : task := match e with EHandoff tk => tk | EStep tk => tk end.

(* a ready entry carries chunks that make up its message; only threads that do not schedule the step themselves hand off *)
Definition entry_ok (c : pcfg) (e : entry) : Prop :=
  concat (t_chunks (entry_task e)) = t_msg (entry_task e) /\
  match e with EHandoff tk => p_direct c (t_thread tk) = false | EStep _ => True end.

Record Inv (c : pcfg) (prog : nat -> list msg) (s : pstate) : Prop := mkInv {
  inv_ready : Forall (entry_ok c) (ready s);
  inv_bytes : wire s ++ cur s ++ concat (queue s) = concat (map snd (order s));
  inv_threads : forall t, thread_part t (order s) ++ steps_of t (ready s) ++ handoffs_of t (ready s) ++ todo s t = prog t
}.

Lemma inv_init : forall c prog, Inv c prog (init prog).
Proof. intros c prog. constructor; cbn; auto. Qed.

Lemma thread_part_app : forall t a b, thread_part t (a ++ b) = thread_part t a ++ thread_part t b.
Proof. intros. unfold thread_part. rewrite filter_app, map_app. reflexivity. Qed.

Lemma steps_of_app : forall t a b, steps_of t (a ++ b) = steps_of t a ++ steps_of t b.
Proof.
  induction a as [|[tk|tk] a IH]; intro b; cbn; auto.
  destruct (Nat.eqb (t_thread tk) t); rewrite IH; reflexivity.
Qed.

Lemma handoffs_of_app : forall t a b, handoffs_of t (a ++ b) = handoffs_of t a ++ handoffs_of t b.
Proof.
  induction a as [|[tk|tk] a IH]; intro b; cbn; auto.
  destruct (Nat.eqb (t_thread tk) t); rewrite IH; reflexivity.
Qed.

Lemma handoffs_direct_nil : forall c t l, p_direct c t = true -> Forall (entry_ok c) l -> handoffs_of t l = [].
Proof.
  induction l as [|[tk|tk] l IH]; intros Hd HF; cbn; inversion HF as [|? ? [_ Hv]]; auto.
  destruct (Nat.eqb (t_thread tk) t) eqn:E; auto.
  apply Nat.eqb_eq in E. subst t. congruence.
Qed.

(* `++` reassociated to the right *)
Ltac lists := rewrite <- ?app_assoc; reflexivity.

Lemma inv_push : forall c prog s t, mode_ok (p_mode c) -> Inv c prog s -> Inv c prog (step c s (Push t)).
Proof.
  intros c prog s t Hmd [Ir Ib It]. cbn [step].
  destruct (todo s t) as [|m rest] eqn:Et; [constructor; auto|].
  destruct (chunks_mode_ok (p_mode c) m Hmd) as [cs [Hc Hcat]]. rewrite Hc.
  constructor; cbn [todo ready queue cur wire order]; auto.
  - apply Forall_app. split; [exact Ir|]. constructor; [|constructor]. destruct (p_direct c t) eqn:Ed; split; auto.
  - intro u. rewrite steps_of_app, handoffs_of_app. destruct (Nat.eqb u t) eqn:E.
    + apply Nat.eqb_eq in E. subst u. specialize (It t). rewrite Et in It. rewrite <- It.
      destruct (p_direct c t) eqn:Ed; cbn; rewrite Nat.eqb_refl.
      * rewrite (handoffs_direct_nil c t (ready s) Ed Ir). lists.
      * lists.
    + specialize (It u). rewrite <- It.
      assert (Hne : Nat.eqb t u = false) by (rewrite Nat.eqb_sym; exact E).
      destruct (p_direct c t); cbn; rewrite Hne; lists.
Qed.

Lemma inv_run_ready : forall c prog s, Inv c prog s -> Inv c prog (step c s RunReady).
Proof.
  intros c prog s [Ir Ib It]. cbn [step].
  destruct (ready s) as [|[tk|tk] rest] eqn:Er; [constructor; rewrite ?Er; auto| |];
    inversion Ir as [|? ? [Hcat Hv] Hrest]; constructor; cbn [todo ready queue cur wire order]; auto.
  - (* handoff -> task step at the end of the queue *)
    apply Forall_app. split; [exact Hrest|]. constructor; [split; [exact Hcat|trivial]|constructor].
  - intro u. specialize (It u). cbn in It. rewrite steps_of_app, handoffs_of_app. cbn.
    destruct (Nat.eqb (t_thread tk) u); rewrite <- It; lists.
  - (* task step: all chunks of the message enter the write queue *)
    rewrite map_app, !concat_app. cbn. rewrite app_nil_r. cbn in Hcat. rewrite Hcat. rewrite <- Ib, <- !app_assoc. reflexivity.
  - intro u. specialize (It u). cbn in It. rewrite thread_part_app. cbn.
    destruct (Nat.eqb (t_thread tk) u); rewrite <- It; lists.
Qed.

Lemma inv_send_part : forall c prog s k, p_keep_rest c = true -> Inv c prog s -> Inv c prog (step c s (SendPart k)).
Proof.
  intros c prog s k Hk [Ir Ib It]. cbn [step].
  rewrite Hk. destruct (cur s) as [|x cu] eqn:Ec.
  - destruct (queue s) as [|ch rest] eqn:Eq; [constructor; rewrite ?Ec, ?Eq; auto|].
    constructor; cbn [todo ready queue cur wire order]; auto.
    rewrite <- Ib. rewrite <- !app_assoc. rewrite (app_assoc (firstn k ch)), firstn_skipn. reflexivity.
  - constructor; cbn [todo ready queue cur wire order]; auto.
    rewrite <- Ib. rewrite <- !app_assoc. rewrite (app_assoc (firstn k (x :: cu))), firstn_skipn. reflexivity.
Qed.

Lemma inv_step : forall c prog s o, mode_ok (p_mode c) -> p_keep_rest c = true -> Inv c prog s -> Inv c prog (step c s o).
Proof. intros c prog s [t| |k] Hmd Hk I; [apply inv_push|apply inv_run_ready|apply inv_send_part]; assumption. Qed.

Lemma inv_run : forall c prog ops, mode_ok (p_mode c) -> p_keep_rest c = true -> Inv c prog (run c prog ops).
Proof.
  intros c prog ops Hmd Hk. apply (fold_left_inv (step c) (Inv c prog)); [|apply inv_init]. intros s o. apply inv_step; assumption.
Qed.

Lemma inv_drained : forall c prog s, Inv c prog s -> drained s ->
  wire s = concat (map snd (order s)) /\ forall t, thread_part t (order s) ++ todo s t = prog t.
Proof.
  intros c prog s [_ Ib It] (Hr&Hq&Hc). rewrite Hq, Hc in Ib. rewrite app_nil_r in Ib. split; [exact Ib|].
  intro t. specialize (It t). rewrite Hr in It. exact It.
Qed.

Lemma prefix_of_map : forall {A B} (f : A -> B) (l : list A) (a b : list B),
  a ++ b = map f l -> a = map f (firstn (length a) l).
Proof.
  intros A B f l a b H. rewrite <- firstn_map, <- H. symmetry. apply firstn_app_len.
Qed.
