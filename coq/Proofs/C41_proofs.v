(* C41: get_lower_supported scans a descending list, so it finds the greatest eligible version below; each downgrade
   lowers the number of supported versions below the current one, which bounds the connect loop. *)
From Coq Require Import ZArith List Bool Lia.
From Verif Require Import PyBase ProtoConsts ProtoVersion Negotiation ListFacts.
Import ListNotations.
Local Open Scope Z_scope.

Lemma py_in_In x l : py_in x l = true <-> In x l.
Proof. exact (memb_In Z.eqb Z.eqb_eq x l). Qed.

Lemma strictly_decreasing_cons a l :
  strictly_decreasing (a :: l) = true -> (forall y, In y l -> y < a) /\ strictly_decreasing l = true.
Proof.
  revert a. induction l as [|b l IH]; intros a Hs; [split; [intros y []|reflexivity]|].
  cbn [strictly_decreasing] in Hs. apply andb_prop in Hs as [Hba%Z.ltb_lt Hs]. split; [|exact Hs].
  intros y [<-|Hy]; [exact Hba|]. apply Z.lt_trans with b; [|exact Hba]. now apply (IH b Hs).
Qed.

Lemma find_desc_greatest (f : Z -> bool) l x :
  strictly_decreasing l = true -> find f l = Some x -> forall y, In y l -> f y = true -> y <= x.
Proof.
  induction l as [|a l IH]; intros Hs Hf y Hy Hfy; [discriminate|].
  apply strictly_decreasing_cons in Hs as [Ha Hs]. cbn [find] in Hf. destruct (f a) eqn:Fa.
  - injection Hf as <-. destruct Hy as [<-|Hy]; [apply Z.le_refl|apply Z.lt_le_incl, Ha, Hy].
  - destruct Hy as [<-|Hy]; [congruence|]. exact (IH Hs Hf y Hy Hfy).
Qed.

(* sorted(SUPPORTED_VERSIONS, reverse=True), a literal in the generated get_lower_supported; all that is used of it
   is that it is descending and has the elements of SUPPORTED_VERSIONS, in whatever order the source lists those *)
Definition versions_desc : list Z := [66; 65; 6; 5; 4; 3; 2; 1].

Lemma get_lower_supported_eq v :
  get_lower_supported v =
  match find (fun u => negb (py_in u BETA_VERSIONS) && (u <? v)) versions_desc with Some x => x | None => 0 end.
Proof. reflexivity. Qed.

Lemma versions_desc_decreasing : strictly_decreasing versions_desc = true.
Proof. reflexivity. Qed.

Lemma same_elements_in a b x :
  forallb (fun x => py_in x b) a && forallb (fun x => py_in x a) b = true -> (In x a <-> py_in x b = true).
Proof.
  intros [H1 H2]%andb_prop. rewrite forallb_forall in H1, H2. split; [apply H1|].
  intros Hx%py_in_In. apply py_in_In, H2, Hx.
Qed.

Lemma versions_desc_elements u : In u versions_desc <-> py_in u SUPPORTED_VERSIONS = true.
Proof. apply same_elements_in. reflexivity. Qed.

Lemma lower_spec v :
  (get_lower_supported v = 0 /\ forall u, non_beta_supported u = true -> u < v -> False) \/
  is_next_lower v (get_lower_supported v).
Proof.
  rewrite get_lower_supported_eq. unfold is_next_lower, non_beta_supported.
  destruct (find _ versions_desc) as [x|] eqn:F.
  - right. destruct (find_some _ _ F) as [Hin%versions_desc_elements [Hnb Hlt%Z.ltb_lt]%andb_prop].
    split; [now rewrite Hin, Hnb|split; [exact Hlt|]].
    intros u [Hsu%versions_desc_elements Hbu]%andb_prop Huv.
    apply (find_desc_greatest _ _ _ versions_desc_decreasing F _ Hsu).
    rewrite Hbu. apply Z.ltb_lt, Huv.
  - left. split; [reflexivity|]. intros u [Hsu%versions_desc_elements Hbu]%andb_prop Huv.
    apply (find_none _ _ F) in Hsu. rewrite Hbu in Hsu. apply Z.ltb_ge in Hsu. lia.
Qed.

Lemma supported_ge_min u : py_in u SUPPORTED_VERSIONS = true -> MIN_SUPPORTED <= u.
Proof. intros H%py_in_In. apply Z.leb_le. revert u H. apply forallb_forall. reflexivity. Qed.

Lemma downgrade_explicit pv cur : protocol_downgrade pv true cur = Raise.
Proof. reflexivity. Qed.

Lemma downgrade_spec pv cur r :
  protocol_downgrade pv false cur = r ->
  (exists pv', r = Ok (tt, pv') /\ pv' = get_lower_supported pv /\ is_next_lower pv pv') \/
  (r = Raise /\ forall u, non_beta_supported u = true -> u < pv -> False).
Proof.
  intros <-. change (protocol_downgrade pv false cur) with
    (if get_lower_supported pv <? MIN_SUPPORTED then Raise else Ok (tt, get_lower_supported pv)).
  destruct (lower_spec pv) as [[-> Hno]|Hn].
  - right. split; [reflexivity|assumption].
  - left. pose proof Hn as ([Hs _]%andb_prop & _).
    assert (E : (get_lower_supported pv <? MIN_SUPPORTED) = false) by apply Z.ltb_ge, supported_ge_min, Hs.
    exists (get_lower_supported pv). rewrite E. auto.
Qed.

Definition below (pv : Z) : nat := length (filter (fun u => u <? pv) SUPPORTED_VERSIONS).

Lemma filter_filter_sub {A} (f g : A -> bool) l : (forall x, f x = true -> g x = true) -> filter f (filter g l) = filter f l.
Proof.
  intros H. induction l as [|a l IH]; [reflexivity|]. cbn [filter].
  destruct (g a) eqn:Ga; cbn [filter]; destruct (f a) eqn:Fa; rewrite ?IH; try reflexivity. rewrite (H a Fa) in Ga. discriminate.
Qed.

Lemma below_decreases pv pv' : is_next_lower pv pv' -> (below pv' < below pv)%nat.
Proof.
  intros ([Hs%py_in_In _]%andb_prop & Hlt & _). unfold below.
  rewrite <- (filter_filter_sub _ (fun u => u <? pv)) by (intros x Hx; lia).
  apply filter_length_lt. exists pv'. rewrite filter_In. split; [split; [exact Hs|]|]; lia.
Qed.

Lemma try_connect_step fuel server explicit pv tr o :
  try_connect (S fuel) server explicit pv = (tr, o) ->
  (tr = [pv] /\ o = Connected pv /\ server pv = Accept) \/
  (tr = [pv] /\ o = Failed /\ server pv <> Accept) \/
  (explicit = false /\ exists pv' tr', is_next_lower pv pv' /\ tr = pv :: tr' /\
     try_connect fuel server false pv' = (tr', o)).
Proof.
  (* the replies in the order Accept, Unsupported, BetaError, OtherError: the first connects, the last fails, the two
     between step down when a downgrade is possible *)
  cbn [try_connect]. destruct explicit; cbn [negb].
  - rewrite downgrade_explicit. destruct (server pv); intros [= <- <-]; [left|right; left..]; easy.
  - destruct (downgrade_spec pv pv _ eq_refl) as [(pv' & -> & _ & Hn)|[-> _]].
    + destruct (try_connect fuel server false pv') as [tr' o'] eqn:R.
      destruct (server pv); intros [= <- <-];
        [left; easy | right; right; split; [reflexivity|]; exists pv', tr'; auto .. | right; left; easy].
    + destruct (server pv); intros [= <- <-]; [left|right; left..]; easy.
Qed.

Lemma try_connect_spec : forall fuel server explicit pv tr o d,
  (below pv < fuel)%nat ->
  try_connect fuel server explicit pv = (tr, o) ->
  o <> OutOfFuel /\
  hd_error tr = Some pv /\
  chain tr /\
  (forall v, In v tr -> v <= pv) /\
  (explicit = true -> tr = [pv]) /\
  (forall v, o = Connected v -> server v = Accept /\ last tr d = v) /\
  (o = Failed -> server (last tr d) <> Accept).
Proof.
  induction fuel as [|fuel IH]; intros server explicit pv tr o d Hf H; [inversion Hf|].
  apply try_connect_step in H as [(-> & -> & Hs)|[(-> & -> & Hs)|(-> & pv' & tr' & Hn & -> & R)]].
  1,2: split; [discriminate|]; split; [reflexivity|]; split; [exact I|];
       split; [intros v [<-|[]]; apply Z.le_refl|]; split; [reflexivity|].
  - split; [intros v [= <-]; now split|discriminate].
  - split; [discriminate|intros _; exact Hs].
  - pose proof (below_decreases _ _ Hn) as Hb.
    destruct (IH server false pv' tr' o d ltac:(lia) R) as (Ifuel & Ihd & Ichain & Ile & _ & Iconn & Ifail).
    destruct tr' as [|t tr']; [discriminate|]. injection Ihd as ->.
    split; [exact Ifuel|]. split; [reflexivity|]. split; [exact (conj Hn Ichain)|].
    (* last (pv :: pv' :: tr') d computes to last (pv' :: tr') d, and the default d is the induction hypothesis' own *)
    split; [|split; [discriminate|exact (conj Iconn Ifail)]].
    destruct Hn as (_ & Hlt & _). intros v [<-|Hv%Ile]; lia.
Qed.
