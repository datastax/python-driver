(* C01: deserialize gives back, in normal form, what serialize wrote.  Over type trees: a fixed-size type is written in
   exactly its size, nothing is written as b'' unless the type allows an empty value, deserialize inverts serialize; the
   last meets the one before only where a container reads an element through from_binary (roundtrips_elem). *)
From Coq Require Import ZArith List Bool Lia ZifyBool.
From Verif Require Import MarshalModel Utf8Model CqlType CqlCodec CassandraSpecInt CassandraSpec
  ListFacts Marshal_proofs.
From Verif Require VIntCoding Marshal_varint Marshal_vint Marshal_vints MarshalBridge.
Import ListNotations.
Local Open Scope Z_scope.

Lemma varint_unpack_pack : forall z, varint_unpack (varint_pack z) = Some z.
Proof.
  intros z. rewrite MarshalBridge.model_varint_unpack_java, MarshalBridge.model_varint_pack_spec.
  apply Marshal_varint.java_roundtrip.
Qed.

Lemma varint_pack_nonempty : forall z, varint_pack z <> [].
Proof.
  intros z H. pose proof (varint_unpack_pack z) as R. rewrite H in R. discriminate.
Qed.

Lemma uvint_pack_inv : forall val bs, uvint_pack val = Some bs -> 0 <= val < 2 ^ 64 /\ bs = VIntCoding.uvint_bytes val.
Proof.
  intros val bs H. rewrite MarshalBridge.model_uvint_pack_spec in H. unfold VIntCoding.uvint_encode in H.
  destruct ((0 <=? val) && (val <? 2 ^ 64)) eqn:E; inversion H. split; [lia|reflexivity].
Qed.

Lemma uvint_pack_nonempty : forall val bs, uvint_pack val = Some bs -> (1 <= length bs)%nat.
Proof. intros val bs H. destruct (uvint_pack_inv val bs H) as [_ ->]. rewrite Marshal_vint.uvint_bytes_length. lia. Qed.

Lemma uvint_pack_bytes : forall val bs, uvint_pack val = Some bs -> Forall is_byte bs.
Proof. intros val bs H. destruct (uvint_pack_inv val bs H) as [Hv ->]. exact (Marshal_vint.uvint_bytes_bytes val Hv). Qed.

Lemma uvint_read_pack : forall val bs rest, uvint_pack val = Some bs ->
  uvint_read (bs ++ rest) = Some (val, len bs, rest).
Proof.
  intros val bs rest H. destruct (uvint_pack_inv val bs H) as [Hv ->].
  rewrite MarshalBridge.model_uvint_read_spec by exact Hv. unfold len. rewrite Marshal_vint.uvint_bytes_length.
  destruct (Marshal_vint.vint_extra_spec val) as (Hn & _). do 3 f_equal. lia.
Qed.

Lemma encode_zig_zag_spec : forall n, int64 n -> encode_zig_zag n = spec_zigzag n.
Proof.
  intros n H. rewrite <- MarshalBridge.bridge_encode_zig_zag, Marshal_vint.encode_zig_zag_arith by exact H.
  unfold VIntCoding.zigzag_encode_arith, spec_zigzag. destruct (n <? 0) eqn:E; destruct (0 <=? n) eqn:E'; lia.
Qed.

Lemma decode_encode_zig_zag : forall n, int64 n -> decode_zig_zag (encode_zig_zag n) = n.
Proof.
  intros n H. rewrite <- MarshalBridge.bridge_decode_zig_zag, <- MarshalBridge.bridge_encode_zig_zag.
  apply (Marshal_vint.zigzag_roundtrip_spec n H).
Qed.

Lemma vints_pack_inv : forall vs bs, vints_pack vs = Some bs ->
  Forall int64 vs /\ bs = concat (map VIntCoding.vint_bytes vs).
Proof.
  intros vs bs H. rewrite MarshalBridge.model_vints_pack_spec, Marshal_vints.vints_encode_concat in H.
  destruct (forallb VIntCoding.in_int64b vs) eqn:E; inversion H.
  split; [apply Marshal_vints.forallb_in_int64; exact E|reflexivity].
Qed.

(* the encoder itself refuses components outside int64, so what it writes always reads back *)
Lemma vints_unpack_pack : forall vs bs, vints_pack vs = Some bs -> vints_unpack bs = Some vs.
Proof.
  intros vs bs H. destruct (vints_pack_inv vs bs H) as [Hv ->].
  apply MarshalBridge.model_vints_unpack_loop_spec; [exact Hv|lia].
Qed.

Lemma vints_pack_nonempty : forall v vs bs, vints_pack (v :: vs) = Some bs -> bs <> [].
Proof. intros v vs bs H. destruct (vints_pack_inv _ bs H) as [_ ->]. discriminate. Qed.

(* decides every test of utf8_decode on bytes whose ranges are in the context, leaving the branch taken *)
Ltac split_ifs :=
  repeat match goal with
         | |- context [if ?b then _ else _] => let E := fresh "E" in destruct b eqn:E; try lia
         end.

Lemma utf8_decode_1byte : forall c rest, 0 <= c < 128 ->
  utf8_decode (c :: rest) = match utf8_decode rest with Some cs => Some (c :: cs) | None => None end.
Proof. intros. cbn [utf8_decode]. split_ifs. reflexivity. Qed.

(* the side conditions are one conjunction so that the caller's lia, which has to read `/` and `mod`, runs once *)
Lemma utf8_decode_2byte : forall b0 b1 c rest,
  192 <= b0 < 224 /\ 128 <= b1 < 192 /\ (b0 - 192) * 64 + (b1 - 128) = c /\ 128 <= c ->
  utf8_decode (b0 :: b1 :: rest) = match utf8_decode rest with Some cs => Some (c :: cs) | None => None end.
Proof.
  intros b0 b1 c rest (B0 & B1 & E & Hc).
  (* the tail is hidden while the lead byte is tested: on a tail that shows its bytes cbn unfolds utf8_decode again in
     every branch not taken, and each test is then decided in a goal many times the size *)
  remember (b1 :: rest) as r0 eqn:R. cbn [utf8_decode]. split_ifs.
  subst r0. unfold is_cont. rewrite E. split_ifs. reflexivity.
Qed.

Lemma utf8_decode_3byte : forall b0 b1 b2 c rest, is_surrogate c = false ->
  224 <= b0 < 240 /\ 128 <= b1 < 192 /\ 128 <= b2 < 192 /\ (b0 - 224) * 4096 + (b1 - 128) * 64 + (b2 - 128) = c /\ 2048 <= c ->
  utf8_decode (b0 :: b1 :: b2 :: rest) = match utf8_decode rest with Some cs => Some (c :: cs) | None => None end.
Proof.
  intros b0 b1 b2 c rest S (B0 & B1 & B2 & E & Hc). remember (b1 :: b2 :: rest) as r0 eqn:R. cbn [utf8_decode]. split_ifs.
  subst r0. unfold is_cont. rewrite E, S. split_ifs. reflexivity.
Qed.

Lemma utf8_decode_4byte : forall b0 b1 b2 b3 c rest,
  240 <= b0 < 248 /\ 128 <= b1 < 192 /\ 128 <= b2 < 192 /\ 128 <= b3 < 192 /\
  (b0 - 240) * 262144 + (b1 - 128) * 4096 + (b2 - 128) * 64 + (b3 - 128) = c /\ 65536 <= c < 1114112 ->
  utf8_decode (b0 :: b1 :: b2 :: b3 :: rest) = match utf8_decode rest with Some cs => Some (c :: cs) | None => None end.
Proof.
  intros b0 b1 b2 b3 c rest (B0 & B1 & B2 & B3 & E & Hc). remember (b1 :: b2 :: b3 :: rest) as r0 eqn:R. cbn [utf8_decode]. split_ifs.
  subst r0. unfold is_cont. rewrite E. split_ifs. reflexivity.
Qed.

(* the bytes utf8_enc1 writes are the base-64 digits of c behind their prefixes: for this one lemma lia reads `/` and
   `mod`; the hook is switched off again directly after its Qed, and nothing is to come between *)
Ltac Zify.zify_post_hook ::= Z.to_euclidean_division_equations.
Lemma utf8_decode_enc1_app : forall c bs rest, utf8_enc1 c = Some bs ->
  utf8_decode (bs ++ rest) = match utf8_decode rest with Some cs => Some (c :: cs) | None => None end.
Proof.
  intros c bs rest H. unfold utf8_enc1 in H.
  destruct (c <? 0) eqn:C0; [discriminate|].
  destruct (c <? 128) eqn:C1.
  { assert (Hb : bs = [c]) by congruence. subst bs. apply utf8_decode_1byte. lia. }
  destruct (c <? 2048) eqn:C2.
  { assert (Hb : bs = [192 + c / 64; 128 + c mod 64]) by congruence. subst bs. apply utf8_decode_2byte; lia. }
  destruct (c <? 65536) eqn:C3.
  { destruct (is_surrogate c) eqn:S; [discriminate|].
    assert (Hb : bs = [224 + c / 4096; 128 + (c / 64) mod 64; 128 + c mod 64]) by congruence. subst bs.
    apply utf8_decode_3byte; [exact S|lia]. }
  destruct (c <? 1114112) eqn:C4; [|discriminate].
  assert (Hb : bs = [240 + c / 262144; 128 + (c / 4096) mod 64; 128 + (c / 64) mod 64; 128 + c mod 64]) by congruence.
  subst bs. apply utf8_decode_4byte; lia.
Qed.
Ltac Zify.zify_post_hook ::= idtac.

Lemma utf8_decode_encode : forall cps bs, utf8_encode cps = Some bs -> utf8_decode bs = Some cps.
Proof.
  induction cps as [|c r IH]; intros bs H; cbn [utf8_encode] in H.
  - inversion H. reflexivity.
  - destruct (utf8_enc1 c) as [a|] eqn:Ea; [|discriminate].
    destruct (utf8_encode r) as [b|] eqn:Eb; [|discriminate].
    inversion H; subst bs. rewrite (utf8_decode_enc1_app _ _ b Ea), (IH b eq_refl). reflexivity.
Qed.

Section TypeInd.
  Variable P : cqltype -> Prop.
  Hypothesis Hs : forall s, P (TScalar s).
  Hypothesis Hl : forall t, P t -> P (TList t).
  Hypothesis Hset : forall t, P t -> P (TSet t).
  Hypothesis Hm : forall k v, P k -> P v -> P (TMap k v).
  Hypothesis Ht : forall ts, Forall P ts -> P (TTuple ts).
  Hypothesis Hu : forall ts, Forall P ts -> P (TUdt ts).
  Hypothesis Hv : forall t n, P t -> P (TVector t n).
  Hypothesis Hf : forall t, P t -> P (TFrozen t).
  Hypothesis Hr : forall t, P t -> P (TReversed t).
  Fixpoint cqltype_ind' (t : cqltype) : P t :=
    let all := fix go (ts : list cqltype) : Forall P ts :=
                 match ts with [] => Forall_nil P | t1 :: r => Forall_cons t1 (cqltype_ind' t1) (go r) end in
    match t with
    | TScalar s => Hs s
    | TList t' => Hl t' (cqltype_ind' t')
    | TSet t' => Hset t' (cqltype_ind' t')
    | TMap k v => Hm k v (cqltype_ind' k) (cqltype_ind' v)
    | TTuple ts => Ht ts (all ts)
    | TUdt ts => Hu ts (all ts)
    | TVector t' n => Hv t' n (cqltype_ind' t')
    | TFrozen t' => Hf t' (cqltype_ind' t')
    | TReversed t' => Hr t' (cqltype_ind' t')
    end.
End TypeInd.

Lemma obind_some : forall (A B : Type) (o : option A) (f : A -> option B) b,
  obind o f = Some b -> exists a, o = Some a /\ f a = Some b.
Proof. intros A B o f b H. destruct o; cbn in H; [eauto | discriminate]. Qed.

(* H : (x <- o ;; k x) = Some b  becomes  E : o = Some a  and  H : k a = Some b *)
Ltac inv_bind H a E := apply obind_some in H; destruct H as [a [E H]].

Lemma len_nonneg : forall (A : Type) (l : list A), 0 <= len l.
Proof. intros. unfold len. lia. Qed.

Lemma rd_fixed_app : forall k a rest, length a = k -> rd_fixed k (Some (a ++ rest)) = Some (a, Some rest).
Proof.
  intros. unfold rd_fixed. subst k. rewrite app_length.
  destruct (length a <=? length a + length rest)%nat eqn:E; [|lia].
  rewrite firstn_app_len, skipn_app_len. reflexivity.
Qed.

Lemma rd_slice_app : forall a rest, rd_slice (len a) (Some (a ++ rest)) = (a, Some rest).
Proof.
  intros. unfold rd_slice, len. rewrite app_length.
  destruct (Z.of_nat (length a) <=? Z.of_nat (length a + length rest)) eqn:E; [|lia].
  rewrite Nat2Z.id, firstn_app_len, skipn_app_len. reflexivity.
Qed.

Lemma lenw_pos : forall pv, (0 < lenw pv)%nat.
Proof. intros. unfold lenw. destruct (3 <=? pv); lia. Qed.

Lemma pack_len_length : forall pv z b, pack_len pv z = Some b -> length b = lenw pv.
Proof. intros. eapply pack_int_length; eauto. Qed.

Lemma unpack_pack_len : forall pv z b, pack_len pv z = Some b -> unpack_len pv b = Some z.
Proof. intros. apply unpack_pack_int; [apply lenw_pos | assumption]. Qed.

Lemma norm_scalar : forall s v, norm (TScalar s) v = v.
Proof. intros. destruct v; reflexivity. Qed.

Lemma int_scalar_rt : forall n s z bs, (0 < n)%nat -> pack_int n s z = Some bs ->
  (x <- unpack_int n s bs ;; Some (VInt x)) = Some (VInt z).
Proof. intros n s z bs Hn H. rewrite (unpack_pack_int n s z bs Hn H). reflexivity. Qed.

Lemma scalar_rt : forall s v bs, py_repr (TScalar s) v = true -> ser_scalar s v = Some bs -> des_scalar s bs = Some v.
Proof.
  intros s v bs Hp H.
  destruct s, v; cbn [ser_scalar] in H; try discriminate; cbn [des_scalar].
  - (* SAscii *) destruct (all_ascii cps) eqn:A; [|discriminate]. inversion H; subst. rewrite A. reflexivity.
  - (* SBigint *) apply int_scalar_rt; [lia|exact H].
  - (* SBlob *) inversion H. reflexivity.
  - (* SBoolean *) inversion H. destruct b; reflexivity.
  - (* SDate *) rewrite (unpack_pack_int 4 false _ bs ltac:(lia) H). cbn [obind]. do 2 f_equal. lia.
  - (* SDecimal *) inv_bind H a E. inversion H; subst bs; clear H.
    pose proof (pack_int_length _ _ _ _ E) as L.
    rewrite (firstn_exact 4 a _ L), (skipn_exact 4 a _ L), (unpack_pack_int 4 true scale a ltac:(lia) E). rewrite varint_unpack_pack. reflexivity.
  - (* SDouble *) apply int_scalar_rt; [lia|exact H].
  - (* SFloat *) apply int_scalar_rt; [lia|exact H].
  - (* SInet *) destruct ((length bs0 =? 4)%nat || (length bs0 =? 16)%nat) eqn:L; [|discriminate]. inversion H; subst. rewrite L. reflexivity.
  - (* SInt *) apply int_scalar_rt; [lia|exact H].
  - (* SSmallint *) apply int_scalar_rt; [lia|exact H].
  - (* STinyint *) apply int_scalar_rt; [lia|exact H].
  - (* SText *) rewrite (utf8_decode_encode _ _ H). reflexivity.
  - (* STime *) destruct ((0 <=? z) && (z <? DAY_NANOS)) eqn:D; [|discriminate].
    rewrite (unpack_pack_int 8 true z bs ltac:(lia) H). cbn [obind]. rewrite D. reflexivity.
  - (* STimestamp *) rewrite (unpack_pack_int 8 true z bs ltac:(lia) H). cbn [obind]. cbn [py_repr] in Hp. rewrite Hp. reflexivity.
  - (* SUuid *) destruct (length bs0 =? 16)%nat eqn:L; [|discriminate]. inversion H; subst. rewrite L. reflexivity.
  - (* SVarint *) inversion H; subst. rewrite varint_unpack_pack. reflexivity.
  - (* SDuration *) rewrite (vints_unpack_pack _ _ H). reflexivity.
Qed.

(* [fb] is the decoder as a list, set, map, tuple or UDT calls it on an element: from_binary, which deserialize is wrapped in *)
Definition decodes_back (ser : value -> option (list Z)) (fb : list Z -> option value) (nrm : value -> value) (v : value) : Prop :=
  v <> VNull -> forall b, ser v = Some b -> fb b = Some (nrm v).

Lemma value_eq_null : forall v : value, v = VNull \/ v <> VNull.
Proof. destruct v; (left; reflexivity) || (right; discriminate). Qed.

Lemma is_null_false : forall v, is_null v = false <-> v <> VNull.
Proof. destruct v; cbn [is_null]; split; congruence. Qed.

Lemma enc_elem_nonnull : forall pv ser v, v <> VNull ->
  enc_elem pv ser v = (b <- ser v ;; l <- pack_len pv (len b) ;; Some (l ++ b)).
Proof. intros. destruct v; try reflexivity. congruence. Qed.

Lemma wrap_to_nonnull : forall ser v, v <> VNull -> wrap_to ser v = ser v.
Proof. intros. destruct v; try reflexivity. congruence. Qed.

Lemma enc_elem_length_ge : forall pv ser v a, enc_elem pv ser v = Some a -> (lenw pv <= length a)%nat.
Proof.
  intros pv ser v a H. destruct (value_eq_null v) as [-> | Hn].
  - rewrite (pack_len_length _ _ _ H). lia.
  - rewrite enc_elem_nonnull in H by assumption. inv_bind H b E. inv_bind H l E0. inversion H.
    rewrite app_length, (pack_len_length _ _ _ E0). lia.
Qed.

Lemma elem_rt : forall pv ser fb nrm v a rest, nrm VNull = VNull -> decodes_back ser fb nrm v ->
  enc_elem pv ser v = Some a -> dec_elem pv fb (Some (a ++ rest)) = Some (nrm v, Some rest).
Proof.
  intros pv ser fb nrm v a rest N R H.
  destruct (value_eq_null v) as [Hn | Hn].
  - subst v. cbn [enc_elem] in H. unfold dec_elem.
    rewrite (rd_fixed_app _ _ _ (pack_len_length _ _ _ H)), (unpack_pack_len _ _ _ H). cbn [obind].
    rewrite N. reflexivity.
  - rewrite enc_elem_nonnull in H by assumption.
    inv_bind H b E. inv_bind H l E0. inversion H; subst a; clear H.
    unfold dec_elem. rewrite <- app_assoc.
    rewrite (rd_fixed_app _ _ _ (pack_len_length _ _ _ E0)), (unpack_pack_len _ _ _ E0). cbn [obind].
    pose proof (len_nonneg _ b).
    destruct (len b <? 0) eqn:C; [lia|].
    rewrite rd_slice_app, (R Hn b E). reflexivity.
Qed.

Lemma len_cons : forall (A : Type) (x : A) l, len (x :: l) = len l + 1.
Proof. intros. unfold len. cbn [length]. lia. Qed.

(* the decoders' fuel, S (length bs), is ample: every element read takes at least its length field off the buffer *)
Lemma items_rt : forall pv ser fb nrm, nrm VNull = VNull -> forall vs bs fuel,
  Forall (decodes_back ser fb nrm) vs -> enc_items pv ser vs = Some bs -> (length bs < fuel)%nat ->
  dec_items fuel pv fb (len vs) (Some bs) = Some (map nrm vs).
Proof.
  intros pv ser fb nrm N. induction vs as [|v r IH]; intros bs fuel F H Hf.
  - destruct fuel; reflexivity.
  - cbn [enc_items] in H. inv_bind H a E. inv_bind H a0 E0. inversion H; subst bs; clear H.
    inversion F as [|? ? Rv Rr]; subst.
    pose proof (enc_elem_length_ge _ _ _ _ E). pose proof (lenw_pos pv). rewrite app_length in Hf.
    destruct fuel; [lia|].
    cbn [dec_items]. rewrite len_cons.
    pose proof (len_nonneg _ r).
    destruct (len r + 1 <=? 0) eqn:C; [lia|].
    rewrite (elem_rt pv ser fb nrm v a a0 N Rv E).
    replace (len r + 1 - 1) with (len r) by lia.
    rewrite (IH a0 fuel Rr E0) by lia. reflexivity.
Qed.

Lemma coll_rt : forall pv ser fb nrm vs bs, nrm VNull = VNull ->
  Forall (decodes_back ser fb nrm) vs -> enc_coll pv ser vs = Some bs ->
  dec_coll pv fb bs = Some (VSeq (map nrm vs)).
Proof.
  intros pv ser fb nrm vs bs N F H. unfold enc_coll in H. inv_bind H a E. inv_bind H a0 E0. inversion H; subst bs; clear H.
  unfold dec_coll. rewrite (rd_fixed_app _ _ _ (pack_len_length _ _ _ E)), (unpack_pack_len _ _ _ E). cbn [obind].
  rewrite (items_rt pv ser fb nrm N vs a0 _ F E0) by (rewrite app_length; lia).
  reflexivity.
Qed.

Lemma pairs_rt : forall pv serk fk nrmk serv fv nrmv, nrmk VNull = VNull -> nrmv VNull = VNull ->
  forall kvs bs fuel,
  Forall (fun kv => decodes_back serk fk nrmk (fst kv) /\ decodes_back serv fv nrmv (snd kv)) kvs ->
  enc_pairs pv serk serv kvs = Some bs -> (length bs < fuel)%nat ->
  dec_pairs fuel pv fk fv (len kvs) (Some bs) = Some (map (fun kv => (nrmk (fst kv), nrmv (snd kv))) kvs).
Proof.
  intros pv serk fk nrmk serv fv nrmv Nk Nv. induction kvs as [|[k x] r IH]; intros bs fuel F H Hf.
  - destruct fuel; reflexivity.
  - cbn [enc_pairs] in H. inv_bind H a E. inv_bind H a0 E0. inv_bind H a1 E1. inversion H; subst bs; clear H.
    inversion F as [|? ? Rkv Rr]; subst. destruct Rkv as [Rk Rv]. cbn [fst snd] in *.
    pose proof (enc_elem_length_ge _ _ _ _ E). pose proof (lenw_pos pv). rewrite app_length in Hf.
    destruct fuel; [lia|].
    cbn [dec_pairs]. rewrite len_cons.
    pose proof (len_nonneg _ r).
    destruct (len r + 1 <=? 0) eqn:C; [lia|].
    rewrite (elem_rt pv serk fk nrmk k a (a0 ++ a1) Nk Rk E), (elem_rt pv serv fv nrmv x a0 a1 Nv Rv E0).
    replace (len r + 1 - 1) with (len r) by lia.
    rewrite (IH a1 fuel Rr E1) by (rewrite app_length in Hf; lia). reflexivity.
Qed.

Lemma map_rt : forall pv serk fk nrmk serv fv nrmv kvs bs, nrmk VNull = VNull -> nrmv VNull = VNull ->
  Forall (fun kv => decodes_back serk fk nrmk (fst kv) /\ decodes_back serv fv nrmv (snd kv)) kvs ->
  enc_map pv serk serv kvs = Some bs ->
  dec_map pv fk fv bs = Some (VMap (map (fun kv => (nrmk (fst kv), nrmv (snd kv))) kvs)).
Proof.
  intros pv serk fk nrmk serv fv nrmv kvs bs Nk Nv F H.
  unfold enc_map in H. inv_bind H a E. inv_bind H a0 E0. inversion H; subst bs; clear H.
  unfold dec_map. rewrite (rd_fixed_app _ _ _ (pack_len_length _ _ _ E)), (unpack_pack_len _ _ _ E). cbn [obind].
  rewrite (pairs_rt pv serk fk nrmk serv fv nrmv Nk Nv kvs a0 _ F E0) by (rewrite app_length; lia).
  reflexivity.
Qed.

(* Where a tuple or UDT value meets the field types, the specification (norm, py_repr, kind, in_range, spec_enc) has an
   inline [fix go ts vs]: norm's pads with nulls when the values run out, the others stop at the shorter list, as Python's
   zip does.  Each of them is one of the three below at its step, by conversion: written with the same clauses, so that no
   agreement has to be proved. *)
Definition norm_fields (nrm : cqltype -> value -> value) : list cqltype -> list value -> list value :=
  fix go (ts : list cqltype) (vs : list value) {struct ts} : list value :=
    match ts, vs with
    | t1 :: ts', v1 :: vs' => nrm t1 v1 :: go ts' vs'
    | _, [] => map (fun _ => VNull) ts
    | [], _ => []
    end.

Definition zip_all (f : cqltype -> value -> bool) : list cqltype -> list value -> bool :=
  fix go (ts : list cqltype) (vs : list value) {struct ts} : bool :=
    match ts, vs with
    | t1 :: ts', v1 :: vs' => f t1 v1 && go ts' vs'
    | _, _ => true
    end.

Definition zip_cat (f : cqltype -> value -> list Z) : list cqltype -> list value -> list Z :=
  fix go (ts : list cqltype) (vs : list value) {struct ts} : list Z :=
    match ts, vs with
    | t1 :: ts', v1 :: vs' => f t1 v1 ++ go ts' vs'
    | _, _ => []
    end.

Lemma dec_fields_step : forall fb t ts s, at_end s = false ->
  dec_fields fb (t :: ts) s =
  match dec_elem 3 (fb t) s with
  | None => None
  | Some (v, s') => r <- dec_fields fb ts s' ;; Some (v :: r)
  end.
Proof.
  intros fb t ts s H. cbn [dec_fields]. rewrite H. unfold dec_elem.
  change (lenw 3) with 4%nat. destruct (rd_fixed 4 s) as [[lb s1]|]; [|reflexivity].
  unfold unpack_len. change (lenw 3) with 4%nat. change (3 <=? 3) with true.
  destruct (unpack_int 4 true lb) as [l|]; cbn [obind]; [|reflexivity].
  replace (l <? 0) with (negb (0 <=? l)) by lia. destruct (0 <=? l); cbn [negb]; [|reflexivity].
  destruct (rd_slice l s1) as [item s2]. destruct (fb t item); reflexivity.
Qed.

Lemma at_end_app : forall a b, (1 <= length a)%nat -> at_end (Some (a ++ b)) = false.
Proof. intros a b H. destruct a; [cbn in H; lia | reflexivity]. Qed.

Lemma tuple_rt : forall ser fb nrm (p : cqltype -> value -> bool), (forall t, nrm t VNull = VNull) -> forall ts,
  Forall (fun t => forall v, p t v = true -> decodes_back (ser t) (fb t) (nrm t) v) ts ->
  forall vs bs, zip_all p ts vs = true ->
  enc_tuple ser ts vs = Some bs -> dec_fields fb ts (Some bs) = Some (norm_fields nrm ts vs).
Proof.
  intros ser fb nrm p N ts R. induction R as [|t ts Rt _ IH]; intros vs bs P H.
  - cbn [enc_tuple] in H. destruct vs; inversion H; reflexivity.
  - destruct vs as [|v vs]; [cbn [enc_tuple] in H; inversion H; reflexivity|].
    cbn [enc_tuple] in H. inv_bind H a E. inv_bind H a0 E0. inversion H; subst bs; clear H.
    cbn [zip_all] in P. apply andb_true_iff in P. destruct P as [Pv P].
    pose proof (enc_elem_length_ge _ _ _ _ E) as L. change (lenw 3) with 4%nat in L.
    rewrite dec_fields_step by (apply at_end_app; lia).
    rewrite (elem_rt 3 (ser t) (fb t) (nrm t) v a a0 (N t) (Rt v Pv) E), (IH vs a0 P E0). reflexivity.
Qed.

Lemma enc_udt_tuple : forall ser (ts : list cqltype) vs,
  enc_udt ser ts vs = if (length ts <=? length vs)%nat then enc_tuple ser ts vs else None.
Proof.
  intros ser. induction ts as [|t ts IH]; intros vs; destruct vs as [|v vs]; try reflexivity.
  cbn [enc_udt enc_tuple length Nat.leb]. rewrite IH. destruct (length ts <=? length vs)%nat; [reflexivity|].
  destruct (enc_elem 3 (ser t) v); reflexivity.
Qed.

Lemma vec_fixed_rt : forall ser des nrm sz vs bs,
  Forall (fun v => forall b, ser v = Some b -> des b = Some (nrm v)) vs -> Forall (fun v => forall b, ser v = Some b -> len b = sz) vs ->
  enc_vec ser true vs = Some bs -> dec_chunks (length vs) (Z.to_nat sz) des bs = Some (map nrm vs).
Proof.
  intros ser des nrm sz. induction vs as [|v r IH]; intros bs F Fs H.
  - reflexivity.
  - cbn [enc_vec] in H. inv_bind H a E. inv_bind H a0 E0. inv_bind H a1 E1. inversion H; subst bs; clear H.
    inversion E0; subst a0. cbn [app].
    inversion F as [|? ? Rv Rr]; subst. inversion Fs as [|? ? Sv Sr]; subst.
    pose proof (Sv a E) as S. cbn [dec_chunks length]. assert (HL : Z.to_nat sz = length a) by (unfold len in S; lia).
    rewrite HL, firstn_app_len, skipn_app_len, (Rv a E), <- HL, (IH a1 Rr Sr E1). reflexivity.
Qed.

Lemma vec_var_rt : forall ser des nrm vs bs,
  Forall (fun v => forall b, ser v = Some b -> des b = Some (nrm v)) vs -> enc_vec ser false vs = Some bs ->
  dec_vec_var (length vs) des (Some bs) = Some (map nrm vs).
Proof.
  intros ser des nrm. induction vs as [|v r IH]; intros bs F H.
  - cbn [enc_vec] in H. inversion H. reflexivity.
  - cbn [enc_vec] in H. inv_bind H a E. inv_bind H a0 E0. inv_bind H a1 E1. inversion H; subst bs; clear H.
    inversion F as [|? ? Rv Rr]; subst.
    cbn [dec_vec_var length]. rewrite (uvint_read_pack _ _ (a ++ a1) E0), rd_slice_app, (Rv a E), (IH a1 Rr E1). reflexivity.
Qed.

Lemma serialize_tuple : forall pv ts vs,
  serialize pv (TTuple ts) (VSeq vs) = if (length ts <? length vs)%nat then None else enc_tuple (serialize (inner pv)) ts vs.
Proof.
  intros. cbn [serialize]. destruct (length ts <? length vs)%nat; [reflexivity|].
  revert vs. induction ts as [|t ts IH]; intros; destruct vs; try reflexivity.
  cbn [enc_tuple]. rewrite <- IH. reflexivity.
Qed.

Lemma serialize_udt : forall pv ts vs,
  serialize pv (TUdt ts) (VSeq vs) = enc_udt (serialize (inner pv)) ts vs.
Proof.
  intros. cbn [serialize].
  revert vs. induction ts as [|t ts IH]; intros; destruct vs; try reflexivity.
  cbn [enc_udt]. rewrite <- IH. reflexivity.
Qed.

Lemma deserialize_fields : forall pv ts bs,
  deserialize pv (TTuple ts) bs =
  (vs <- dec_fields (fun t => wrap_from (empty_ok t) (deserialize (inner pv) t)) ts (Some bs) ;; Some (VSeq vs)).
Proof.
  intros. cbn [deserialize].
  (* the two loops are compared as functions of the reader state: their recursive calls stand under the binders of the
     state they are applied to, where only an equation between closed terms can be rewritten *)
  match goal with |- obind (?f ts (Some bs)) _ = _ =>
    assert (A : f ts = dec_fields (fun t => wrap_from (empty_ok t) (deserialize (inner pv) t)) ts) end.
  { induction ts as [|t ts IH]; [reflexivity|]. cbn [dec_fields]. rewrite <- IH. reflexivity. }
  rewrite A. reflexivity.
Qed.

Lemma norm_null : forall t, norm t VNull = VNull.
Proof. destruct t; reflexivity. Qed.

(* py_repr and norm look at the value before the type, so under every constructor of v a wrapper reduces away.
   These and the two lemmas after them are stated for Frozen; every side is convertible with the same about Reversed. *)
Lemma py_repr_frozen : forall t v, py_repr (TFrozen t) v = py_repr t v.
Proof. destruct v; try reflexivity. destruct t; reflexivity. Qed.

Lemma norm_frozen : forall t v, norm (TFrozen t) v = norm t v.
Proof. destruct v; try reflexivity. destruct t; reflexivity. Qed.

Lemma wrapper_inv : forall pv t v bs, py_repr (TFrozen t) v = true -> v <> VNull -> serialize pv (TFrozen t) v = Some bs ->
  py_repr t v = true /\ serialize pv t v = Some bs.
Proof.
  intros pv t v bs Y Hn Hs. rewrite py_repr_frozen in Y. cbn [serialize] in Hs. rewrite wrap_to_nonnull in Hs by exact Hn.
  split; assumption.
Qed.

Lemma wf_wrapper : forall t, wf_type (TFrozen t) = true -> empty_ok t = false /\ wf_type t = true.
Proof. intros t W. cbn [wf_type] in W. apply andb_true_iff in W. destruct W as [W0 W]. apply negb_true_iff in W0. split; assumption. Qed.

(* a tuple and a UDT differ in which lengths of value they accept; what they write for one they accept is the same.
   wf_type, py_repr, norm and deserialize have one branch for both: what is proved of TTuple ts holds of TUdt ts by conversion *)
Lemma fields_inv : forall pv ts v bs, v <> VNull ->
  serialize pv (TTuple ts) v = Some bs \/ serialize pv (TUdt ts) v = Some bs ->
  exists vs, v = VSeq vs /\ enc_tuple (serialize (inner pv)) ts vs = Some bs.
Proof.
  (* v = VNull goes by Hn, not by Hs: a UDT writes None as a value whose fields are all null *)
  intros pv ts v bs Hn Hs. destruct v; [elim Hn; reflexivity|..]; try (destruct Hs as [Hs|Hs]; cbn [serialize] in Hs; discriminate).
  exists vs. split; [reflexivity|]. rewrite serialize_tuple, serialize_udt, enc_udt_tuple in Hs.
  destruct Hs as [Hs|Hs]; [destruct (length ts <? length vs)%nat | destruct (length ts <=? length vs)%nat]; congruence.
Qed.

Lemma vector_inv : forall pv t n v bs, py_repr (TVector t n) v = true -> serialize pv (TVector t n) v = Some bs ->
  exists vs, v = VSeq vs /\ n = len vs /\ Forall (fun x => x <> VNull /\ py_repr t x = true) vs /\
             enc_vec (serialize pv t) (is_some (serial_size t)) vs = Some bs.
Proof.
  intros pv t n v bs Y Hs. destruct v; cbn [serialize] in Hs; try discriminate.
  destruct (n =? len vs) eqn:En; [|discriminate]. exists vs. repeat split; [lia| |exact Hs].
  eapply Forall_impl; [|apply forallb_Forall; exact Y]. intros x Hx. apply andb_true_iff in Hx. destruct Hx as [X1 X2].
  split; [apply is_null_false, negb_true_iff, X1 | exact X2].
Qed.

Lemma scalar_size_len : forall s v bs sz, scalar_size s = Some sz -> ser_scalar s v = Some bs -> len bs = sz.
Proof.
  intros s v bs sz Hs H. unfold len.
  destruct s; cbn [scalar_size] in Hs; try discriminate; inversion Hs; subst sz;
    destruct v; cbn [ser_scalar] in H; try discriminate;
    try (apply pack_int_length in H; rewrite H; reflexivity).
  - (* SBoolean *) inversion H. reflexivity.
  - (* SUuid *) destruct (length bs0 =? 16)%nat eqn:L; [|discriminate]. inversion H; subst. apply Nat.eqb_eq in L. rewrite L. reflexivity.
Qed.

Lemma serial_size_pos : forall t sz, wf_type t = true -> serial_size t = Some sz -> 1 <= sz.
Proof.
  induction t using cqltype_ind'; intros sz W HS; cbn [serial_size] in HS; try discriminate.
  - (* TScalar *) destruct s; cbn in HS; inversion HS; lia.
  - (* TVector *) cbn [wf_type] in W. apply andb_true_iff in W. destruct W as [W1 W2]. apply Z.leb_le in W1.
    destruct (serial_size t) as [k|]; [|discriminate]. inversion HS; subst. specialize (IHt k W2 eq_refl). nia.
  - (* TFrozen *) exact (IHt sz (proj2 (wf_wrapper t W)) HS).
  - (* TReversed *) exact (IHt sz (proj2 (wf_wrapper t W)) HS).
Qed.

Lemma enc_vec_fixed_len : forall ser sz vs bs, Forall (fun v => forall b, ser v = Some b -> len b = sz) vs ->
  enc_vec ser true vs = Some bs -> len bs = sz * len vs.
Proof.
  intros ser sz. induction vs as [|v r IH]; intros bs F H.
  - cbn [enc_vec] in H. inversion H. cbn. lia.
  - cbn [enc_vec] in H. inv_bind H a E. inv_bind H a0 E0. inv_bind H a1 E1. inversion H; subst bs; clear H.
    inversion E0; subst a0. inversion F as [|? ? Sv Sr]; subst. specialize (Sv a E). specialize (IH a1 Sr E1).
    cbn [app]. rewrite len_cons. unfold len in *. rewrite app_length. lia.
Qed.

Lemma serialize_size : forall t pv v bs sz, py_repr t v = true -> v <> VNull ->
  serialize pv t v = Some bs -> serial_size t = Some sz -> len bs = sz.
Proof.
  induction t using cqltype_ind'; intros pv v bs sz Y Hn Hs Hsz; cbn [serial_size] in Hsz; try discriminate.
  - (* TScalar *) exact (scalar_size_len s v bs sz Hsz Hs).
  - (* TVector *) destruct (vector_inv pv t n v bs Y Hs) as (vs & -> & -> & F & Hs').
    destruct (serial_size t) as [k|] eqn:Ek; [|discriminate]. inversion Hsz; subst sz. cbn [is_some] in Hs'.
    rewrite (enc_vec_fixed_len (serialize pv t) k vs bs); [lia| |exact Hs'].
    eapply Forall_impl; [|exact F]. intros x [Nx Yx] b Hb. exact (IHt pv x b k Yx Nx Hb eq_refl).
  - (* TFrozen *) destruct (wrapper_inv pv t v bs Y Hn Hs) as [Y' Hs']. exact (IHt pv v bs sz Y' Hn Hs' Hsz).
  - (* TReversed *) destruct (wrapper_inv pv t v bs Y Hn Hs) as [Y' Hs']. exact (IHt pv v bs sz Y' Hn Hs' Hsz).
Qed.

Lemma des_scalar_nil : forall s, empty_ok (TScalar s) = false -> des_scalar s [] = None.
Proof. destruct s; (reflexivity || discriminate). Qed.

Lemma counted_nonempty : forall pv n (o : option (list Z)) bs, (h <- pack_len pv n ;; b <- o ;; Some (h ++ b)) = Some bs -> bs <> [].
Proof.
  intros pv n o bs H. inv_bind H h E. inv_bind H b E0. inversion H. intro C. apply app_eq_nil in C. destruct C as [-> _].
  apply pack_len_length in E. pose proof (lenw_pos pv). cbn in E. lia.
Qed.

Lemma fields_nonempty : forall ser ts vs bs, wf_type (TTuple ts) = true -> py_repr (TTuple ts) (VSeq vs) = true ->
  enc_tuple ser ts vs = Some bs -> bs <> [].
Proof.
  intros ser ts vs bs W Y H. destruct ts as [|t ts]; [discriminate W|]. destruct vs as [|v vs]; [discriminate Y|]. cbn [enc_tuple] in H. inv_bind H a E. inv_bind H b E0. inversion H. intro C.
  apply app_eq_nil in C. destruct C as [-> _]. apply enc_elem_length_ge in E. cbn in E. lia.
Qed.

(* from_binary reads b'' as null unless the type allows empty values, so an encoding that may be empty would not come
   back; none is *)
Lemma serialize_nonempty : forall t pv v bs, wf_type t = true -> py_repr t v = true -> v <> VNull ->
  serialize pv t v = Some bs -> empty_ok t = false -> bs <> [].
Proof.
  induction t using cqltype_ind'; intros pv v bs W Y Hn Hs He.
  - (* TScalar: one that decodes from b'' would be one whose empty value is allowed *)
    intros ->. pose proof (scalar_rt s v [] Y Hs) as D. rewrite (des_scalar_nil s He) in D. discriminate.
  - (* TList: the count field *) destruct v; try discriminate Hs. exact (counted_nonempty _ _ _ _ Hs).
  - (* TSet *) destruct v; try discriminate Hs. exact (counted_nonempty _ _ _ _ Hs).
  - (* TMap *) destruct v; try discriminate Hs. exact (counted_nonempty _ _ _ _ Hs).
  - (* TTuple: the length field of the first item *)
    destruct (fields_inv pv ts v bs Hn (or_introl Hs)) as (vs & -> & Hs'). exact (fields_nonempty _ ts vs bs W Y Hs').
  - (* TUdt *) destruct (fields_inv pv ts v bs Hn (or_intror Hs)) as (vs & -> & Hs'). exact (fields_nonempty _ ts vs bs W Y Hs').
  - (* TVector: at least one element, of positive size if the type has a fixed size, with a size prefix otherwise *)
    destruct (vector_inv pv t n v bs Y Hs) as (vs & -> & -> & F & Hs').
    cbn [wf_type] in W. apply andb_true_iff in W. destruct W as [W0 W].
    destruct F as [|v vs [Nv Yv] _]; [discriminate W0|].
    cbn [enc_vec] in Hs'. inv_bind Hs' b Eb. inv_bind Hs' p Ep. inv_bind Hs' c Ec. inversion Hs'. intro C.
    apply app_eq_nil in C. destruct C as [-> C]. apply app_eq_nil in C. destruct C as [-> _].
    destruct (serial_size t) as [k|] eqn:Ek; cbn [is_some] in Ep.
    + pose proof (serialize_size t pv v [] k Yv Nv Eb Ek) as S.
      pose proof (serial_size_pos t k W Ek). change (len (@nil Z)) with 0 in S. lia.
    + apply uvint_pack_nonempty in Ep. cbn in Ep. lia.
  - (* TFrozen *) destruct (wf_wrapper t W) as [E' W'], (wrapper_inv pv t v bs Y Hn Hs) as [Y' Hs']. exact (IHt pv v bs W' Y' Hn Hs' E').
  - (* TReversed *) destruct (wf_wrapper t W) as [E' W'], (wrapper_inv pv t v bs Y Hn Hs) as [Y' Hs']. exact (IHt pv v bs W' Y' Hn Hs' E').
Qed.

Lemma wrap_from_des : forall eok des b, (eok = false -> b <> []) -> wrap_from eok des b = des b.
Proof.
  intros eok des b H. unfold wrap_from. destruct eok; cbn [negb]; [rewrite andb_false_r; reflexivity|].
  destruct b; [exfalso; apply H; reflexivity | reflexivity].
Qed.

Definition roundtrips (t : cqltype) : Prop :=
  forall pv v, wf_type t = true -> py_repr t v = true -> decodes_back (serialize pv t) (deserialize pv t) (norm t) v.

(* as the element of a container it is read by from_binary, which goes on to deserialize because the bytes are not empty *)
Lemma roundtrips_elem : forall t pv v, roundtrips t -> wf_type t = true -> py_repr t v = true ->
  decodes_back (serialize pv t) (wrap_from (empty_ok t) (deserialize pv t)) (norm t) v.
Proof.
  intros t pv v P W Y Hn b Hs. rewrite wrap_from_des; [exact (P pv v W Y Hn b Hs)|].
  exact (serialize_nonempty t pv v b W Y Hn Hs).
Qed.

Lemma roundtrips_scalar : forall s, roundtrips (TScalar s).
Proof. intros s pv v W Y Hn b Hs. rewrite norm_scalar. exact (scalar_rt s v b Y Hs). Qed.

Lemma roundtrips_list : forall t, roundtrips t -> roundtrips (TList t).
Proof.
  intros t IHt pv v W Y Hn bs Hs.
  destruct v; cbn [serialize] in Hs; try discriminate. cbn [wf_type py_repr] in *. cbn [deserialize norm].
  apply (coll_rt pv (serialize (inner pv) t) _ (norm t) vs bs (norm_null t)); [|exact Hs].
  eapply Forall_impl; [|apply forallb_Forall; exact Y]. intros x Hx. apply roundtrips_elem; assumption.
Qed.

Lemma roundtrips_map : forall t1 t2, roundtrips t1 -> roundtrips t2 -> roundtrips (TMap t1 t2).
Proof.
  intros t1 t2 IHt1 IHt2 pv v W Y Hn bs Hs.
  destruct v; cbn [serialize] in Hs; try discriminate. cbn [wf_type py_repr] in *.
  apply andb_true_iff in W. destruct W as [W1 W2]. cbn [deserialize norm].
  apply (map_rt pv (serialize (inner pv) t1) _ (norm t1) (serialize (inner pv) t2) _ (norm t2) kvs bs (norm_null t1) (norm_null t2)); [|exact Hs].
  eapply Forall_impl; [|apply forallb_Forall; exact Y]. intros x Hx. apply andb_true_iff in Hx. destruct Hx.
  split; apply roundtrips_elem; assumption.
Qed.

Lemma roundtrips_fields : forall ts pv v bs, Forall roundtrips ts -> wf_type (TTuple ts) = true -> py_repr (TTuple ts) v = true -> v <> VNull ->
  serialize pv (TTuple ts) v = Some bs \/ serialize pv (TUdt ts) v = Some bs -> deserialize pv (TTuple ts) bs = Some (norm (TTuple ts) v).
Proof.
  intros ts pv v bs IH W Y Hn Hs'. destruct (fields_inv pv ts v bs Hn Hs') as (vs & -> & Hs).
  cbn [py_repr] in Y. apply andb_true_iff in Y. destruct Y as [_ Y].
  cbn [wf_type] in W. apply andb_true_iff in W. destruct W as [_ W]. apply forallb_Forall in W.
  rewrite deserialize_fields. change (norm (TTuple ts) (VSeq vs)) with (VSeq (norm_fields norm ts vs)).
  rewrite (tuple_rt (serialize (inner pv)) _ norm py_repr norm_null ts) with (vs := vs) (bs := bs); [reflexivity| |exact Y|exact Hs].
  rewrite Forall_forall in *. intros t Hin v Yv. apply roundtrips_elem; auto.
Qed.

Lemma roundtrips_vector : forall t n, roundtrips t -> roundtrips (TVector t n).
Proof.
  intros t n IHt pv v W Y Hn bs Hs. destruct (vector_inv pv t n v bs Y Hs) as (vs & -> & -> & F & Hs').
  cbn [wf_type] in W. apply andb_true_iff in W. destruct W as [_ W].
  assert (R : Forall (fun x => forall b, serialize pv t x = Some b -> deserialize pv t b = Some (norm t x)) vs).
  { eapply Forall_impl; [|exact F]. intros x [Nx Yx]. exact (IHt pv x W Yx Nx). }
  cbn [deserialize norm]. replace (Z.to_nat (len vs)) with (length vs) by (unfold len; lia).
  destruct (serial_size t) as [k|] eqn:Ek; cbn [is_some] in Hs'.
  - assert (Fs : Forall (fun x => forall b, serialize pv t x = Some b -> len b = k) vs).
    { eapply Forall_impl; [|exact F]. intros x [Nx Yx] b Hb. exact (serialize_size t pv x b k Yx Nx Hb Ek). }
    rewrite (enc_vec_fixed_len _ k vs bs Fs Hs'), Z.eqb_refl, (vec_fixed_rt _ _ (norm t) k vs bs R Fs Hs'). reflexivity.
  - rewrite (vec_var_rt _ _ (norm t) vs bs R Hs'). reflexivity.
Qed.

Lemma roundtrips_frozen : forall t, roundtrips t -> roundtrips (TFrozen t).
Proof.
  intros t IHt pv v W Y Hn bs Hs. destruct (wf_wrapper t W) as [_ W'], (wrapper_inv pv t v bs Y Hn Hs) as [Y' Hs'].
  cbn [deserialize]. rewrite (roundtrips_elem t pv v IHt W' Y' Hn bs Hs'), norm_frozen. reflexivity.
Qed.

Theorem roundtrips_all : forall t, roundtrips t.
Proof.
  induction t using cqltype_ind'.
  - apply roundtrips_scalar.
  - apply roundtrips_list; assumption.
  - (* a set is written and read as a list *) exact (roundtrips_list t IHt).
  - apply roundtrips_map; assumption.
  - intros pv v W Y Hn bs Hs. exact (roundtrips_fields ts pv v bs H W Y Hn (or_introl Hs)).
  - intros pv v W Y Hn bs Hs. exact (roundtrips_fields ts pv v bs H W Y Hn (or_intror Hs)).
  - apply roundtrips_vector; assumption.
  - apply roundtrips_frozen; assumption.
  - (* Reversed delegates as Frozen does *) exact (roundtrips_frozen t IHt).
Qed.

Lemma to_binary_nonnull : forall pv t v, v <> VNull -> to_binary pv t v = serialize pv t v.
Proof. intros. apply wrap_to_nonnull. assumption. Qed.

Theorem roundtrip_to_from : forall pv t v bs,
  wf_type t = true -> py_repr t v = true -> v <> VNull ->
  to_binary pv t v = Some bs -> from_binary pv t bs = Some (norm t v).
Proof.
  intros pv t v bs W Y Hn H. rewrite to_binary_nonnull in H by assumption.
  exact (roundtrips_elem t pv v (roundtrips_all t) W Y Hn bs H).
Qed.
