(* C23: lemmas about the retry policies as translated from cassandra/policies.py (Gen/RetryPolicies.v).
   Each policy method is a cascade of tests; a proof unfolds the one method and follows its tests in
   source order. *)
From Coq Require Import ZArith List Bool.
From Verif Require Import PyBase RetryConsts RetryPolicies Consistency.
Import ListNotations.
Local Open Scope Z_scope.

Lemma pick_spec n :
  (Downgrading_pick_consistency n = (RETHROW, None) /\ n < 1) \/
  (exists cl k, Downgrading_pick_consistency n = (RETRY, Some cl) /\ needs cl = Some k /\ k <= n).
Proof.
  unfold Downgrading_pick_consistency.
  destruct (Z.geb_spec n 3); [right; exists CL_THREE, 3; auto|].
  destruct (Z.geb_spec n 2); [right; exists CL_TWO, 2; auto|].
  destruct (Z.geb_spec n 1); [right; exists CL_ONE, 1; auto|left; auto].
Qed.

Lemma pick_fits n cl : snd (Downgrading_pick_consistency n) = Some cl -> exists k, needs cl = Some k /\ k <= n.
Proof. destruct (pick_spec n) as [[-> _]|(cl' & k & -> & Hk)]; [discriminate|]. intros [= <-]. exists k. exact Hk. Qed.

Lemma pick_valid n : valid_decision (fst (Downgrading_pick_consistency n)) = true.
Proof. destruct (pick_spec n) as [[-> _]|(cl & k & -> & _)]; reflexivity. Qed.

Lemma is_serial_agrees cl : ConsistencyLevel_is_serial cl = is_serial cl.
Proof. reflexivity. Qed.

Lemma downgrading_fits_read c rq rc d n cl' :
  snd (Downgrading_on_read_timeout c rq rc d n) = Some cl' ->
  (cl' = c /\ rq <= rc) \/ (exists k, needs cl' = Some k /\ k <= rc /\ rc < rq).
Proof.
  unfold Downgrading_on_read_timeout.
  destruct (negb (n =? 0)); [discriminate|].
  destruct (ConsistencyLevel_is_serial c); [discriminate|].
  destruct (Z.ltb_spec rc rq).
  - intros (k & Hk & Hle)%pick_fits. right. exists k. auto.
  - destruct d; [discriminate|]. intros [= <-]. auto.
Qed.

Lemma downgrading_fits_unav c rq al n cl' :
  snd (Downgrading_on_unavailable c rq al n) = Some cl' -> exists k, needs cl' = Some k /\ k <= al.
Proof.
  unfold Downgrading_on_unavailable.
  destruct (negb (n =? 0)); [discriminate|].
  destruct (ConsistencyLevel_is_serial c); [discriminate|].
  apply pick_fits.
Qed.

(* the generated text carries write types and decisions as numerals: the same cascade by name *)
Lemma Downgrading_on_write_timeout_eq c w rq rc n :
  Downgrading_on_write_timeout c w rq rc n =
  if negb (n =? 0) then (RETHROW, None)
  else if py_in w [WT_SIMPLE; WT_BATCH; WT_COUNTER] then (if rc >? 0 then (IGNORE, None) else (RETHROW, None))
  else if w =? WT_UNLOGGED_BATCH then Downgrading_pick_consistency rc
  else if w =? WT_BATCH_LOG then (RETRY, Some c) else (RETHROW, None).
Proof. reflexivity. Qed.

Lemma downgrading_fits_write c w rq rc n cl' :
  snd (Downgrading_on_write_timeout c w rq rc n) = Some cl' ->
  (cl' = c /\ w = WT_BATCH_LOG) \/ (w = WT_UNLOGGED_BATCH /\ exists k, needs cl' = Some k /\ k <= rc).
Proof.
  rewrite Downgrading_on_write_timeout_eq.
  destruct (negb (n =? 0)); [discriminate|].
  destruct (py_in w [WT_SIMPLE; WT_BATCH; WT_COUNTER]); [destruct (rc >? 0); discriminate|].
  destruct (Z.eqb_spec w WT_UNLOGGED_BATCH) as [->|_].
  - intros H%pick_fits. auto.
  - destruct (Z.eqb_spec w WT_BATCH_LOG) as [->|_]; [|discriminate]. intros [= <-]. auto.
Qed.

Lemma needs_block_for cl k rf dcs : needs cl = Some k -> block_for cl rf dcs = k.
Proof.
  unfold needs, block_for.
  destruct (Z.eqb_spec cl CL_ONE) as [->|_]; [now intros [= <-]|].
  destruct (Z.eqb_spec cl CL_TWO) as [->|_]; [now intros [= <-]|].
  destruct (Z.eqb_spec cl CL_THREE) as [->|_]; [now intros [= <-]|discriminate].
Qed.

Lemma fits_weaker cl rc rq rf dcs :
  (exists k, needs cl = Some k /\ k <= rc) -> rc < rq -> block_for cl rf dcs < rq.
Proof. intros (k & Hk & Hle) Hlt. rewrite (needs_block_for _ _ rf dcs Hk). now apply Z.le_lt_trans with rc. Qed.

Lemma default_same_cl_read c rq rc d n cl' :
  snd (Default_on_read_timeout c rq rc d n) = Some cl' -> cl' = c.
Proof.
  unfold Default_on_read_timeout.
  destruct (negb (n =? 0)); [discriminate|].
  destruct (rc >=? rq); [|discriminate].
  destruct d; [discriminate|]. now intros [= <-].
Qed.
Lemma default_same_cl_write c w rq rc n cl' :
  snd (Default_on_write_timeout c w rq rc n) = Some cl' -> cl' = c.
Proof.
  unfold Default_on_write_timeout.
  destruct (negb (n =? 0)); [discriminate|].
  destruct (w =? _); [|discriminate]. now intros [= <-].
Qed.
