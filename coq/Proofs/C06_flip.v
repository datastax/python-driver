From Coq Require Import ZArith List Lia.
From Verif Require Import Crc Stream Segment Crc_proofs Seg_bytes C06_bridge C06_proofs.
Import ListNotations.
Local Open Scope Z_scope.

Lemma crc32_flip : forall enc k v, Forall byte_ok enc -> (k < 8 * length enc)%nat -> 0 <= v < 2 ^ 32 ->
  compute_crc32 (flip_bit k enc) v <> compute_crc32 enc v.
Proof.
  intros enc k v Hb Hk Hv. destruct (flip_bit_split enc k Hk Hb) as (pre & b & post & b' & A & -> & C & D1 & D2).
  subst enc. apply Forall_app in Hb. destruct Hb as [Hpre Hpost]. inversion Hpost; subst.
  intro F. symmetry in F. revert F. apply crc32_detects; assumption.
Qed.

(* data bytes followed by the bytes of their checksum, one bit flipped anywhere *)
Lemma flipped_block : forall (f : list Z -> Z) D C k, le_val C = f D ->
  (forall j, (j < 8 * length D)%nat -> f (flip_bit j D) <> f D) -> (k < 8 * length (D ++ C))%nat ->
  exists D' C', flip_bit k (D ++ C) = D' ++ C' /\ length D' = length D /\ length C' = length C /\ f D' <> le_val C'.
Proof.
  intros f D C k HC Hf Hk. rewrite app_length in Hk. destruct (Nat.lt_ge_cases k (8 * length D)) as [K1|K2].
  - exists (flip_bit k D), C. rewrite flip_bit_app_l, flip_bit_length, HC by assumption. auto.
  - exists D, (flip_bit (k - 8 * length D) C). rewrite flip_bit_app_r, flip_bit_length, <- HC by assumption.
    repeat split. intro F. symmetry in F. revert F. apply le_val_flip_ne. lia.
Qed.

Section Flip.
  Variable compression : bool.
  Variable compress : list Z -> list Z.
  Variable decompress : list Z -> Z -> list Z.
  Hypothesis compress_bytes : forall x, Forall byte_ok x -> Forall byte_ok (compress x).

  Notation parse_seg := (parse_seg compression decompress).
  Notation encode_segment := (encode_segment compression compress).
  Notation hl := (hl compression).
  Notation hlc := (hlc compression).
  Notation run_cfeed := (run_cfeed compression decompress).
  Notation encoded_payload_ok := (encoded_payload_ok compression compress compress_bytes).

  Lemma flipped_segment_bad : forall p sc k more, seg_ok p -> (k < 8 * length (encode_segment p sc))%nat ->
    parse_seg (flip_bit k (encode_segment p sc) ++ more) = SBad.
  Proof.
    intros p sc k more Hok Hk.
    pose proof (encoded_payload_ok p Hok) as H. unfold Segment.encode_segment in *.
    destruct (encoded_payload compression compress p) as [enc ul]. destruct H as (Hb & Hl & Hu).
    pose proof (encode_header_length compression (blen enc) ul sc) as HHlen.
    rewrite app_length, HHlen in Hk. destruct (Nat.lt_ge_cases k (8 * hlc)) as [Khead|Kbody].
    - rewrite flip_bit_app_l by (rewrite HHlen; assumption).
      destruct (C06_bridge.header_fields compression (blen enc) ul sc Hl Hu) as (Hhd & _). rewrite <- hl_Z in Hhd.
      unfold encode_header in *. rewrite hl_nat in *. set (hd := header_data compression (blen enc) ul sc) in *.
      destruct (flipped_block (fun D => compute_crc24 (le_val D) hl) (le_bytes hl hd) (le_bytes 3 (compute_crc24 hd hl)) k)
        as (D' & C' & -> & HD' & HC' & Hne).
      + (* le_val C = f D *) rewrite le_val_crc24, le_val_le_bytes by assumption. reflexivity.
      + (* f (flip_bit j D) <> f D *)
        intros j Hj. rewrite le_val_flip by assumption. apply C06_bridge.crc24_flip. rewrite le_bytes_length in Hj. lia.
      + (* k < 8 * length (D ++ C) *) rewrite HHlen. assumption.
      + rewrite le_bytes_length in HD', HC'. rewrite <- !app_assoc. apply parse_seg_bad_header; assumption.
    - rewrite flip_bit_app_r, HHlen, <- app_assoc by (rewrite HHlen; assumption).
      destruct (flipped_block (fun D => compute_crc32 D CRC32_INITIAL) enc (le_bytes 4 (compute_crc32 enc CRC32_INITIAL))
                  (k - 8 * hlc)) as (D' & C' & -> & HD' & HC' & Hne).
      + (* le_val C = f D *) apply le_val_crc32. assumption.
      + (* f (flip_bit j D) <> f D *) intros j Hj. apply crc32_flip; auto using Crc_proofs.crc32_initial_range.
      + (* k < 8 * length (D ++ C) *) lia.
      + rewrite le_bytes_length in HC'. apply Z.eqb_neq in Hne. unfold blen in *.
        rewrite <- HD' in Hl |- *. rewrite <- app_assoc, parse_seg_whole, Hne by (reflexivity || assumption). reflexivity.
  Qed.

  Lemma run_bad : forall T, parse_seg T = SBad -> forall chunks io fb c,
    parse1 fb = NeedMore -> parse_seg io = SNeed -> io ++ concat chunks = T ->
    run_cfeed (CLive io fb c) chunks = (CDead, [Defunct R_CRC]).
  Proof.
    intros T HT. induction chunks as [|c0 cs IH]; intros io fb c Hfb Hio Hcat; cbn [concat] in Hcat.
    - rewrite app_nil_r in Hcat. congruence.
    - rewrite app_assoc in Hcat. rewrite run_cfeed_cons, cfeed_live. destruct (parse_seg (io ++ c0)) eqn:E.
      + destruct (cloop_waits _ _ (length (io ++ c0)) _ fb c E) as [c' ->]; [intros _; exact Hfb|].
        cbn [fst snd]. rewrite (IH _ fb c') by assumption. reflexivity.
      + rewrite cloop_step, E, run_dead. reflexivity.
      + rewrite <- Hcat, parse_seg_app, E in HT by congruence. discriminate.
  Qed.

  Theorem flip_detected : forall p sc k more chunks fb c,
    seg_ok p -> (k < 8 * length (encode_segment p sc))%nat -> parse1 fb = NeedMore ->
    concat chunks = flip_bit k (encode_segment p sc) ++ more ->
    run_cfeed (CLive [] fb c) chunks = (CDead, [Defunct R_CRC]).
  Proof.
    intros p sc k more chunks fb c Hok Hk Hfb Hc.
    apply (run_bad _ (flipped_segment_bad p sc k more Hok Hk)); auto using parse_seg_nil.
  Qed.
End Flip.
