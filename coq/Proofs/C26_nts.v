(* C26, NetworkTopologyStrategy.  Inside one datacenter the driver's loop (nts_step / nts_flush) and Cassandra's loop body (dc_visit)
   simulate each other (Sim); Cassandra's single pass over the ring (Spec) and the rows of the driver's map (Impl) both fall apart
   datacenter by datacenter, and meet where Cassandra's iterator starts (Row). *)
From Coq Require Import ZArith List Bool Lia.
From Verif Require Import RingBase Ring PlacementSpec ListFacts C26_lists.
Import ListNotations.
Local Open Scope Z_scope.

(* the state in which nts_dc starts a datacenter's loop *)
Definition nst0 (R : list Z) (r : Z) : nst :=
  {| n_replicas := R; n_remaining := r; n_this_dc := 0; n_skipped := []; n_racks_placed := [] |}.

Section Sim.
  Variable loc : topo_t.
  Variable rf : Z.
  Variables nodes racks : list Z.
  Local Notation N := (lenZ nodes).
  Local Notation K := (lenZ racks).

  (* Cassandra's loop body for an endpoint of this datacenter *)
  Definition dc_suff (reps : list Z) : bool := Z.min N rf <=? lenZ reps.
  Fixpoint dc_readd (sk reps : list Z) : list Z :=
    match sk with [] => reps | s :: t => if dc_suff reps then reps else dc_readd t (set_add s reps) end.
  Definition dc_visit (s : dc_state) (ep : Z) : dc_state :=
    if dc_suff (dc_replicas s) then s
    else if lenZ (seen_racks s) =? K then
      {| dc_replicas := set_add ep (dc_replicas s); seen_racks := seen_racks s; skipped_eps := skipped_eps s |}
    else if memZ (rack_of loc ep) (seen_racks s) then
      {| dc_replicas := dc_replicas s; seen_racks := seen_racks s; skipped_eps := set_add ep (skipped_eps s) |}
    else
      let reps1 := set_add ep (dc_replicas s) in
      let seen1 := set_add (rack_of loc ep) (seen_racks s) in
      if lenZ seen1 =? K
      then {| dc_replicas := dc_readd (skipped_eps s) reps1; seen_racks := seen1; skipped_eps := skipped_eps s |}
      else {| dc_replicas := reps1; seen_racks := seen1; skipped_eps := skipped_eps s |}.
  Definition ds0 : dc_state := {| dc_replicas := []; seen_racks := []; skipped_eps := [] |}.

  Lemma dc_visit_suff : forall l s, dc_suff (dc_replicas s) = true -> fold_left dc_visit l s = s.
  Proof.
    intros l s Hs. apply (fold_left_inv dc_visit (fun s' => s' = s)); [|reflexivity].
    intros s' h ->. unfold dc_visit. rewrite Hs. reflexivity.
  Qed.

  Hypothesis nodes_racks : forall h, In h nodes -> In (rack_of loc h) racks.

  Record dc_good (s : dc_state) : Prop := {
    g_reps : within (dc_replicas s) nodes;
    g_seen : within (seen_racks s) racks;
    g_sk : within (skipped_eps s) nodes;
    g_rk : forall h, In h (dc_replicas s) -> In (rack_of loc h) (seen_racks s);
    g_skrk : forall h, In h (skipped_eps s) -> In (rack_of loc h) (seen_racks s)
  }.

  Lemma dc_readd_good : forall sk reps, incl sk nodes -> within reps nodes ->
    within (dc_readd sk reps) nodes /\ forall x, In x (dc_readd sk reps) -> In x reps \/ In x sk.
  Proof.
    induction sk as [|s sk IH]; intros reps Hsk Hw; cbn [dc_readd]; [split; [assumption | tauto]|].
    destruct (dc_suff reps); [split; [assumption | tauto]|].
    destruct (IH (set_add s reps)) as [Hw' Hor].
    - intros x Hx. apply Hsk. right. assumption.
    - apply within_set_add; [assumption | apply Hsk; left; reflexivity].
    - split; [assumption|]. intros x Hx. destruct (Hor x Hx) as [H|H]; [|right; right; assumption].
      apply set_add_In in H. destruct H as [->|H]; [right; left; reflexivity | left; assumption].
  Qed.

  Lemma dc_visit_good : forall s h, dc_good s -> In h nodes -> dc_good (dc_visit s h).
  Proof.
    intros [reps seen sk] h [Hreps Hseen Hsk Hrk Hskrk] Hh. unfold dc_visit. simpl.
    destruct (dc_suff reps); [constructor; assumption|].
    assert (Hreps1 : within (set_add h reps) nodes) by (apply within_set_add; assumption).
    destruct (lenZ seen =? K) eqn:EK.
    { (* its rack is among the seen ones because they are all of them *)
      constructor; simpl; try assumption.
      apply set_add_all; [|assumption]. apply Z.eqb_eq in EK.
      apply (within_full seen racks); [assumption | lia | apply nodes_racks; assumption]. }
    destruct (memZ (rack_of loc h) seen) eqn:Erk.
    { apply memZ_In in Erk. constructor; simpl; try assumption;
        [apply within_set_add | apply set_add_all]; assumption. }
    assert (Hseen1 : within (set_add (rack_of loc h) seen) racks) by (apply within_set_add; [|apply nodes_racks]; assumption).
    assert (Hrk1 : forall x, In x (set_add h reps) -> In (rack_of loc x) (set_add (rack_of loc h) seen)).
    { apply set_add_all; [|intros x Hx]; apply set_add_In; [left; reflexivity | right; apply Hrk; assumption]. }
    assert (Hskrk1 : forall x, In x sk -> In (rack_of loc x) (set_add (rack_of loc h) seen)).
    { intros x Hx. apply set_add_In. right. apply Hskrk. assumption. }
    destruct (lenZ (set_add (rack_of loc h) seen) =? K).
    - destruct (dc_readd_good sk (set_add h reps) (proj2 Hsk) Hreps1) as [Hw' Hor].
      constructor; simpl; try assumption.
      intros x Hx. destruct (Hor x Hx); [apply Hrk1 | apply Hskrk1]; assumption.
    - constructor; simpl; assumption.
  Qed.

  (* R: the replicas chosen in earlier datacenters.  Of Cassandra's skipped endpoints the driver keeps those that are not
     replicas yet, and forgets them once every rack is represented. *)
  Variable R : list Z.
  Hypothesis R_out : forall h, In h nodes -> ~ In h R.

  Record dc_rel (i : nst) (s : dc_state) : Prop := {
    r_reps : n_replicas i = R ++ dc_replicas s;
    r_seen : n_racks_placed i = seen_racks s;
    r_rem : n_remaining i = rf - lenZ (dc_replicas s);
    r_rem0 : 0 <= n_remaining i;
    r_this : n_this_dc i <= lenZ (dc_replicas s);      (* hosts re-added from the skipped list are not counted *)
    r_sk : n_skipped i = if lenZ (seen_racks s) <? K then without (dc_replicas s) (skipped_eps s) else []
  }.

  Lemma flush_sim : forall sk reps, within sk nodes -> within reps nodes -> 0 <= rf - lenZ reps ->
    nts_flush (without reps sk) (R ++ reps) (rf - lenZ reps)
    = (R ++ dc_readd sk reps, rf - lenZ (dc_readd sk reps)) /\ lenZ reps <= lenZ (dc_readd sk reps) <= rf.
  Proof.
    induction sk as [|s sk IH]; intros reps [Hsk Hskin] Hw Hrem; [split; [reflexivity | cbn [dc_readd]; lia]|].
    apply NoDup_cons_iff in Hsk. destruct Hsk as [Hs Hsk'].
    assert (Hsk1 : within sk nodes) by (split; [assumption | intros x Hx; apply Hskin; right; assumption]).
    cbn [dc_readd]. destruct (dc_suff reps) eqn:Esuff.
    - (* nothing remains to be placed, or every host of the datacenter is a replica and `without` leaves none *)
      split; [|lia]. destruct (rf - lenZ reps =? 0) eqn:Er.
      + destruct (without reps (s :: sk)); cbn [nts_flush]; rewrite ?Er; reflexivity.
      + apply Z.eqb_neq in Er. apply Z.leb_le in Esuff.
        rewrite without_all; [reflexivity|]. intros x Hx.
        apply (within_full reps nodes); [assumption | lia | apply Hskin; assumption].
    - apply Z.leb_gt in Esuff. rewrite without_cons. destruct (memZ s reps) eqn:Es.
      + rewrite set_add_old by (apply memZ_In; assumption). apply IH; assumption.
      + apply memZ_false in Es. rewrite set_add_new by assumption. cbn [nts_flush].
        replace (rf - lenZ reps =? 0) with false by (symmetry; apply Z.eqb_neq; lia).
        rewrite <- (without_snoc reps s sk Hs), <- app_assoc.
        replace (rf - lenZ reps - 1) with (rf - lenZ (reps ++ [s])) by (rewrite lenZ_snoc; lia).
        assert (Hw1 : within (reps ++ [s]) nodes) by (apply within_snoc; [assumption | apply Hskin; left; reflexivity | assumption]).
        destruct (IH (reps ++ [s]) Hsk1 Hw1) as [E Hl]; [rewrite lenZ_snoc; lia|].
        rewrite lenZ_snoc in Hl. split; [exact E | lia].
  Qed.

  Lemma step_sim : forall i s h, dc_good s -> dc_rel i s -> In h nodes -> dc_rel (nts_step true loc K N i h) (dc_visit s h).
  Proof.
    intros [ri rem this ski placed] [reps seen sk] h G Rl Hh. pose proof Rl as Rl0.
    destruct G as [Hreps Hseen Hsk Hrk Hskrk]. destruct Rl as [Er Es Erem Hrem0 Hthis Esk].
    simpl in *. subst ri placed rem ski.
    pose proof (within_lenZ _ _ Hseen) as HlK.
    unfold nts_step, dc_visit. simpl.
    rewrite memZ_app, (proj2 (memZ_false h R) (R_out h Hh)). cbn [orb].
    destruct ((rf - lenZ reps =? 0) || (this =? N)) eqn:Ebrk.
    { replace (dc_suff reps) with true; [exact Rl0|].
      symmetry. apply Z.leb_le. apply orb_true_iff in Ebrk. destruct Ebrk as [E|E]; apply Z.eqb_eq in E; [lia|].
      (* n_this_dc = N: by r_this the N hosts of the datacenter are all replicas *)
      lia. }
    apply orb_false_iff in Ebrk. destruct Ebrk as [Er Et]. apply Z.eqb_neq in Er.
    destruct (dc_suff reps) eqn:Esuff.
    { (* the driver goes on, but every host of the datacenter is a replica already *)
      apply Z.leb_le in Esuff.
      replace (memZ h reps) with true; [exact Rl0|].
      symmetry. apply memZ_In. apply (within_full reps nodes); [assumption | lia | assumption]. }
    apply Z.leb_gt in Esuff.
    destruct (memZ h reps) eqn:Emem.
    { (* Cassandra at most enters it in its skipped set, and `without` leaves it out again *)
      apply memZ_In in Emem. destruct (lenZ seen =? K).
      - rewrite set_add_old by assumption. exact Rl0.
      - replace (memZ (rack_of loc h) seen) with true by (symmetry; apply memZ_In, Hrk; assumption).
        constructor; simpl; try assumption; try reflexivity.
        rewrite without_set_add_old by assumption. reflexivity. }
    assert (Hnotin : ~ In h reps) by (apply memZ_false; assumption).
    rewrite (set_add_new h reps) by assumption. rewrite <- app_assoc.
    destruct (le_cases_b _ _ HlK) as [[EK [EKb LKb]]|[LK [EKb LKb]]]; rewrite EKb, LKb.
    { (* its rack is seen already, so the driver's racks_placed does not grow, its test `lenZ placed =? K` holds too (the
         second EKb), and it flushes the empty skipped list *)
      rewrite andb_false_r, set_add_old, EKb.
      2:{ apply (within_full seen racks); [assumption | lia | apply nodes_racks; assumption]. }
      constructor; simpl;
        [reflexivity | reflexivity | rewrite lenZ_snoc; lia | lia | rewrite lenZ_snoc; lia | rewrite LKb; reflexivity]. }
    destruct (memZ (rack_of loc h) seen) eqn:Erk.
    { constructor; simpl; rewrite ?LKb; try assumption; try reflexivity.
      rewrite without_set_add_new by assumption. reflexivity. }
    apply memZ_false in Erk. rewrite (set_add_new (rack_of loc h) seen) by assumption.
    assert (Hhsk : ~ In h sk) by (intro Hx; apply Erk, Hskrk; assumption).
    rewrite <- (without_snoc reps h sk Hhsk), lenZ_snoc.
    assert (HlK1 : lenZ seen + 1 <= K) by lia.
    destruct (le_cases_b _ _ HlK1) as [[EK1 [EK1b LK1b]]|[LK1 [EK1b LK1b]]]; rewrite EK1b.
    { assert (Hreps1 : within (reps ++ [h]) nodes) by (apply within_snoc; assumption).
      replace (rf - lenZ reps - 1) with (rf - lenZ (reps ++ [h])) by (rewrite lenZ_snoc; lia).
      destruct (flush_sim sk (reps ++ [h]) Hsk Hreps1) as [E Hlen]; [rewrite lenZ_snoc; lia|]. rewrite E. rewrite lenZ_snoc in Hlen.
      constructor; simpl;
        [reflexivity | reflexivity | reflexivity | lia | lia | rewrite lenZ_snoc, LK1b; reflexivity]. }
    constructor; simpl;
      [reflexivity | reflexivity | rewrite lenZ_snoc; lia | lia | rewrite lenZ_snoc; lia | rewrite lenZ_snoc, LK1b; reflexivity].
  Qed.

  Lemma fold_sim : forall l i s, dc_good s -> dc_rel i s -> (forall h, In h l -> In h nodes) ->
    dc_good (fold_left dc_visit l s) /\ dc_rel (fold_left (nts_step true loc K N) l i) (fold_left dc_visit l s).
  Proof.
    induction l as [|h l IH]; intros i s G Rl Hl; [split; assumption|].
    assert (Hh : In h nodes) by (apply Hl; left; reflexivity).
    apply IH; [apply dc_visit_good | apply step_sim | intros x Hx; apply Hl; right]; assumption.
  Qed.

  Lemma pass_sim : forall l, 0 <= rf -> (forall h, In h l -> In h nodes) ->
    n_replicas (fold_left (nts_step true loc K N) l
       (nst0 R rf))
    = R ++ dc_replicas (fold_left dc_visit l ds0)
    /\ within (dc_replicas (fold_left dc_visit l ds0)) nodes.
  Proof.
    intros l Hrf Hl.
    assert (G0 : dc_good ds0) by (constructor; try apply within_nil; intros x []).
    assert (R0 : dc_rel (nst0 R rf) ds0).
    { constructor; unfold nst0, ds0; simpl;
        [symmetry; apply app_nil_r | reflexivity | cbn; lia | exact Hrf | cbn; lia | destruct (lenZ (@nil Z) <? K); reflexivity]. }
    destruct (fold_sim l _ _ G0 R0 Hl) as [G Rl].
    split; [apply (r_reps _ _ Rl) | apply (g_reps _ G)].
  Qed.
End Sim.

(* what num_hosts / num_racks and Cassandra's two counts are the lengths of *)
Definition nodes_of (loc : topo_t) (hs : list Z) (d : Z) : list Z := dedup (hosts_in_dc loc d hs).
Definition racks_of (loc : topo_t) (hs : list Z) (d : Z) : list Z := dedup (map (rack_of loc) (hosts_in_dc loc d hs)).

Section Spec.
  Variable loc : topo_t.
  Variable dcs : list (Z * Z).
  Variable ring : ring_t.

  Local Notation hs := (map snd ring).
  (* Cassandra's two counts in the driver's terms: `lenZ (dc_endpoints loc ring d)` is `lenZ (nodes_of loc hs d)` by conversion (the
     proofs below `change` one into the other); the rack count differs by a dedup inside the map and needs rack_names_num *)
  Definition visit_d (d rf : Z) := dc_visit loc rf (nodes_of loc hs d) (racks_of loc hs d).

  Lemma rack_names_num : forall d, lenZ (dc_rack_names loc ring d) = lenZ (racks_of loc hs d).
  Proof. intros d. apply dedup_map_dedup_len. Qed.

  Lemma sufficient_all_dc : forall st d rf, sufficient_all loc dcs ring st = true -> assoc d dcs = Some rf ->
    dc_suff rf (nodes_of loc hs d) (dc_replicas (per_dc st d)) = true.
  Proof.
    intros st d rf Hall Ha. unfold sufficient_all in Hall. rewrite forallb_forall in Hall.
    specialize (Hall (d, rf) (assoc_In _ _ _ Ha)). cbn [fst] in Hall. rewrite Ha in Hall. exact Hall.
  Qed.

  Lemma readd_ops : forall (P : nts_state -> Prop) rf d, (forall st x, P st -> P (add_replica st d x)) ->
    forall sk st, P st -> P (readd_skipped loc ring rf d sk st).
  Proof.
    intros P rf d Hrep. induction sk as [|s sk IH]; intros st H; cbn [readd_skipped]; [assumption|].
    destruct (sufficient_dc loc ring rf d st); [assumption|]. apply IH, Hrep, H.
  Qed.

  (* Cassandra's loop body as an induction principle: all it does to the state is add_replica, add_seen_rack and add_skipped
     at the endpoint's datacenter *)
  Lemma visit_ops : forall (P : nts_state -> Prop) st ep,
    (forall st x, P st -> P (add_replica st (dc_of loc ep) x)) ->
    (forall st rk, P st -> P (add_seen_rack st (dc_of loc ep) rk)) ->
    (forall st x, P st -> P (add_skipped st (dc_of loc ep) x)) ->
    P st -> P (nts_visit loc dcs ring st ep).
  Proof.
    intros P st ep Hrep Hseen Hskip H. unfold nts_visit. set (d0 := dc_of loc ep) in *.
    destruct (sufficient_all loc dcs ring st); [assumption|].
    destruct (assoc d0 dcs) as [rf|]; [|assumption].
    destruct (sufficient_dc loc ring rf d0 st); [assumption|].
    destruct (lenZ (seen_racks (per_dc st d0)) =? _); [apply Hrep; assumption|].
    destruct (memZ (rack_of loc ep) _); [apply Hskip; assumption|].
    destruct (_ =? _); [apply readd_ops; [assumption|]|]; apply Hseen, Hrep, H.
  Qed.

  Lemma visit_other : forall st ep d, dc_of loc ep <> d -> per_dc (nts_visit loc dcs ring st ep) d = per_dc st d.
  Proof.
    intros st ep d Hd. apply (visit_ops (fun st' => per_dc st' d = per_dc st d)); try reflexivity;
      intros st' x <-; apply upd_other; congruence.
  Qed.

  Lemma visit_unknown : forall st ep, assoc (dc_of loc ep) dcs = None -> nts_visit loc dcs ring st ep = st.
  Proof. intros st ep Ea. unfold nts_visit. rewrite Ea. destruct (sufficient_all loc dcs ring st); reflexivity. Qed.

  Lemma readd_same : forall rf d sk st,
    per_dc (readd_skipped loc ring rf d sk st) d =
    {| dc_replicas := dc_readd rf (nodes_of loc hs d) sk (dc_replicas (per_dc st d));
       seen_racks := seen_racks (per_dc st d); skipped_eps := skipped_eps (per_dc st d) |}.
  Proof.
    induction sk as [|s sk IH]; intros st; cbn [readd_skipped dc_readd]; [destruct (per_dc st d); reflexivity|].
    change (sufficient_dc loc ring rf d st) with (dc_suff rf (nodes_of loc hs d) (dc_replicas (per_dc st d))).
    destruct (dc_suff rf (nodes_of loc hs d) (dc_replicas (per_dc st d))); [destruct (per_dc st d); reflexivity|].
    rewrite IH. unfold add_replica. cbn [per_dc]. rewrite upd_same. reflexivity.
  Qed.

  Lemma visit_same : forall st ep rf, assoc (dc_of loc ep) dcs = Some rf ->
    per_dc (nts_visit loc dcs ring st ep) (dc_of loc ep) = visit_d (dc_of loc ep) rf (per_dc st (dc_of loc ep)) ep.
  Proof.
    intros st ep rf Ea. unfold nts_visit, visit_d, dc_visit. set (d0 := dc_of loc ep) in *. rewrite Ea.
    destruct (sufficient_all loc dcs ring st) eqn:Eall; [rewrite (sufficient_all_dc st d0 rf Eall Ea); reflexivity|].
    change (sufficient_dc loc ring rf d0 st) with (dc_suff rf (nodes_of loc hs d0) (dc_replicas (per_dc st d0))).
    rewrite rack_names_num.
    destruct (dc_suff rf (nodes_of loc hs d0) (dc_replicas (per_dc st d0))); [reflexivity|].
    destruct (lenZ (seen_racks (per_dc st d0)) =? lenZ (racks_of loc hs d0)); [apply upd_same|].
    destruct (memZ (rack_of loc ep) (seen_racks (per_dc st d0))); [apply upd_same|].
    unfold add_seen_rack, add_replica. cbn [per_dc]. rewrite !upd_same. cbn [dc_replicas seen_racks skipped_eps].
    destruct (lenZ (set_add (rack_of loc ep) (seen_racks (per_dc st d0))) =? lenZ (racks_of loc hs d0));
      [rewrite readd_same|]; cbn [per_dc]; rewrite !upd_same; reflexivity.
  Qed.

  Lemma fold_per_dc : forall l st d,
    per_dc (fold_left (nts_visit loc dcs ring) l st) d =
    match assoc d dcs with
    | Some rf => fold_left (visit_d d rf) (hosts_in_dc loc d l) (per_dc st d)
    | None => per_dc st d
    end.
  Proof.
    unfold hosts_in_dc. induction l as [|ep l IH]; intros st d; cbn [fold_left filter]; [destruct (assoc d dcs); reflexivity|].
    rewrite IH. destruct (Z.eqb_spec (dc_of loc ep) d) as [<-|E]; [|rewrite visit_other by assumption; reflexivity].
    destruct (assoc (dc_of loc ep) dcs) as [rf|] eqn:Ea; [rewrite (visit_same st ep rf Ea) | rewrite visit_unknown by assumption]; reflexivity.
  Qed.

  Definition replicas_union (st : nts_state) : Prop :=
    forall h, In h (replicas st) <-> exists d, In h (dc_replicas (per_dc st d)).

  Lemma add_replica_union : forall st d ep, replicas_union st -> replicas_union (add_replica st d ep).
  Proof.
    intros st d ep HI h.
    assert (E : forall d', In h (dc_replicas (per_dc (add_replica st d ep) d')) <->
                           d' = d /\ h = ep \/ In h (dc_replicas (per_dc st d'))).
    { intros d'. unfold add_replica. cbn [per_dc]. destruct (Z.eq_dec d' d) as [->|Hd].
      - rewrite upd_same. cbn [dc_replicas]. rewrite set_add_In. tauto.
      - rewrite upd_other by assumption. tauto. }
    change (replicas (add_replica st d ep)) with (set_add ep (replicas st)). rewrite set_add_In, (HI h). split.
    - intros [->|[d' H]]; [exists d | exists d']; apply E; tauto.
    - intros [d' H]. apply E in H. destruct H as [[_ ->]|H]; [left; reflexivity | right; exists d'; assumption].
  Qed.

  Lemma same_replicas_union : forall st d s', replicas_union st -> dc_replicas s' = dc_replicas (per_dc st d) ->
    replicas_union {| replicas := replicas st; per_dc := upd (per_dc st) d s' |}.
  Proof.
    intros st d s' HI Hs h. cbn [replicas per_dc]. rewrite (HI h).
    assert (E : forall d', dc_replicas (upd (per_dc st) d s' d') = dc_replicas (per_dc st d')).
    { intros d'. destruct (Z.eq_dec d' d) as [->|Hd]; [rewrite upd_same; exact Hs | rewrite upd_other by assumption; reflexivity]. }
    split; intros [d' H]; exists d'; [rewrite E | rewrite <- E]; assumption.
  Qed.

  Lemma visit_union : forall st ep, replicas_union st -> replicas_union (nts_visit loc dcs ring st ep).
  Proof.
    intros st ep. apply visit_ops.
    - intros st' x. apply add_replica_union.
    - intros st' rk HI. apply same_replicas_union; [assumption | reflexivity].
    - intros st' x HI. apply same_replicas_union; [assumption | reflexivity].
  Qed.

  Lemma init_union : replicas_union nts_init.
  Proof. intros h. cbn. split; [tauto | intros [_ []]]. Qed.
End Spec.

Section Impl.
  Variable loc : topo_t.
  Variable rfs : list (Z * Z).
  Variable hs : list Z.

  (* the number of ring positions below k that hosts of d own: where dc_to_current_index[d] stands once row k is built *)
  Definition tokens_below (d : Z) (k : nat) : nat := length (hosts_in_dc loc d (firstn k hs)).

  Lemma offsets_length : forall d l b, length (offsets_from loc d b l) = length (hosts_in_dc loc d l).
  Proof.
    unfold hosts_in_dc. induction l as [|h t IH]; intros b; cbn [offsets_from filter]; [reflexivity|].
    destruct (dc_of loc h =? d); cbn [length]; rewrite IH; reflexivity.
  Qed.

  Lemma offsets_app : forall d l1 l2 b,
    offsets_from loc d b (l1 ++ l2) = offsets_from loc d b l1 ++ offsets_from loc d (b + length l1) l2.
  Proof.
    induction l1 as [|h t IH]; intros l2 b; cbn [app offsets_from length].
    - rewrite Nat.add_0_r. reflexivity.
    - rewrite IH. replace (S b + length t)%nat with (b + S (length t))%nat by lia.
      destruct (dc_of loc h =? d); reflexivity.
  Qed.

  Lemma offsets_range : forall d l b o, In o (offsets_from loc d b l) -> (b <= o < b + length l)%nat.
  Proof.
    induction l as [|h t IH]; intros b o Hin; cbn [offsets_from length] in *; [contradiction|].
    destruct (dc_of loc h =? d).
    - destruct Hin as [Hin|Hin]; [lia|]. apply IH in Hin. lia.
    - apply IH in Hin. lia.
  Qed.

  Lemma offsets_nth : forall d l pre post full, full = pre ++ l ++ post ->
    map (fun o => nth o full 0) (offsets_from loc d (length pre) l) = hosts_in_dc loc d l.
  Proof.
    intros d l pre post full ->. revert pre. unfold hosts_in_dc.
    induction l as [|h t IH]; intros pre; cbn [offsets_from filter]; [reflexivity|].
    assert (Hrec : map (fun o => nth o (pre ++ (h :: t) ++ post) 0) (offsets_from loc d (S (length pre)) t) = hosts_in_dc loc d t).
    { specialize (IH (pre ++ [h])). rewrite app_length, Nat.add_1_r, <- app_assoc in IH. exact IH. }
    destruct (dc_of loc h =? d); cbn [map]; [|exact Hrec].
    rewrite Hrec. cbn [app]. rewrite nth_middle. reflexivity.
  Qed.

  Lemma count_while_lt_app : forall A B k, (forall o, In o A -> (o < k)%nat) -> (forall o, In o B -> (k <= o)%nat) ->
    count_while_lt (A ++ B) k = length A.
  Proof.
    induction A as [|a A IH]; intros B k HA HB; cbn [app count_while_lt length].
    - destruct B as [|b B]; [reflexivity|]. cbn [count_while_lt].
      replace (Nat.ltb b k) with false; [reflexivity|]. symmetry. apply Nat.ltb_ge, HB. left. reflexivity.
    - replace (Nat.ltb a k) with true by (symmetry; apply Nat.ltb_lt, HA; left; reflexivity).
      rewrite IH; [reflexivity | intros o Ho; apply HA; right; assumption | assumption].
  Qed.

  Lemma visited_eq : forall d k p, (k <= length hs)%nat -> (p <= tokens_below d k)%nat ->
    let offs := offsets_from loc d 0 hs in
    advance offs p k = tokens_below d k /\
    map (fun o => nth o hs 0) (rot (tokens_below d k) offs) = hosts_in_dc loc d (rot k hs).
  Proof.
    intros d k p Hk Hp offs.
    set (A := offsets_from loc d 0 (firstn k hs)).
    set (B := offsets_from loc d (length (firstn k hs)) (skipn k hs)).
    (* A: the offsets below k, B: those from k on; advancing from anywhere in A stops at the head of B *)
    assert (Hoffs : offs = A ++ B).
    { unfold offs. rewrite <- (firstn_skipn k hs) at 1. exact (offsets_app d (firstn k hs) (skipn k hs) 0). }
    assert (HlenA : length A = tokens_below d k) by (unfold A, tokens_below; apply offsets_length).
    assert (Hfl : length (firstn k hs) = k) by (rewrite firstn_length; lia).
    split.
    - unfold advance. rewrite Hoffs, skipn_app_le by lia.
      rewrite count_while_lt_app.
      + rewrite skipn_length. lia.
      + intros o Ho.
        assert (HoA : In o A) by (rewrite <- (firstn_skipn p A); apply in_or_app; right; assumption).
        apply offsets_range in HoA. lia.
      + intros o Ho. apply offsets_range in Ho. lia.
    - unfold hosts_in_dc at 1. rewrite Hoffs, <- HlenA, rot_app_length, map_app. unfold rot. rewrite filter_app. f_equal.
      + apply offsets_nth with (post := []). rewrite app_nil_r. symmetry. apply firstn_skipn.
      + apply (offsets_nth d (firstn k hs) [] (skipn k hs)). symmetry. apply firstn_skipn.
  Qed.

  Lemma tokens_below_mono : forall d k, (tokens_below d k <= tokens_below d (S k))%nat.
  Proof.
    intros d k. unfold tokens_below, hosts_in_dc. revert k. induction hs as [|h t IH]; intros k.
    - rewrite !firstn_nil. lia.
    - destruct k as [|k]; [rewrite firstn_O; cbn [filter length]; lia|].
      rewrite !firstn_cons. cbn [filter]. specialize (IH k). destruct (dc_of loc h =? d); cbn [length]; lia.
  Qed.

  (* the replicas one pass from ring position k leaves in datacenter d, in Cassandra's formulation; the driver's rows are made of these *)
  Definition dc_pass (k : nat) (d : Z) : list Z :=
    match dc_rf rfs d with
    | Some r => dc_replicas (fold_left (dc_visit loc r (nodes_of loc hs d) (racks_of loc hs d)) (hosts_in_dc loc d (rot k hs)) ds0)
    | None => []
    end.

  Lemma nodes_of_In : forall d h, In h (nodes_of loc hs d) <-> In h hs /\ dc_of loc h = d.
  Proof. intros. unfold nodes_of, hosts_in_dc. rewrite dedup_In, filter_In, Z.eqb_eq. reflexivity. Qed.

  Lemma dc_rf_some : forall d r, dc_rf rfs d = Some r <-> assoc d rfs = Some r /\ 0 < r.
  Proof.
    intros. unfold dc_rf. destruct (assoc d rfs) as [r'|]; [|split; [discriminate | intros [H _]; discriminate]].
    destruct (0 <? r') eqn:E.
    - apply Z.ltb_lt in E. split; [intros H; inversion H; subst; split; [reflexivity | assumption] | intros [H _]; assumption].
    - apply Z.ltb_ge in E. split; [discriminate | intros [H Hr]; inversion H; subst; lia].
  Qed.

  Lemma dc_pass_sim : forall d r k R, dc_rf rfs d = Some r -> (forall h, In h R -> dc_of loc h <> d) ->
    n_replicas (fold_left (nts_step true loc (num_racks loc d hs) (num_hosts loc d hs)) (hosts_in_dc loc d (rot k hs))
       (nst0 R r)) = R ++ dc_pass k d
    /\ within (dc_pass k d) (nodes_of loc hs d).
  Proof.
    intros d r k R Hr HR. unfold dc_pass. rewrite Hr. apply dc_rf_some in Hr.
    assert (Hracks : forall h, In h (nodes_of loc hs d) -> In (rack_of loc h) (racks_of loc hs d)).
    { intros h Hh. apply (proj1 (dedup_In _ _)) in Hh. apply dedup_In, in_map, Hh. }
    assert (Hout : forall h, In h (nodes_of loc hs d) -> ~ In h R).
    { intros h Hh Hin. apply nodes_of_In in Hh. apply (HR h Hin), Hh. }
    assert (Hr0 : 0 <= r) by lia.
    assert (Hvis : forall h, In h (hosts_in_dc loc d (rot k hs)) -> In h (nodes_of loc hs d)).
    { intros h Hh. apply filter_In in Hh. destruct Hh as [Hh Hd]. apply nodes_of_In.
      split; [apply (rot_In k hs); assumption | apply Z.eqb_eq; assumption]. }
    exact (pass_sim loc r (nodes_of loc hs d) (racks_of loc hs d) Hracks R Hout _ Hr0 Hvis).
  Qed.

  Lemma pass_facts : forall k d, NoDup (dc_pass k d) /\ forall h, In h (dc_pass k d) -> In h hs /\ dc_of loc h = d.
  Proof.
    intros k d. destruct (dc_rf rfs d) as [r|] eqn:Hr.
    - destruct (dc_pass_sim d r k [] Hr) as [_ [Hnd Hin]]; [intros h []|].
      split; [assumption|]. intros h Hh. apply nodes_of_In, Hin. assumption.
    - unfold dc_pass. rewrite Hr. split; [constructor | intros h []].
  Qed.

  Definition nts_row (k : nat) : list Z := concat (map (dc_pass k) (dc_keys loc hs)).
  (* dc_to_current_index is never past the first offset >= k *)
  Definition cur_ok (k : nat) (cur : Z -> nat) : Prop := forall d, (cur d <= tokens_below d k)%nat.

  Lemma nts_dc_pass : forall k cur R d, (k <= length hs)%nat -> cur_ok k cur -> (forall h, In h R -> dc_of loc h <> d) ->
    exists cur', nts_dc true loc rfs hs k (cur, R) d = (cur', R ++ dc_pass k d) /\ cur_ok k cur'.
  Proof.
    intros k cur R d Hk Hc HR. unfold nts_dc. destruct (dc_rf rfs d) as [r|] eqn:Hr.
    - destruct (visited_eq d k (cur d) Hk (Hc d)) as [Hadv Hvis].
      exists (upd cur d (tokens_below d k)). rewrite Hadv, Hvis. split.
      + f_equal. apply (dc_pass_sim d r k R Hr HR).
      + intros d'. unfold upd. destruct (Z.eqb_spec d' d) as [->|]; [lia | apply Hc].
    - exists cur. unfold dc_pass. rewrite Hr, app_nil_r. split; [reflexivity | assumption].
  Qed.

  Lemma nts_dcs_pass : forall k ds cur R, (k <= length hs)%nat -> cur_ok k cur ->
    NoDup ds -> (forall h, In h R -> ~ In (dc_of loc h) ds) ->
    exists cur', fold_left (nts_dc true loc rfs hs k) ds (cur, R) = (cur', R ++ concat (map (dc_pass k) ds)) /\ cur_ok k cur'.
  Proof.
    induction ds as [|d ds IH]; intros cur R Hk Hc Hn HR; cbn [fold_left map concat].
    - exists cur. rewrite app_nil_r. split; [reflexivity | assumption].
    - apply NoDup_cons_iff in Hn. destruct Hn as [Hd Hn].
      destruct (nts_dc_pass k cur R d Hk Hc) as [cur1 [E1 Hc1]].
      { intros h Hh E. apply (HR h Hh). left. symmetry. exact E. }
      rewrite E1, app_assoc. apply IH; try assumption.
      intros h Hh Hin. apply in_app_or in Hh. destruct Hh as [Hh|Hh].
      + apply (HR h Hh). right. assumption.
      + apply (proj2 (pass_facts k d)) in Hh. destruct Hh as [_ <-]. contradiction.
  Qed.

  Lemma nts_rows_pass : forall m a cur, (a + m <= length hs)%nat -> cur_ok a cur ->
    nts_rows true loc rfs hs (seq a m) cur = map nts_row (seq a m).
  Proof.
    induction m as [|m IH]; intros a cur Hlen Hc; cbn [seq nts_rows map]; [reflexivity|].
    destruct (nts_dcs_pass a (dc_keys loc hs) cur [] ltac:(lia) Hc (dedup_NoDup _)) as [cur' [E Hc']]; [intros h []|].
    rewrite E. f_equal. apply IH; [lia|].
    intros d. specialize (Hc' d). pose proof (tokens_below_mono d a). lia.
  Qed.
End Impl.

Lemma nts_map_rows : forall loc rfs ring,
  nts_map_gen true loc rfs ring = combine (map fst ring) (map (nts_row loc rfs (map snd ring)) (seq 0 (length ring))).
Proof.
  intros. unfold nts_map_gen. rewrite nts_rows_pass; [reflexivity | rewrite map_length; lia | intros d; unfold tokens_below; cbn; lia].
Qed.

Section Row.
  Variable loc : topo_t.
  Variable rfs : list (Z * Z).
  Variable ring : ring_t.
  Variable t : Z.
  Let hs := map snd ring.
  Let k := first_token_index ring t.
  Let final := fold_left (nts_visit loc rfs ring) (map snd (ring_iterator ring t)) (nts_init).

  Lemma pass_spec : forall d, dc_pass loc rfs hs k d = dc_replicas (per_dc final d).
  Proof.
    intros d. unfold final. rewrite fold_per_dc.
    unfold dc_pass, dc_rf, ring_iterator. rewrite map_rot. destruct (assoc d rfs) as [r|]; [|reflexivity].
    unfold visit_d.
    destruct (0 <? r) eqn:E; [reflexivity|]. apply Z.ltb_ge in E.
    (* r <= 0: the driver drops the datacenter (dc_rf = None), Cassandra keeps it and finds it sufficient at once *)
    rewrite dc_visit_suff; [reflexivity|]. apply Z.leb_le. cbn. lia.
  Qed.

  Lemma row_correct : NoDup (nts_row loc rfs hs k) /\ forall h, In h (nts_row loc rfs hs k) <-> In h (nts_spec loc rfs ring t).
  Proof.
    split.
    - apply (NoDup_concat_keys (fun d => d) (dc_of loc)); [rewrite map_id; apply dedup_NoDup | intros d _; apply (proj1 (pass_facts loc rfs hs k d))|].
      intros d h _ Hh. apply (proj2 (pass_facts loc rfs hs k d)) in Hh. apply Hh.
    - pose proof (fold_left_inv _ _ (visit_union loc rfs ring) _ _ init_union : replicas_union final) as HI.
      intros h. unfold nts_spec. fold final. rewrite (HI h). unfold nts_row. rewrite in_concat. split.
      + intros [l [Hl Hin]]. apply in_map_iff in Hl. destruct Hl as [d [<- _]]. exists d. rewrite <- pass_spec. exact Hin.
      + intros [d Hin]. rewrite <- pass_spec in Hin. exists (dc_pass loc rfs hs k d). split; [|assumption].
        apply in_map, dedup_In. apply (proj2 (pass_facts loc rfs hs k d)) in Hin. destruct Hin as [Hh <-]. apply in_map. assumption.
  Qed.
End Row.
