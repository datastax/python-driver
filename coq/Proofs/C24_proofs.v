(* C24: the exponential schedule's running value `raw` (double until max is passed) clamps to the closed form `curve`. *)
From Coq Require Import QArith Qminmax Qpower ZArith List Bool Lqa.
From Verif Require Import Reconnect.
Local Open Scope Q_scope.

Lemma limited_some {A} n (item : nat -> A) i : (i < n)%nat -> limited (Some n) item i = Some (item i).
Proof. intros H%Nat.ltb_lt. unfold limited. rewrite H. reflexivity. Qed.
Lemma limited_unbounded {A} (item : nat -> A) i : limited None item i = Some (item i).
Proof. reflexivity. Qed.

(* number of items an iterator yields = the least index where it is exhausted *)
Lemma limited_length {A} n (item : nat -> A) i : limited (Some n) item i = None <-> (n <= i)%nat.
Proof. unfold limited. rewrite <- Nat.ltb_ge. now destruct (i <? n)%nat. Qed.

Lemma limited_item {A} ma (item : nat -> A) i d : limited ma item i = Some d -> d = item i.
Proof. unfold limited. destruct ma as [n|]; [destruct (i <? n)%nat|]; congruence. Qed.

Lemma add_jitter_bounds base max j v : base <= max -> base <= add_jitter base max j v /\ add_jitter base max j v <= max.
Proof.
  intros Hbm. unfold add_jitter. split; [apply Q.min_glb; [apply Q.le_max_l|assumption]|apply Q.le_min_r].
Qed.

Lemma pow2_succ k : (2 # 1) ^ Z.of_nat (S k) == (2 # 1) ^ Z.of_nat k * (2 # 1).
Proof. rewrite Nat2Z.inj_succ. unfold Z.succ. rewrite Qpower_plus by discriminate. reflexivity. Qed.

Lemma pow2_ge_1 i : 1 <= (2 # 1) ^ Z.of_nat i.
Proof. apply Qpower_1_le; [discriminate|apply Nat2Z.is_nonneg]. Qed.

Lemma raw_doubling_or_saturated base max i : 0 <= base ->
  raw base max i == base * (2 # 1) ^ (Z.of_nat i) \/ (max <= raw base max i /\ max <= base * (2 # 1) ^ (Z.of_nat i)).
Proof.
  intros Hb. induction i as [|k IH].
  - left. cbn. lra.
  - pose proof (pow2_ge_1 k) as Hp. rewrite pow2_succ. cbn [raw].
    destruct (Qlt_le_dec (raw base max k) max) as [Hlt|Hge].
    + destruct IH as [E|[H1 _]]; [|lra]. left. rewrite E. ring.
    + right. split; [assumption|]. apply Qle_trans with (base * (2 # 1) ^ Z.of_nat k).
      * destruct IH as [E|[_ H2]]; [rewrite <- E|]; assumption.
      * nra.
Qed.

Lemma raw_curve base max i : 0 <= base -> Qmin (raw base max i) max == curve base max i.
Proof.
  intros Hb. unfold curve. destruct (raw_doubling_or_saturated base max i Hb) as [E|[H1 H2]].
  - rewrite E. reflexivity.
  - rewrite (Q.min_r _ _ H1), (Q.min_r _ _ H2). reflexivity.
Qed.

Lemma curve_bounds base max i : 0 <= base -> base <= max -> base <= curve base max i /\ curve base max i <= max.
Proof.
  intros Hb Hbm. unfold curve. pose proof (pow2_ge_1 i) as Hp.
  split; [apply Q.min_glb; [nra|assumption]|apply Q.le_min_r].
Qed.

Lemma jitter_band (j : Z) (c : Q) : (85 <= j <= 115)%Z -> 0 <= c ->
  (85 # 100) * c <= (inject_Z j * c) / (100 # 1) /\ (inject_Z j * c) / (100 # 1) <= (115 # 100) * c.
Proof.
  intros [Hl Hu] Hc. rewrite Zle_Qle in Hl, Hu.
  change (inject_Z 85) with (85 # 1) in Hl. change (inject_Z 115) with (115 # 1) in Hu.
  unfold Qdiv. change (/ (100 # 1)) with (1 # 100). split; nra.
Qed.

Lemma exp_item_spec base max jit i : 0 <= base ->
  exp_item base max jit i == Qmin (Qmax base ((inject_Z (jit i) * curve base max i) / (100 # 1))) max.
Proof.
  intros Hb. unfold exp_item, add_jitter. rewrite (raw_curve base max i Hb). reflexivity.
Qed.

Lemma handler_run_all_fail : forall sched k,
  handler_run sched (repeat AFail k) = firstn k sched.
Proof.
  induction sched as [|d r IH]; intros k; destruct k as [|k]; try reflexivity.
  cbn [repeat handler_run firstn]. rewrite IH. reflexivity.
Qed.

Lemma handler_all_fail d0 r k : handler (d0 :: r) (repeat AFail k) = Some (firstn (S k) (d0 :: r)).
Proof. cbn [handler firstn]. rewrite handler_run_all_fail. reflexivity. Qed.
