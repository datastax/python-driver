(* C30, one BoundStatement over time (Model/BindHistory.v): bind_exec is bind plus the bookkeeping of self.values;
   the cached routing key is carried through a history by an invariant. *)
From Coq Require Import ZArith List Bool.
From Verif Require Import Bind BindHistory ListFacts.
Import ListNotations.
Local Open Scope Z_scope.

Section HistProofs.
  Variable V : Type.
  Variable ser : nat -> V -> option (list Z).
  Variable names : list Z.
  Variable pk_idx : list nat.
  Variable pv : Z.

  Notation step := (step V ser names pk_idx pv).
  Notation read_key := (read_key pk_idx).
  Notation bind := (Bind.bind V ser names pk_idx pv).
  Notation bind_exec := (bind_exec V ser names pk_idx pv).
  Notation run := (run_with V step).

  Lemma bind_loop_p_spec : forall vs i,
    bind_loop V ser pk_idx pv i vs =
    match bind_loop_p V ser pk_idx pv i vs with (ws, None) => inr ws | (_, Some e) => inl e end.
  Proof.
    induction vs as [|v vs IH]; intros i; cbn [bind_loop bind_loop_p]; [reflexivity|].
    destruct (bind_one V ser pk_idx pv i v); [reflexivity|]. rewrite IH.
    destruct (bind_loop_p V ser pk_idx pv (S i) vs) as [ws [e|]]; reflexivity.
  Qed.

  Lemma fill_unset_p_spec : forall n i,
    fill_unset pk_idx i n = match fill_unset_p pk_idx i n with (ws, None) => inr ws | (_, Some e) => inl e end.
  Proof.
    induction n as [|n IH]; intros i; cbn [fill_unset fill_unset_p]; [reflexivity|].
    destruct (append_unset pk_idx i); [reflexivity|]. rewrite IH.
    destruct (fill_unset_p pk_idx (S i) n) as [ws [e|]]; reflexivity.
  Qed.

  (* a bind() that raised before `self.values = []` left them as they were; one that got that far ends as bind says *)
  Inductive agrees (b : berr + list wval) (old : list wval) : option berr * list wval * bool -> Prop :=
  | agrees_early : forall x, b = inl x -> agrees b old (Some x, old, false)
  | agrees_touched : forall e vals, b = match e with None => inr vals | Some x => inl x end -> agrees b old (e, vals, true).

  Lemma bind_exec_values_spec : forall vs old,
    agrees (bind_values V ser names pk_idx pv vs) old (bind_exec_values V ser names pk_idx pv vs old).
  Proof.
    intros vs old. unfold bind_values, bind_exec_values.
    destruct (length names <? length vs)%nat; [apply agrees_early; reflexivity|].
    destruct (_ && _ && _); [apply agrees_early; reflexivity|].
    rewrite bind_loop_p_spec. destruct (bind_loop_p V ser pk_idx pv 0 vs) as [ws [x|]]; [apply agrees_touched; reflexivity|].
    destruct (4 <=? pv); [|apply agrees_touched; reflexivity]. rewrite fill_unset_p_spec.
    destruct (fill_unset_p pk_idx (length vs) (length names - length vs)) as [us [x|]]; apply agrees_touched; reflexivity.
  Qed.

  Lemma bind_exec_spec : forall inp old, agrees (bind inp) old (bind_exec inp old).
  Proof.
    intros [vs|d] old; cbn [Bind.bind BindHistory.bind_exec]; [apply bind_exec_values_spec|].
    destruct (dict_to_list V pv d names); [apply agrees_early; reflexivity|apply bind_exec_values_spec].
  Qed.

  Lemma bind_exec_ok : forall inp old ws, bind inp = inr ws -> bind_exec inp old = (None, ws, true).
  Proof. intros inp old ws H. destruct (bind_exec_spec inp old) as [x E|[x|] vals E]; congruence. Qed.

  Lemma step_read : forall s,
    step s ORead = (fst (read_key s), ObsRead (snd (read_key s)) (st_values (fst (read_key s)))).
  Proof. intro s. unfold BindHistory.step, step_gen. destruct (read_key s); reflexivity. Qed.

  Lemma step_explicit : forall s o, st_explicit (fst (step s o)) = st_explicit s.
  Proof.
    intros s [inp|].
    - unfold BindHistory.step, step_gen. destruct (bind_exec inp (st_values s)) as [[e vals] touched]. reflexivity.
    - rewrite step_read. cbn [fst]. unfold BindHistory.read_key. destruct pk_idx; [reflexivity|].
      destruct (st_explicit s) eqn:E; [exact E|]. destruct (st_cache s); [exact E|].
      destruct (routing_key _ _); cbn; congruence.
  Qed.

  Lemma run_fold : forall ops s, fst (run s ops) = fold_left (fun s o => fst (step s o)) ops s.
  Proof.
    induction ops as [|o ops IH]; intros s; cbn [run_with fold_left]; [reflexivity|].
    rewrite <- IH. destruct (step s o) as [s1 ob]. cbn [fst]. destruct (run s1 ops). reflexivity.
  Qed.

  Definition cache_ok (s : bstate) : Prop :=
    forall k, st_cache s = Some k -> routing_key pk_idx (st_values s) = RkBytes k.

  (* an explicit key short-circuits read_key; the rebind theorem is about statements without one *)
  Definition derived_inv (s : bstate) : Prop := cache_ok s /\ st_explicit s = None.

  Lemma derived_inv_init : derived_inv (init None).
  Proof. split; [intros k H; discriminate|reflexivity]. Qed.

  Lemma read_key_spec : forall s, derived_inv s ->
    snd (read_key s) = routing_key pk_idx (st_values s) /\
    st_values (fst (read_key s)) = st_values s /\ derived_inv (fst (read_key s)).
  Proof.
    intros s [Hc He]. unfold derived_inv, cache_ok in *. unfold BindHistory.read_key. destruct pk_idx as [|i idx] eqn:Ei.
    - cbn. repeat split; auto.
    - rewrite He. destruct (st_cache s) as [k|] eqn:Ec.
      + cbn [fst snd]. rewrite (Hc k eq_refl). repeat split; auto. intros k0 Hk0. congruence.
      + (* nothing cached: the key is computed, and cached only if there is one (third case) *)
        destruct (routing_key (i :: idx) (st_values s)) as [| |k] eqn:Er; cbn [fst snd st_values st_cache st_explicit];
          repeat split; auto; intros k' Hk; [congruence|congruence|].
        injection Hk as <-. exact Er.
  Qed.

  Lemma step_inv : forall s o, derived_inv s -> derived_inv (fst (step s o)).
  Proof.
    intros s o Hi. destruct o as [inp|]; [|rewrite step_read; apply read_key_spec, Hi].
    split; [|rewrite step_explicit; apply Hi]. unfold BindHistory.step, step_gen.
    (* the old derived key survives only a bind() that did not touch self.values *)
    destruct (bind_exec_spec inp (st_values s)) as [x _|e vals _]; intros k Hk; [apply Hi, Hk|discriminate].
  Qed.

  Lemma run_inv : forall ops s, derived_inv s -> derived_inv (fst (run s ops)).
  Proof. intros ops s. rewrite run_fold. revert s. apply fold_left_inv. intros s o. apply step_inv. Qed.

  Lemma reads_keep : forall n s, derived_inv s ->
    derived_inv (fst (run s (repeat ORead n))) /\ st_values (fst (run s (repeat ORead n))) = st_values s.
  Proof.
    intros n s. rewrite run_fold. revert s. induction n as [|n IH]; intros s Hi; cbn [repeat fold_left]; [auto|].
    rewrite step_read. cbn [fst]. destruct (read_key_spec s Hi) as (_ & Hv & Hi'). rewrite <- Hv. apply IH, Hi'.
  Qed.

  Lemma rebind_from : forall s0 inp ws n, derived_inv s0 -> bind inp = inr ws ->
    let s1 := fst (step s0 (OBind inp)) in
    let s2 := fst (run s1 (repeat ORead n)) in
    snd (step s2 ORead) = ObsRead (routing_key pk_idx ws) ws.
  Proof.
    intros s0 inp ws n H0 Hb s1 s2.
    assert (st_values s1 = ws) as Hv1.
    { unfold s1, BindHistory.step, step_gen. rewrite (bind_exec_ok inp (st_values s0) ws Hb). reflexivity. }
    destruct (reads_keep n s1 (step_inv _ _ H0)) as [H2 Hv2]. fold s2 in H2, Hv2.
    rewrite step_read. cbn [snd]. destruct (read_key_spec s2 H2) as (Hr & Hv & _).
    rewrite Hr, Hv, Hv2, Hv1. reflexivity.
  Qed.

  Lemma explicit_from : forall s ops k, pk_idx <> [] -> st_explicit s = Some k ->
    let s' := fst (run s ops) in
    st_explicit s' = Some k /\ snd (read_key s') = RkBytes k.
  Proof.
    intros s ops k Hne H0. cbn zeta.
    assert (st_explicit (fst (run s ops)) = Some k) as Hs
      by (rewrite run_fold, (fold_left_const _ st_explicit step_explicit); exact H0).
    split; [exact Hs|]. unfold BindHistory.read_key. destruct pk_idx; [congruence|]. rewrite Hs. reflexivity.
  Qed.
End HistProofs.
