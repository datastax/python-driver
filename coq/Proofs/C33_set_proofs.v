(* C33: SortedSet.  Every operation is analysed on the list cut at the insertion point: s = l1 ++ l2, `< x` holds
   throughout l1 and nowhere in l2, and _find_insertion returns length l1.  Every loop that builds a set (update, union,
   _intersect, _diff) is `update` with some list, so that update_spec is the one induction over add_spec. *)
From Coq Require Import ZArith List Bool Arith Lia Sorted SetoidList.
From Verif Require Import ListFacts SortedSet.
Import ListNotations.

Section SetProofs.
  Variable A : Type.
  Variable ltb eqb : A -> A -> bool.
  (* closed, a lemma keeps only the laws its proof uses: find_loop_spec none, find_insertion_spec ltb_trans, Inv_NoDup ltb_irrefl,
     sorted_ext these two; ltb_total enters at insert_mid_spec *)
  Hypothesis ltb_irrefl : forall x, ltb x x = false.
  Hypothesis ltb_trans : forall x y z, ltb x y = true -> ltb y z = true -> ltb x z = true.
  Hypothesis ltb_total : forall x y, ltb x y = false -> ltb y x = false -> x = y.
  Hypothesis eqb_spec : forall x y, eqb x y = true <-> x = y.

  Notation Inv := (Inv A ltb).
  Notation find_loop := (find_loop A ltb).
  Notation find_insertion := (find_insertion A ltb).
  Notation fi := (fi A ltb).
  Notation contains := (contains A ltb eqb).
  Notation add := (add A ltb eqb).
  Notation remove := (remove A ltb eqb).
  Notation update := (update A ltb eqb).
  Notation of_list := (of_list A ltb eqb).
  Notation operand := (operand A).
  Notation operand_items := (operand_items A ltb eqb).
  Notation operand_mem := (operand_mem A ltb eqb).
  Notation intersect_ := (intersect_ A ltb eqb).
  Notation diff_ := (diff_ A ltb eqb).
  Notation is_set_of := (is_set_of A ltb).

  Definition cut_at (x : A) (l1 l2 : list A) : Prop :=
    Forall (fun v => ltb v x = true) l1 /\ Forall (fun v => ltb v x = false) l2.

  Lemma eqbP : forall x y, reflect (x = y) (eqb x y).
  Proof. intros x y. apply iff_reflect. symmetry. apply eqb_spec. Qed.

  Lemma insert_at_cut : forall (l1 l2 : list A) x, insert_at A (length l1) x (l1 ++ l2) = l1 ++ x :: l2.
  Proof. intros l1 l2 x. unfold insert_at. rewrite firstn_app_len, skipn_app_len. reflexivity. Qed.

  Lemma remove_at_cut : forall (l1 : list A) v t, SortedSet.remove_at A (length l1) (l1 ++ v :: t) = l1 ++ t.
  Proof. intros l1 v t. unfold SortedSet.remove_at. rewrite firstn_app_len, skipn_S_app_len. reflexivity. Qed.

  Lemma cut_side : forall x l1 l2 j v, cut_at x l1 l2 -> nth_error (l1 ++ l2) j = Some v ->
    ltb v x = (j <? length l1).
  Proof.
    intros x l1 l2 j v [F1 F2] Hn. rewrite Forall_forall in F1, F2.
    destruct (Nat.ltb_spec j (length l1)) as [L|L].
    - rewrite nth_error_app1 in Hn by exact L. exact (F1 v (nth_error_In _ _ Hn)).
    - rewrite nth_error_app2 in Hn by exact L. exact (F2 v (nth_error_In _ _ Hn)).
  Qed.

  Lemma find_loop_spec : forall fuel a x lo hi,
    lo <= hi -> hi <= length a -> hi - lo < fuel ->
    exists i, find_loop fuel a x lo hi = Some i /\ lo <= i <= hi /\
      forall l1 l2, a = l1 ++ l2 -> cut_at x l1 l2 -> lo <= length l1 <= hi -> i = length l1.
  Proof.
    induction fuel as [|f IH]; intros a x lo hi H1 H2 H3; [lia|].
    cbn [SortedSet.find_loop]. destruct (Nat.ltb_spec lo hi) as [E|E].
    - set (mid := (lo + hi) / 2).
      assert (lo <= mid) as Hm1 by (apply Nat.div_le_lower_bound; lia).
      assert (mid < hi) as Hm2 by (apply Nat.div_lt_upper_bound; lia).
      destruct (nth_error a mid) as [v|] eqn:Hn; [|apply nth_error_None in Hn; lia].
      destruct (ltb v x) eqn:Hv.
      + destruct (IH a x (S mid) hi Hm2 H2 ltac:(lia)) as (i & Hi & Hb & Hcut).
        exists i. split; [exact Hi|]. split; [lia|].
        intros l1 l2 -> F Hl. apply (Hcut l1 l2 eq_refl F).
        rewrite (cut_side x l1 l2 mid v F Hn) in Hv. apply Nat.ltb_lt in Hv. lia.
      + destruct (IH a x lo mid Hm1 ltac:(lia) ltac:(lia)) as (i & Hi & Hb & Hcut).
        exists i. split; [exact Hi|]. split; [lia|].
        intros l1 l2 -> F Hl. apply (Hcut l1 l2 eq_refl F).
        rewrite (cut_side x l1 l2 mid v F Hn) in Hv. apply Nat.ltb_ge in Hv. lia.
    - exists lo. split; [reflexivity|]. split; lia.
  Qed.

  Lemma Inv_cons : forall a l, Inv (a :: l) <-> Inv l /\ forall v, In v l -> ltb a v = true.
  Proof.
    intros a l. rewrite <- Forall_forall. split; [apply StronglySorted_inv|intros [H1 H2]; constructor; assumption].
  Qed.

  Lemma Inv_mid : forall l1 x l2, Inv (l1 ++ x :: l2) <->
    Inv (l1 ++ l2) /\ Forall (fun u => ltb u x = true) l1 /\ Forall (fun w => ltb x w = true) l2.
  Proof.
    induction l1 as [|a l1 IH]; intros x l2; cbn [app]; rewrite !Inv_cons, <- ?Forall_forall.
    - split; [intros [H1 H2]; auto|intros (H1 & _ & H2); auto].
    - rewrite IH, !Forall_app, !Forall_cons_iff. tauto.
  Qed.

  Lemma Inv_NoDup : forall s, Inv s -> NoDup s.
  Proof.
    induction s as [|a s IH]; intro H; [constructor|].
    apply Inv_cons in H. destruct H as [H1 H2]. constructor; [|apply IH; exact H1].
    intro Hin. specialize (H2 a Hin). rewrite ltb_irrefl in H2. discriminate.
  Qed.

  Lemma sorted_ext : forall s t, Inv s -> Inv t -> (forall y, In y s <-> In y t) -> s = t.
  Proof.
    intros s t Hs Ht E.
    assert (StrictOrder (elt_lt A ltb)) as SO.
    { split; [intros x H; unfold elt_lt in H; rewrite ltb_irrefl in H; discriminate|intros x y z; apply ltb_trans]. }
    assert (eqlistA eq s t) as H.
    { apply (SortA_equivlistA_eqlistA eq_equivalence SO);
        [intros ? ? -> ? ? ->; reflexivity|apply StronglySorted_Sorted, Hs|apply StronglySorted_Sorted, Ht|].
      intro y. rewrite !InA_alt. split; intros (z & -> & Hz); exists z; (split; [reflexivity|apply E, Hz]). }
    clear - H. induction H; congruence.
  Qed.

  Lemma sorted_cut : forall a x, Inv a -> exists l1 l2, a = l1 ++ l2 /\ cut_at x l1 l2.
  Proof.
    induction a as [|h a IH]; intros x HI; [exists [], []; repeat constructor|].
    apply Inv_cons in HI. destruct HI as [HI Hh]. destruct (ltb h x) eqn:E.
    - destruct (IH x HI) as (l1 & l2 & -> & F1 & F2). exists (h :: l1), l2.
      split; [reflexivity|]. split; [constructor; assumption|exact F2].
    - exists [], (h :: a). repeat split; [constructor|]. constructor; [exact E|].
      apply Forall_forall. intros v Hv. destruct (ltb v x) eqn:Ev; [|reflexivity].
      rewrite (ltb_trans h v x (Hh v Hv) Ev) in E. discriminate.
  Qed.

  Lemma find_insertion_cut : forall a x, Inv a ->
    exists l1 l2, a = l1 ++ l2 /\ find_insertion a x = Some (length l1) /\ cut_at x l1 l2.
  Proof.
    intros a x HI. destruct (sorted_cut a x HI) as (l1 & l2 & E & F). exists l1, l2.
    destruct (find_loop_spec (S (length a)) a x 0 (length a)) as (i & Hi & _ & Hcut); try lia.
    rewrite (Hcut l1 l2 E F) in Hi; [auto|]. subst a. rewrite app_length. lia.
  Qed.

  Lemma find_insertion_spec : forall a x, Inv a ->
    exists i, find_insertion a x = Some i /\ i <= length a /\
      (forall j v, j < i -> nth_error a j = Some v -> ltb v x = true) /\
      (forall j v, i <= j -> nth_error a j = Some v -> ltb v x = false).
  Proof.
    intros a x HI. destruct (find_insertion_cut a x HI) as (l1 & l2 & -> & Hi & F). exists (length l1).
    split; [exact Hi|]. split; [rewrite app_length; lia|].
    split; intros j v Hj Hn; rewrite (cut_side x l1 l2 j v F Hn); [apply Nat.ltb_lt|apply Nat.ltb_ge]; exact Hj.
  Qed.

  Lemma fi_cut : forall a x, Inv a ->
    exists l1 l2, a = l1 ++ l2 /\ fi a x = length l1 /\ cut_at x l1 l2.
  Proof.
    intros a x HI. destruct (find_insertion_cut a x HI) as (l1 & l2 & E & Hi & F). exists l1, l2.
    unfold SortedSet.fi. rewrite Hi. auto.
  Qed.

  Lemma cut_mem : forall l1 l2 x, Inv (l1 ++ l2) -> cut_at x l1 l2 ->
    (In x (l1 ++ l2) <-> hd_error l2 = Some x).
  Proof.
    intros l1 l2 x HI [F1 F2]. rewrite Forall_forall in F1. split.
    - intro H. apply in_app_or in H. destruct H as [H|H].
      + specialize (F1 x H). rewrite ltb_irrefl in F1. discriminate.
      + destruct l2 as [|v t]; [destruct H|]. destruct H as [->|H]; [reflexivity|].
        (* x further right would be above v, but v is not below x *)
        apply Inv_mid in HI. destruct HI as (_ & _ & Hv). rewrite Forall_forall in Hv.
        apply Forall_inv in F2. rewrite (Hv x H) in F2. discriminate.
    - destruct l2 as [|v t]; [discriminate|]. intros [= ->]. apply in_or_app. right. left. reflexivity.
  Qed.

  Lemma is_set_of_ext : forall r (P Q : A -> Prop), is_set_of r P -> (forall y, P y <-> Q y) -> is_set_of r Q.
  Proof. intros r P Q [HI HM] E. split; [exact HI|]. intro y. rewrite HM. apply E. Qed.

  Lemma contains_spec : forall s x, Inv s -> (contains s x = true <-> In x s).
  Proof.
    intros s x HI. destruct (fi_cut s x HI) as (l1 & l2 & -> & Hfi & F).
    unfold SortedSet.contains. rewrite Hfi, nth_error_app_len, (cut_mem l1 l2 x HI F).
    destruct (hd_error l2) as [v|]; [|split; discriminate].
    destruct (eqbP v x) as [->|Hne]; split; congruence.
  Qed.

  Lemma contains_false : forall s x, Inv s -> (contains s x = false <-> ~ In x s).
  Proof. intros s x HI. rewrite <- (contains_spec s x HI). symmetry. apply not_true_iff_false. Qed.

  (* the only use of totality in the file: without it an element right of the cut may be incomparable with x
     (cf. C33_sortedset_refuted) *)
  Lemma insert_mid_spec : forall l1 l2 x, Inv (l1 ++ l2) -> cut_at x l1 l2 -> ~ In x (l1 ++ l2) ->
    is_set_of (l1 ++ x :: l2) (fun y => y = x \/ In y (l1 ++ l2)).
  Proof.
    intros l1 l2 x HI [F1 F2] Hn. split.
    - apply Inv_mid. repeat split; [exact HI|exact F1|].
      (* right of the cut nothing is below x or equal to x *)
      rewrite Forall_forall in F2. apply Forall_forall. intros w Hw.
      destruct (ltb x w) eqn:Hxw; [reflexivity|]. exfalso. apply Hn, in_or_app. right.
      rewrite (ltb_total x w Hxw (F2 w Hw)). exact Hw.
    - intro y. rewrite !in_app_iff. cbn. intuition.
  Qed.

  Lemma add_spec : forall s x, Inv s -> is_set_of (add s x) (fun y => y = x \/ In y s).
  Proof.
    intros s x HI. destruct (fi_cut s x HI) as (l1 & l2 & -> & Hfi & F).
    unfold SortedSet.add. rewrite Hfi, nth_error_app_len.
    pose proof (cut_mem l1 l2 x HI F) as M. destruct l2 as [|v t]; cbn [hd_error] in *.
    - rewrite <- app_assoc. apply (insert_mid_spec l1 [] x HI F). rewrite M. discriminate.
    - destruct (eqbP v x) as [->|Hne].
      + split; [exact HI|]. intro y. split; [tauto|]. intros [->|H]; [apply M; reflexivity|exact H].
      + rewrite insert_at_cut. apply (insert_mid_spec l1 (v :: t) x HI F). rewrite M. congruence.
  Qed.

  Lemma remove_mid_spec : forall l1 v t, Inv (l1 ++ v :: t) ->
    is_set_of (l1 ++ t) (fun y => In y (l1 ++ v :: t) /\ y <> v).
  Proof.
    intros l1 v t HI. pose proof (Inv_NoDup _ HI) as ND. apply NoDup_remove_2 in ND. split.
    - apply Inv_mid in HI. apply HI.
    - intro y. rewrite !in_app_iff in *. cbn. split.
      + intros H. split; [tauto|]. intros ->. exact (ND H).
      + intros [[H|[H|H]] Hne]; [left; exact H|congruence|right; exact H].
  Qed.

  Lemma remove_spec : forall s x, Inv s ->
    match remove s x with
    | Some s' => In x s /\ is_set_of s' (fun y => In y s /\ y <> x)
    | None => ~ In x s
    end.
  Proof.
    intros s x HI. destruct (fi_cut s x HI) as (l1 & l2 & -> & Hfi & F).
    unfold SortedSet.remove. rewrite Hfi, nth_error_app_len.
    pose proof (cut_mem l1 l2 x HI F) as M.
    destruct l2 as [|v t]; cbn [hd_error] in *; [rewrite M; discriminate|].
    destruct (eqbP v x) as [->|Hne]; [|rewrite M; congruence].
    split; [apply M; reflexivity|]. rewrite remove_at_cut. apply remove_mid_spec. exact HI.
  Qed.

  Lemma pop_spec : forall s, Inv s ->
    match pop A s with
    | None => s = []
    | Some (m, s') => In m s /\ (forall y, In y s -> y = m \/ ltb y m = true) /\ is_set_of s' (fun y => In y s /\ y <> m)
    end.
  Proof.
    intros s HI. unfold pop. remember (rev s) as r eqn:E.
    apply (f_equal (@rev A)) in E. rewrite rev_involutive in E. subst s.
    destruct r as [|m r]; [reflexivity|]. cbn [rev] in *. split; [apply in_or_app; right; left; reflexivity|]. split.
    - intros y Hy. apply in_app_or in Hy. destruct Hy as [Hy|[Hy|[]]]; [right|left; symmetry; exact Hy].
      apply Inv_mid in HI. destruct HI as (_ & HI & _). rewrite Forall_forall in HI. apply HI, Hy.
    - rewrite <- (app_nil_r (rev r)) at 1. apply remove_mid_spec. exact HI.
  Qed.

  Lemma update_spec : forall l s, Inv s -> is_set_of (update s l) (fun y => In y s \/ In y l).
  Proof.
    induction l as [|x l IH]; intros s HI; cbn.
    - split; [exact HI|]. intro y. tauto.
    - destruct (add_spec s x HI) as [HA HM]. apply (is_set_of_ext _ _ _ (IH _ HA)).
      intro y. rewrite HM. split; [intros [[->|H]|H]|intros [H|[<-|H]]]; auto.
  Qed.

  Lemma of_list_spec : forall l, is_set_of (of_list l) (fun y => In y l).
  Proof. intro l. apply (is_set_of_ext _ _ _ (update_spec l [] (SSorted_nil _))). intro y. cbn. tauto. Qed.

  (* g is the body of _intersect (f the test) or of _diff (f its negation): both build of_list (filter f s) *)
  Lemma fold_add_if : forall (f : A -> bool) (g : list A -> A -> list A),
    (forall acc it, g acc it = if f it then add acc it else acc) ->
    forall s acc, fold_left g s acc = update acc (filter f s).
  Proof.
    intros f g Hg. induction s as [|x s IH]; intro acc; cbn [fold_left filter]; [reflexivity|].
    rewrite Hg, IH. destruct (f x); reflexivity.
  Qed.

  Lemma intersect_spec : forall s mem, is_set_of (intersect_ s mem) (fun y => In y s /\ mem y = true).
  Proof.
    intros s mem. unfold SortedSet.intersect_. rewrite (fold_add_if mem) by reflexivity.
    apply (is_set_of_ext _ _ _ (of_list_spec _)). intro y. apply filter_In.
  Qed.

  Lemma diff_spec : forall s mem, is_set_of (diff_ s mem) (fun y => In y s /\ mem y = false).
  Proof.
    intros s mem. unfold SortedSet.diff_.
    rewrite (fold_add_if (fun y => negb (mem y))) by (intros acc it; destruct (mem it); reflexivity).
    apply (is_set_of_ext _ _ _ (of_list_spec _)). intro y. rewrite filter_In, negb_true_iff. reflexivity.
  Qed.

  Lemma operand_items_mem : forall o y, In y (operand_items o) <-> oset A o y.
  Proof. intros [l|l] y; cbn; [apply of_list_spec|reflexivity]. Qed.

  Lemma operand_items_NoDup : forall o, operand_ok A o -> NoDup (operand_items o).
  Proof. intros [l|l] H; cbn; [apply Inv_NoDup, of_list_spec|exact H]. Qed.

  Lemma operand_mem_spec : forall o x, operand_mem o x = true <-> oset A o x.
  Proof.
    intros [l|l] x; cbn.
    - destruct (of_list_spec l) as [H1 H2]. rewrite (contains_spec _ x H1). apply H2.
    - apply (existsb_In (fun a b => eqb b a)). intros a b. rewrite eqb_spec. split; intros ->; reflexivity.
  Qed.

  Lemma intersect_operand : forall s o, is_set_of (intersect_ s (operand_mem o)) (fun y => In y s /\ oset A o y).
  Proof.
    intros s o. apply (is_set_of_ext _ _ _ (intersect_spec s (operand_mem o))).
    intro y. rewrite operand_mem_spec. reflexivity.
  Qed.

  Lemma diff_operand : forall s o, is_set_of (diff_ s (operand_mem o)) (fun y => In y s /\ ~ oset A o y).
  Proof.
    intros s o. apply (is_set_of_ext _ _ _ (diff_spec s (operand_mem o))).
    intro y. rewrite <- operand_mem_spec, not_true_iff_false. reflexivity.
  Qed.

  Lemma union_update : forall os s, union A ltb eqb s os = update s (flat_map operand_items os).
  Proof.
    induction os as [|o os IH]; intro s; cbn [SortedSet.union fold_left flat_map]; [reflexivity|].
    unfold SortedSet.update. rewrite fold_left_app. apply IH.
  Qed.

  Lemma union_spec : forall os s, Inv s -> is_set_of (union A ltb eqb s os) (fun y => In y s \/ osets A os y).
  Proof.
    intros os s HI. rewrite union_update. apply (is_set_of_ext _ _ _ (update_spec _ s HI)).
    intro y. rewrite in_flat_map. unfold osets. setoid_rewrite operand_items_mem. reflexivity.
  Qed.

  (* intersection() / difference(): leaving the loop once the set is empty changes nothing *)
  Lemma break_fold : forall (F : list A -> operand -> list A) (G : list A -> list operand -> list A),
    (forall o, F [] o = []) -> (forall d, G d [] = d) ->
    (forall d o r, G d (o :: r) = match F d o with [] => [] | d' => G d' r end) ->
    forall os d, G d os = fold_left F os d.
  Proof.
    intros F G F0 G0 G1.
    assert (forall os, fold_left F os [] = []) as Hnil
      by (induction os as [|o os IH]; cbn [fold_left]; [|rewrite F0]; auto).
    induction os as [|o os IH]; intro d; [apply G0|].
    rewrite G1. cbn [fold_left]. destruct (F d o) as [|a d']; [symmetry; apply Hnil|apply IH].
  Qed.

  Lemma narrow_spec : forall (F : list A -> operand -> list A) (P : operand -> A -> Prop),
    (forall s o, is_set_of (F s o) (fun y => In y s /\ P o y)) ->
    forall os s, Inv s -> is_set_of (fold_left F os s) (fun y => In y s /\ Forall (fun o => P o y) os).
  Proof.
    intros F P HF. induction os as [|o os IH]; intros s HI; cbn [fold_left].
    - split; [exact HI|]. intro y. split; [intro H; split; [exact H|constructor]|tauto].
    - destruct (HF s o) as [H1 H2]. apply (is_set_of_ext _ _ _ (IH _ H1)).
      intro y. rewrite H2, Forall_cons_iff. tauto.
  Qed.

  Lemma intersection_spec : forall os s, Inv s ->
    is_set_of (intersection A ltb eqb s os) (fun y => In y s /\ allsets A os y).
  Proof.
    intros os s HI.
    rewrite (break_fold (fun i o => intersect_ i (operand_mem o)) (intersection A ltb eqb)) by reflexivity.
    apply (is_set_of_ext _ _ _ (narrow_spec _ _ intersect_operand os s HI)).
    intro y. rewrite Forall_forall. reflexivity.
  Qed.

  Lemma difference_spec : forall os s, Inv s ->
    is_set_of (difference A ltb eqb s os) (fun y => In y s /\ ~ osets A os y).
  Proof.
    intros os s HI.
    rewrite (break_fold (fun d o => diff_ d (operand_mem o)) (difference A ltb eqb)) by reflexivity.
    apply (is_set_of_ext _ _ _ (narrow_spec _ _ diff_operand os s HI)).
    intro y. rewrite Forall_Exists_neg, Exists_exists. reflexivity.
  Qed.

  Lemma symdiff_spec : forall s l, Inv s ->
    is_set_of (symmetric_difference A ltb eqb s l) (fun y => (In y s /\ ~ In y l) \/ (In y l /\ ~ In y s)).
  Proof.
    intros s l HI. unfold symmetric_difference.
    destruct (of_list_spec l) as [O1 O2].
    destruct (diff_spec s (contains (of_list l))) as [D1 D2].
    destruct (diff_spec (of_list l) (contains s)) as [E1 E2].
    apply (is_set_of_ext _ _ _ (update_spec (diff_ (of_list l) (contains s)) _ D1)).
    intro y. rewrite D2, E2, (contains_false _ y O1), (contains_false _ y HI), O2. reflexivity.
  Qed.

  Lemma same_length_incl : forall i s : list A, NoDup i -> NoDup s -> incl i s ->
    (length i = length s <-> incl s i).
  Proof.
    intros i s Ni Ns Hi. split.
    - intro E. apply NoDup_length_incl; [exact Ni|lia|exact Hi].
    - intro Hs. apply Nat.le_antisymm; apply NoDup_incl_length; assumption.
  Qed.

  (* C is a condition that makes i a subset of s: then `shorter and C` says that the subset is proper *)
  Lemma proper_spec : forall (i s : list A) (C : Prop), NoDup i -> NoDup s -> (C -> incl i s) ->
    (length i < length s /\ C <-> C /\ exists z, In z s /\ ~ In z i).
  Proof.
    intros i s C Ni Ns Hi. split; intros [H1 H2].
    - split; [exact H2|]. destruct (Forall_Exists_dec (fun z => In z i) (fun z => in_dec (fun x y => reflect_dec _ _ (eqbP x y)) z i) s) as [H|H].
      + rewrite Forall_forall in H. assert (length s <= length i) by (apply NoDup_incl_length; assumption). lia.
      + rewrite Exists_exists in H. exact H.
    - split; [|exact H1]. destruct H2 as (z & Hz & Hn).
      destruct (Nat.lt_ge_cases (length i) (length s)) as [L|L]; [exact L|].
      exfalso. apply Hn. apply (NoDup_length_incl Ni L (Hi H1)). exact Hz.
  Qed.

  Lemma issubset_spec : forall s o, Inv s -> (issubset A ltb eqb s o = true <-> forall y, In y s -> oset A o y).
  Proof.
    intros s o HI. unfold issubset. rewrite Nat.eqb_eq.
    destruct (intersect_operand s o) as [H1 H2].
    rewrite (same_length_incl _ _ (Inv_NoDup _ H1) (Inv_NoDup _ HI)) by (intros y Hy; apply H2, Hy).
    unfold incl. split.
    - intros H y Hy. apply H2, H, Hy.
    - intros H y Hy. apply H2. split; [exact Hy|apply H, Hy].
  Qed.

  Lemma issuperset_spec : forall s o, Inv s -> operand_ok A o ->
    (issuperset A ltb eqb s o = true <-> forall y, oset A o y -> In y s).
  Proof.
    intros s o HI Hok. unfold issuperset, SortedSet.operand_len. rewrite Nat.eqb_eq.
    destruct (intersect_operand s o) as [H1 H2].
    rewrite (same_length_incl _ _ (Inv_NoDup _ H1) (operand_items_NoDup o Hok))
      by (intros y Hy; apply operand_items_mem, H2, Hy).
    unfold incl. split.
    - intros H y Hy. apply operand_items_mem, H, H2 in Hy. apply Hy.
    - intros H y Hy. apply operand_items_mem in Hy. apply H2. split; [apply H, Hy|exact Hy].
  Qed.

  Lemma isdisjoint_spec : forall s o, (isdisjoint A ltb eqb s o = true <-> forall y, In y s -> ~ oset A o y).
  Proof.
    intros s o. unfold isdisjoint. rewrite Nat.eqb_eq, length_zero_iff_nil.
    destruct (intersect_operand s o) as [_ H2]. split.
    - intros E y Hy Ho. rewrite E in H2. apply (H2 y). split; assumption.
    - intro H. destruct (intersect_ s (operand_mem o)) as [|a t]; [reflexivity|]. exfalso.
      destruct (proj1 (H2 a) (or_introl eq_refl)) as [Ha Ho]. exact (H a Ha Ho).
  Qed.

  Lemma list_eqb_spec : forall a b, list_eqb A eqb a b = true <-> a = b.
  Proof. exact (eq_listb_spec eqb eqb_spec). Qed.

  Lemma set_eq_spec : forall s o, Inv s -> operand_ok A o ->
    (set_eq A ltb eqb s o = true <-> forall y, In y s <-> oset A o y).
  Proof.
    intros s [l|l] HI Hok; cbn [set_eq oset].
    - destruct (of_list_spec l) as [H1 H2]. rewrite list_eqb_spec. split.
      + intros -> y. apply H2.
      + intro H. apply sorted_ext; [exact HI|exact H1|]. intro y. rewrite H2. apply H.
    - cbn in Hok. rewrite andb_true_iff, Nat.eqb_eq, forallb_forall.
      assert ((forall z, In z l -> contains s z = true) <-> incl l s) as ->
        by (split; intros H z Hz; apply (contains_spec s z HI), H, Hz).
      pose proof (same_length_incl l s Hok (Inv_NoDup _ HI)) as L. split.
      + intros [E H] y. split; [apply (proj1 (L H) E)|apply H].
      + intro H. assert (incl l s) as Hl by (intros z Hz; apply H, Hz).
        split; [apply (L Hl); intros z Hz; apply H, Hz|exact Hl].
  Qed.

  Lemma set_ne_negb : forall s o, set_ne A ltb eqb s o = negb (set_eq A ltb eqb s o).
  Proof.
    intros s [l|l]; cbn [set_ne set_eq]; [reflexivity|].
    rewrite negb_andb. f_equal. induction l as [|x l IH]; cbn; [reflexivity|].
    rewrite negb_andb, IH. reflexivity.
  Qed.

  Lemma set_ne_spec : forall s o, Inv s -> operand_ok A o ->
    (set_ne A ltb eqb s o = true <-> ~ (forall y, In y s <-> oset A o y)).
  Proof.
    intros s o HI Hok. rewrite set_ne_negb, negb_true_iff, <- (set_eq_spec s o HI Hok). symmetry. apply not_true_iff_false.
  Qed.

  Lemma set_lt_spec : forall s o, Inv s -> operand_ok A o ->
    (set_lt A ltb eqb s o = true <-> ((forall y, In y s -> oset A o y) /\ exists z, oset A o z /\ ~ In z s)).
  Proof.
    intros s o HI Hok. unfold set_lt, SortedSet.operand_len.
    rewrite andb_true_iff, Nat.ltb_lt, (issubset_spec s o HI).
    rewrite (proper_spec s (operand_items o) _ (Inv_NoDup _ HI) (operand_items_NoDup o Hok))
      by (intros H y Hy; apply operand_items_mem, H, Hy).
    setoid_rewrite operand_items_mem. reflexivity.
  Qed.

  Lemma set_gt_spec : forall s o, Inv s -> operand_ok A o ->
    (set_gt A ltb eqb s o = true <-> ((forall y, oset A o y -> In y s) /\ exists z, In z s /\ ~ oset A o z)).
  Proof.
    intros s o HI Hok. unfold set_gt, SortedSet.operand_len.
    rewrite andb_true_iff, Nat.ltb_lt, (issuperset_spec s o HI Hok).
    rewrite (proper_spec (operand_items o) s _ (operand_items_NoDup o Hok) (Inv_NoDup _ HI))
      by (intros H y Hy; apply H, operand_items_mem, Hy).
    setoid_rewrite operand_items_mem. reflexivity.
  Qed.

  Lemma norm_index_lt : forall n i j, norm_index n i = Some j -> j < n.
  Proof.
    intros n i j. unfold norm_index. set (k := if (i <? 0)%Z then _ else _).
    destruct ((k <? 0) || (Z.of_nat n <=? k))%Z eqn:E; [discriminate|]. intros [= <-].
    apply orb_false_iff in E. destruct E as [E1 E2]. apply Z.ltb_ge in E1. apply Z.leb_gt in E2. lia.
  Qed.

  (* the clauses of `spec` that recur: what it asks of a mutator, of a set-valued query, of a test.  They unfold to the text
     of `spec`, which is how `apply mutator_ok` etc. meet its clauses in step_spec. *)
  Definition becomes (s' : list A) (r : out A) (P : A -> Prop) : Prop := r = RNone /\ is_set_of s' P.
  Definition answers_set (s s' : list A) (r : out A) (P : A -> Prop) : Prop :=
    s' = s /\ exists u, r = RItems u /\ is_set_of u P.
  Definition answers (s s' : list A) (r : out A) (P : Prop) : Prop :=
    s' = s /\ exists b, r = RBool b /\ (b = true <-> P).

  Lemma mutator_ok : forall s' P, is_set_of s' P -> Inv s' /\ becomes s' RNone P.
  Proof. intros s' P H. split; [apply H|]. split; [reflexivity|exact H]. Qed.

  Lemma set_query_ok : forall s u P, Inv s -> is_set_of u P -> Inv s /\ answers_set s s (RItems u) P.
  Proof. intros s u P HI H. split; [exact HI|]. split; [reflexivity|]. exists u. split; [reflexivity|exact H]. Qed.

  Lemma test_ok : forall s b (P : Prop), Inv s -> (b = true <-> P) -> Inv s /\ answers s s (RBool b) P.
  Proof. intros s b P HI H. split; [exact HI|]. split; [reflexivity|]. exists b. split; [reflexivity|exact H]. Qed.

  Lemma step_spec : forall s o, Inv s -> op_ok A o ->
    Inv (fst (step A ltb eqb s o)) /\ spec A ltb s o (fst (step A ltb eqb s o)) (snd (step A ltb eqb s o)).
  Proof.
    intros s o HI Hok.
    destruct o as [x|x| |x|l| |os|os|os|l|o|o|o|l|o|o|o|o|o|o|o|i|i| | ]; cbn [step spec op_ok] in *.
    - apply mutator_ok, add_spec, HI.
    - pose proof (remove_spec s x HI) as H. destruct (remove s x) as [s'|]; cbn [fst snd].
      + destruct H as [Hin H]. split; [apply H|]. left. auto.
      + split; [exact HI|]. right. auto.
    - pose proof (pop_spec s HI) as H. destruct (pop A s) as [[m s']|]; cbn [fst snd].
      + destruct H as (Hin & Hmax & H). split; [apply H|]. right. exists m. auto.
      + split; [exact HI|]. left. auto.
    - apply (test_ok _ _ _ HI), contains_spec, HI.
    - apply mutator_ok, update_spec, HI.
    - (* OClear *) cbn [fst snd]. split; [constructor|]. split; reflexivity.
    - apply (set_query_ok _ _ _ HI), union_spec, HI.
    - apply (set_query_ok _ _ _ HI), intersection_spec, HI.
    - apply (set_query_ok _ _ _ HI), difference_spec, HI.
    - apply (set_query_ok _ _ _ HI), symdiff_spec, HI.
    - apply mutator_ok. apply (is_set_of_ext _ _ _ (update_spec (operand_items o) s HI)).
      intro y. rewrite operand_items_mem. reflexivity.
    - apply mutator_ok, intersect_operand.
    - apply mutator_ok, diff_operand.
    - apply mutator_ok, symdiff_spec, HI.
    - apply (test_ok _ _ _ HI), issubset_spec, HI.
    - apply (test_ok _ _ _ HI), issuperset_spec; assumption.
    - apply (test_ok _ _ _ HI), isdisjoint_spec.
    - apply (test_ok _ _ _ HI), set_eq_spec; assumption.
    - apply (test_ok _ _ _ HI), set_ne_spec; assumption.
    - apply (test_ok _ _ _ HI), set_lt_spec; assumption.
    - apply (test_ok _ _ _ HI), set_gt_spec; assumption.
    - (* OGetItem *) destruct (norm_index (length s) i) as [j|] eqn:E; [|cbn; auto].
      apply norm_index_lt, nth_error_Some in E. destruct (nth_error s j) as [v|]; [|contradiction].
      cbn. split; [exact HI|]. split; [reflexivity|]. exists v. auto.
    - (* ODelItem *) destruct (norm_index (length s) i) as [j|] eqn:E; [|cbn; auto].
      apply norm_index_lt, nth_error_Some in E. destruct (nth_error s j) as [v|] eqn:Hn; [|contradiction].
      apply List.nth_error_split in Hn. destruct Hn as (l1 & l2 & -> & <-).
      cbn [fst snd]. rewrite remove_at_cut. pose proof (remove_mid_spec l1 v l2 HI) as H.
      split; [apply H|]. split; [reflexivity|]. exists v. auto.
    - (* OLen *) cbn. auto.
    - (* OIter *) cbn. auto.
  Qed.

  Lemma run_ok_all : forall ops s, Inv s -> Forall (op_ok A) ops -> run_ok A ltb eqb s ops.
  Proof.
    induction ops as [|o ops IH]; intros s HI Hok; cbn; [exact I|].
    inversion Hok as [|? ? Ho Hops]; subst. destruct (step_spec s o HI Ho) as [H3 H4]. auto.
  Qed.

  Lemma final_inv : forall ops s, Inv s -> Forall (op_ok A) ops -> Inv (final A ltb eqb s ops).
  Proof.
    induction ops as [|o ops IH]; intros s HI Hok; cbn; [exact HI|].
    inversion Hok as [|? ? Ho Hops]; subst. apply IH; [|exact Hops]. apply (step_spec s o HI Ho).
  Qed.

  Lemma copy_of_id : forall how s, copy_of A ltb eqb how s = s.
  Proof. intros [] s; reflexivity. Qed.

  Lemma step2_spec : forall st o, Inv (fst st) -> Inv (snd st) -> op2_ok A o ->
    Inv (fst (fst (step2 A ltb eqb st o))) /\ Inv (snd (fst (step2 A ltb eqb st o))) /\
    spec2 A ltb st o (fst (step2 A ltb eqb st o)) (snd (step2 A ltb eqb st o)).
  Proof.
    intros [s c] o Hs Hc Hok. cbn [fst snd] in *. destruct o as [o|how|o]; cbn [step2 spec2 op2_ok fst snd] in *.
    - destruct (step_spec s o Hs Hok) as [H1 H2]. destruct (step A ltb eqb s o) as [s' r].
      cbn [fst snd] in *. auto.
    - rewrite copy_of_id. cbn [fst snd]. auto.
    - destruct (step_spec c o Hc Hok) as [H1 H2]. destruct (step A ltb eqb c o) as [c' r].
      cbn [fst snd] in *. auto.
  Qed.

  Lemma run2_ok_all : forall ops st, Inv (fst st) -> Inv (snd st) -> Forall (op2_ok A) ops -> run2_ok A ltb eqb st ops.
  Proof.
    induction ops as [|o ops IH]; intros st Hs Hc Hok; cbn [run2_ok]; [exact I|].
    inversion Hok as [|? ? Ho Hops]; subst. destruct (step2_spec st o Hs Hc Ho) as (A1 & A2 & A3). auto.
  Qed.

  Lemma iteration_ascending : forall s, Inv s -> forall i j u v, i < j ->
    nth_error s i = Some u -> nth_error s j = Some v -> ltb u v = true.
  Proof.
    induction s as [|h s IH]; intros HI i j u v L Hi Hj; [destruct i; discriminate|].
    apply Inv_cons in HI. destruct HI as [HI Hh]. destruct j as [|j]; [lia|]. destruct i as [|i]; cbn in Hi, Hj.
    - injection Hi as <-. apply Hh. exact (nth_error_In _ _ Hj).
    - apply (IH HI i j); [lia|exact Hi|exact Hj].
  Qed.
End SetProofs.
