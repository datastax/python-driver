(* What a call into ResponseFuture (Model/FutureOnce.v) does to the fields the C14 / C15 invariants read.  Every helper of
   the model is a sequence of a few primitive effects (Eff), so what is stable under the primitives is stable under every
   helper; what an op makes of the helpers is said once (Op). *)
From Coq Require Import ZArith List Bool Lia.
From Verif Require Import ListFacts FutureState FutureOnce.
Import ListNotations.
Local Open Scope Z_scope.

Lemma upd_nth_nil {A} k (f : A -> A) l : upd_nth k f l = [] -> l = [].
Proof. destruct l, k; cbn; congruence. Qed.

Lemma nth_error_nonnil {A} k (l : list A) x : nth_error l k = Some x -> l <> [].
Proof. intros H E. subst l. destruct k; discriminate. Qed.

Lemma forallb_upd_nth {A} (p : A -> bool) (f : A -> A) : forall k l x,
  nth_error l k = Some x -> p (f x) = p x -> forallb p (upd_nth k f l) = forallb p l.
Proof.
  induction k as [|k IH]; intros [|y l] x Hn Hp; try discriminate; cbn in *; [inversion Hn; subst y; rewrite Hp|rewrite (IH l x Hn Hp)]; reflexivity.
Qed.

Lemma nth_app_old {A} (l ext : list A) j t : nth_error l j = Some t -> nth_error (l ++ ext) j = Some t.
Proof. intros H. rewrite nth_error_app1; [exact H|]. apply nth_error_Some. congruence. Qed.

Lemma app_one_nonnil {A} (l : list A) x : l ++ [x] <> [].
Proof. intros E. exact (app_cons_not_nil l [] x (eq_sym E)). Qed.

(* __init__ before its final _start_timer() *)
Definition init0 (c : config) : state :=
  mkState (c_plan c) [] None None None 0 [] None (c_specs c) None None false [] false
          (c_now c) (c_now c) (c_timeout c) (c_now c) [] (c_pools c) false false [] [] 0 false 0.

Lemma init_eq c : init c = start_timer (init0 c).
Proof. reflexivity. Qed.

Definition frameT (s s' : state) : Prop :=
  timeout s' = timeout s /\ start s' = start s /\ pstart s' = pstart s /\ now s' = now s.

(* what the liveness invariants look at, besides the final outcome *)
Definition frameL (s s' : state) : Prop :=
  attempts s' = attempts s /\ cur_conn s' = cur_conn s /\ queue s' = queue s /\ paging s' = paging s /\ tfired s' = tfired s
  /\ chains s' = chains s /\ refreshes s' = refreshes s.

(* of the fields the invariants read, only the timer fields (timers, cur_timer, specs) may differ *)
Definition calm (s s' : state) : Prop :=
  (fres s' = fres s /\ fexc s' = fexc s /\ event s' = event s /\ pairs s' = pairs s)
  /\ frameT s s' /\ frameL s s' /\ cur_req s' = cur_req s.

(* bookkeeping: unlike calm it fixes the timers and lets requests be closed (hosts stay); plan, host, retries, pools, chains, refreshes, results are free *)
Definition frame (s s' : state) : Prop :=
  (fres s' = fres s /\ fexc s' = fexc s /\ event s' = event s /\ pairs s' = pairs s)
  /\ frameT s s'
  /\ (cur_req s' = cur_req s /\ cur_conn s' = cur_conn s /\ map ahost (attempts s') = map ahost (attempts s))
  /\ timers s' = timers s
  /\ (queue s' = queue s /\ paging s' = paging s /\ tfired s' = tfired s).

Lemma frameT_trans s1 s2 s3 : frameT s1 s2 -> frameT s2 s3 -> frameT s1 s3.
Proof. intros (a1 & a2 & a3 & a4) (b1 & b2 & b3 & b4). repeat split; congruence. Qed.

Lemma hosts_close k l : map ahost (upd_nth k close l) = map ahost l.
Proof. apply map_update_at. reflexivity. Qed.

Lemma calm_time s s' : calm s s' -> frameT s s'.
Proof. intros (_ & H & _). exact H. Qed.

Lemma calm_attempts s s' : calm s s' -> attempts s' = attempts s.
Proof. intros (_ & _ & (H & _) & _). exact H. Qed.

Lemma calm_cancel s : calm s (cancel_timer s).
Proof. unfold cancel_timer. destruct (cur_timer s); repeat split. Qed.

Lemma calm_start_timer s : calm s (start_timer s).
Proof.
  unfold start_timer. destruct (cur_timer s); [repeat split|].
  destruct (_ && _); [repeat split|]. destruct (time_remaining _); repeat split.
Qed.

Lemma page_reset_keeps pl s : let s' := page_reset pl s in
  timeout s' = timeout s /\ now s' = now s /\ pstart s' = now s
  /\ attempts s' = map make_stale (attempts s) /\ cur_conn s' = cur_conn s /\ tfired s' = false
  /\ cur_req s' = cur_req s /\ queue s' = queue s /\ paging s' = paging s.
Proof. repeat split. Qed.

Lemma page_timer_reset_keeps pf s : let s' := page_timer_reset pf s in
  (fres s' = fres s /\ fexc s' = fexc s /\ event s' = event s /\ pairs s' = pairs s) /\ frameL s s' /\ cur_req s' = cur_req s.
Proof.
  destruct pf; [|repeat split].
  destruct (calm_cancel s) as ((v1 & v2 & v3 & v4) & _ & (a1 & a2 & a3 & a4 & a5 & a6 & a7) & hr). repeat split; assumption.
Qed.

(* start_fetching_next_page up to its send_request() *)
Lemma page_start_keeps pf pl s : let s' := start_timer (page_timer_reset pf (page_reset pl s)) in
  attempts s' = map make_stale (attempts s) /\ cur_conn s' = cur_conn s /\ cur_req s' = cur_req s
  /\ queue s' = queue s /\ paging s' = paging s /\ tfired s' = false.
Proof.
  generalize (page_reset pl s) (page_reset_keeps pl s). intros s1 (_ & _ & _ & ra & rc & rf & rr & rq & rp).
  destruct (page_timer_reset_keeps pf s1) as (_ & (c1 & c2 & c3 & c4 & c5 & _) & c8).
  destruct (calm_start_timer (page_timer_reset pf s1)) as (_ & _ & (t1 & t2 & t3 & t4 & t5 & _) & t8).
  cbv zeta. rewrite t1, t2, t3, t4, t5, t8, c1, c2, c3, c4, c5, c8. repeat split; assumption.
Qed.

Lemma hosts_stale l : map ahost (map make_stale l) = map ahost l.
Proof. rewrite map_map. reflexivity. Qed.

Lemma cancel_timer_idem s : cancel_timer (cancel_timer s) = cancel_timer s.
Proof.
  unfold cancel_timer. destruct (cur_timer s) as [k|] eqn:E; cbn [cur_timer set_timers]; rewrite E; [|reflexivity].
  cbn. rewrite update_at_twice. reflexivity.
Qed.

(* _set_final_result, _set_final_result(rows, page_info) and _set_final_exception are one function of the outcome *)
Inductive outcome := ORes (v : Z) | ORows (v : Z) (more : bool) | OExc (e : Z).

Definition deliver (o : outcome) (s : state) : state :=
  match o with
  | ORes v => set_event true (set_pairs (run_cbs v (pairs s)) (set_fres (Some v) s))
  | ORows v more => set_event true (set_pairs (run_cbs v (pairs s)) (set_fres (Some v) (set_paging more s)))
  | OExc e => set_event true (set_pairs (run_ebs e (pairs s)) (set_fexc (Some e) s))
  end.

Definition set_final (g : bool) (o : outcome) (s : state) : state :=
  let s := cancel_timer s in if g && final_set s then s else deliver o s.

(* set_final_result g v, set_final_rows g v more and set_final_exception g e are set_final g at ORes v, ORows v more and OExc e,
   by conversion; as an equation only the last is needed *)
Lemma set_final_exception_eq g e s : set_final_exception g e s = set_final g (OExc e) s.
Proof. reflexivity. Qed.

Lemma final_set_final g o s : final_set (set_final g o s) = true.
Proof.
  unfold set_final. destruct (g && final_set (cancel_timer s)) eqn:E; [apply andb_prop in E; apply E|].
  destruct o; [reflexivity|reflexivity|apply orb_true_r].
Qed.

Lemma set_final_cancel g o s : set_final g o (cancel_timer s) = set_final g o s.
Proof. unfold set_final. rewrite cancel_timer_idem. reflexivity. Qed.

Lemma set_final_frame g o s : let s' := set_final g o s in
  frameT s s' /\ cur_req s' = cur_req s
  /\ (attempts s' = attempts s /\ cur_conn s' = cur_conn s /\ queue s' = queue s)
  /\ (paging s' = paging s \/ exists v more, o = ORows v more).
Proof.
  unfold set_final. destruct (calm_cancel s) as (_ & HT & (a1 & a2 & a3 & a4 & _) & Hr).
  destruct (g && final_set (cancel_timer s)); [repeat split; auto; apply HT|].
  destruct o; repeat split; try apply HT; eauto.
Qed.

Section Effects.
Variable g : bool.

(* _on_timeout notes that it ran (ghost) and completes; the two commute *)
Lemma set_final_tfired o s : set_final g o (set_tfired true s) = set_tfired true (set_final g o s).
Proof.
  unfold set_final, cancel_timer. change (cur_timer (set_tfired true s)) with (cur_timer s).
  destruct (cur_timer s); (destruct (g && _); [reflexivity|destruct o; reflexivity]).
Qed.

(* Tasks are queued, and a page with a paging state is delivered, only after a request was sent; the timeout handler is
   recorded only with its outcome. *)
Inductive Eff : state -> state -> Prop :=
| Eff_refl s : Eff s s
| Eff_trans s1 s2 s3 : Eff s1 s2 -> Eff s2 s3 -> Eff s1 s3
| Eff_frame s s' : frame s s' -> Eff s s'
| Eff_new_timer k d s : Eff s (new_timer k d s)
| Eff_final o s : (forall v more, o = ORows v more -> attempts s <> []) -> Eff s (set_final g o s)
| Eff_query prep h s : Eff s (fst (query_gen prep h s))
| Eff_clear a s : Eff s (clear_req a s)
| Eff_queue q s : (queue s = [] -> attempts s = [] -> q = []) -> Eff s (set_queue q s)
| Eff_tfired s : final_set s = true -> Eff s (set_tfired true s).

Lemma eff_after s s1 s2 : frame s s1 -> Eff s1 s2 -> Eff s s2.
Proof. intros H. apply Eff_trans, Eff_frame, H. Qed.

Lemma eff_final_result v s : Eff s (set_final_result g v s).
Proof. apply (Eff_final (ORes v) s). discriminate. Qed.

Lemma eff_final_exception e s : Eff s (set_final_exception g e s).
Proof. apply (Eff_final (OExc e) s). discriminate. Qed.

Lemma eff_time s s' : Eff s s' -> frameT s s'.
Proof.
  induction 1 as [s|s1 s2 s3 _ IH1 _ IH2|s s' (_ & HT & _)|k d s|o s _|prep h s|a s|q s _|s _];
    try (repeat split; fail).   (* refl, new_timer, clear, queue, tfired *)
  - eapply frameT_trans; eassumption.
  - (* frame *) exact HT.
  - apply set_final_frame.
  - unfold query_gen. destruct (pool_of _ _); repeat split.
Qed.

Lemma hosts_nil l l' : map ahost l' = map ahost l -> l' = [] -> l = [].
Proof. intros H ->. exact (map_eq_nil _ _ (eq_sym H)). Qed.

Lemma eff_sent s s' : Eff s s' -> attempts s <> [] -> attempts s' <> [].
Proof.
  induction 1 as [s|s1 s2 s3 _ IH1 _ IH2|s s' (_ & _ & (_ & _ & Hh) & _)|k d s|o s _|prep h s|a s|q s _|s _]; intros Hne; auto.
  - (* frame *) intros E. exact (Hne (hosts_nil _ _ Hh E)).
  - destruct (set_final_frame g o s) as (_ & _ & (-> & _) & _). exact Hne.
  - unfold query_gen. destruct (pool_of _ _); cbn; auto using app_one_nonnil.
Qed.

(* the exits of _on_timeout that complete the future *)
Lemma eff_timed_out e s s1 : frame s s1 -> Eff s (set_final_exception g e (set_tfired true s1)).
Proof.
  intros F. rewrite set_final_exception_eq, set_final_tfired. eapply eff_after; [exact F|].
  eapply Eff_trans; [apply (eff_final_exception e)|apply Eff_tfired, final_set_final].
Qed.

Lemma eff_on_timeout n s : Eff s (on_timeout g n s).
Proof.
  unfold on_timeout. destruct (cur_conn s).
  - destruct (cur_req s); [destruct (req_open_on _ _ _)|]; apply eff_timed_out; repeat split. apply hosts_close.
  - destruct (n <? 3)%nat; [apply Eff_new_timer|]. apply eff_timed_out. repeat split.
Qed.

Lemma eff_send_loop err : forall pl s, Eff s (send_loop g err pl s).
Proof.
  induction pl as [|h rest IH]; intros s; cbn [send_loop].
  - destruct err; [|apply Eff_frame; repeat split]. eapply eff_after; [|apply eff_final_exception]. repeat split.
  - pose proof (Eff_query false h s) as Hq. fold (query h s) in Hq. destruct (query h s) as [s1 r].
    eapply Eff_trans; [exact Hq|]. destruct r; [apply Eff_frame; repeat split|].
    destruct (timed_out_now s1); [|apply IH]. eapply eff_after; [|apply eff_on_timeout]. repeat split.
Qed.

Lemma eff_send_request err s : Eff s (send_request g err s).
Proof. apply eff_send_loop. Qed.

Lemma eff_start_timer s : Eff s (start_timer s).
Proof.
  unfold start_timer. destruct (cur_timer s); [apply Eff_refl|].
  eapply (eff_after s (set_specs (tl (specs s)) s)); [repeat split|].
  destruct (_ && _); [apply Eff_new_timer|]. destruct (time_remaining _); [apply Eff_new_timer|apply Eff_refl].
Qed.

(* the test of _on_speculative_execute: self._time_remaining <= 0 *)
Definition expired (s : state) : bool := match time_remaining s with Some r => r <=? 0 | None => false end.

Lemma eff_on_spec s : Eff s (on_spec g s).
Proof.
  unfold on_spec. set (s0 := set_cur_timer None s).
  eapply (eff_after s s0); [repeat split|].
  change (event s0) with (event s). change (attempts s0) with (attempts s).
  destruct (event s); [apply Eff_refl|]. destruct (attempts s); [apply Eff_new_timer|].
  fold (expired s0). destruct (expired s0); [apply eff_on_timeout|].
  eapply Eff_trans; [apply (eff_send_request false s0)|apply eff_start_timer].
Qed.

Lemma eff_submit_task t s : attempts s <> [] -> Eff s (submit_task g t s).
Proof.
  intros Hne. unfold submit_task. destruct (shut s); [apply eff_final_exception|]. apply Eff_queue. intros _ E. contradiction.
Qed.

Lemma eff_retry reuse h s : attempts s <> [] -> Eff s (retry g reuse h s).
Proof.
  intros Hne. unfold retry. eapply eff_after; [|destruct (is_some _); [apply Eff_refl|apply eff_submit_task, Hne]]. repeat split.
Qed.

(* _set_result handles the answer to a request that was sent *)
Lemma eff_set_result a h k s : attempts s <> [] -> Eff s (set_result g a h k s).
Proof.
  intros Hne. destruct k as [more| |d| | | | |]; [| |destruct d| | | | |]; cbn [set_result].
  - apply (Eff_final (ORows _ more) s). intros _ _ _. exact Hne.
  - apply eff_final_result.
  - apply eff_retry, Hne.
  - apply eff_retry, Hne.
  - apply eff_final_exception.
  - apply eff_final_result.
  - apply eff_final_exception.
  - apply eff_submit_task, Hne.
  - unfold start_refresh. destruct (shut s); [apply eff_final_result|apply Eff_frame; repeat split].
  - unfold start_chain. destruct (ks_hosts (pools s)); [apply eff_final_result|apply Eff_frame; repeat split].
  - (* a message that is neither: _cancel_timer() first, which the completion does anyway *)
    rewrite set_final_exception_eq, set_final_cancel. apply Eff_final. discriminate.
Qed.

Lemma eff_ks_report c h err s : Eff s (ks_report g c h err s).
Proof.
  unfold ks_report. destruct (nth_error (chains s) c) as [[hs e]|]; [|apply Eff_refl].
  destruct (mem_z h hs); [|apply Eff_refl]. destruct (remove_z h hs); [|apply Eff_frame; repeat split].
  destruct (e || err); [eapply eff_after; [|apply eff_final_exception]|eapply eff_after; [|apply eff_final_result]]; repeat split.
Qed.

(* _query(host); if nothing was sent: send_request() -- how _retry_task, _reprepare and _execute_after_prepare end *)
Definition query_then_send (prep : bool) (h : Z) (s : state) : state :=
  let '(s1, r) := query_gen prep h s in match r with Some _ => s1 | None => send_request g true s1 end.

Lemma eff_query_then_send prep h s : Eff s (query_then_send prep h s).
Proof.
  unfold query_then_send. pose proof (Eff_query prep h s) as Hq. destruct (query_gen prep h s) as [s1 r].
  destruct r; [exact Hq|]. eapply Eff_trans; [exact Hq|apply eff_send_request].
Qed.

Lemma eff_run_task t s : Eff s (run_task g t s).
Proof.
  destruct t as [reuse h|h|h a pk]; cbn [run_task].
  - unfold retry_task. destruct (is_some (fexc s)); [apply Eff_refl|].
    destruct reuse; [apply (eff_query_then_send false)|apply eff_send_request].
  - apply (eff_query_then_send true).
  - unfold after_prepare. destruct (is_some (fexc s)); [apply Eff_refl|].
    destruct pk; [apply (eff_query_then_send false)|apply eff_final_exception|apply eff_final_exception
                  |apply eff_send_request|apply eff_final_exception].
Qed.

(* the answer to attempt a is taken off the connection *)
Definition answered (a : nat) (s : state) : state := clear_req a (set_attempts (upd_nth a close (attempts s)) s).

Lemma eff_answered a s : Eff s (answered a s).
Proof. eapply eff_after; [|apply Eff_clear]. repeat split. apply hosts_close. Qed.

Lemma answered_sent a s : attempts s <> [] -> attempts (answered a s) <> [].
Proof. intros H E. apply upd_nth_nil in E. exact (H E). Qed.

Definition timer_fired (k : nat) (s : state) : state := set_timers (upd_nth k mark_fired (timers s)) s.
Definition handler (t : timer) (s : state) : state :=
  match tk t with TSpec => on_spec g s | TTimeout n => on_timeout g n s end.

Lemma eff_handler t s : Eff s (handler t s).
Proof. unfold handler. destruct (tk t); [apply eff_on_spec|apply eff_on_timeout]. Qed.

(* Most ops are helper calls, hence effects (so is an op that finds nothing to do). *)
Inductive Op (pf : bool) (s : state) : op -> state -> Prop :=
| Op_eff o s' : Eff s s' -> Op pf s o s'
| Op_tick d : Op pf s (Tick d) (set_now (now s + Z.max 0 d) s)
| Op_fire k t : nth_error (timers s) k = Some t -> Op pf s (Fire k) (handler t (timer_fired k s))
| Op_next_page pl : paging s = true -> Op pf s (NextPage pl) (next_page g pf pl s)
| Op_add_cb : Op pf s AddCb (add_cb s).

Lemma step_Op pf s o : Op pf s o (step g pf s o).
Proof.
  destruct o as [|ps|d|a k|k|k|pl| | |c h err|a pk|fh| |k]; cbn [step];
    [apply Op_eff|apply Op_eff|apply Op_tick|apply Op_eff| |apply Op_eff| |apply Op_add_cb|apply Op_eff..].
  - (* Send *) eapply eff_after; [|apply eff_send_request]. repeat split.
  - (* SetPools *) apply Eff_frame; repeat split.
  - (* Resp *) destruct (nth_error (attempts s) a) as [at_|] eqn:En; [|apply Eff_refl]. destruct (aopen at_ && negb (aprep at_)); [|apply Eff_refl].
    destruct (astale at_); [apply eff_answered|]. eapply Eff_trans; [apply eff_answered|].
    apply eff_set_result, answered_sent, (nth_error_nonnil _ _ _ En).
  - (* Fire *) destruct (nth_error (timers s) k) as [t|] eqn:Ek; [|apply Op_eff, Eff_refl].
    destruct (live t && (due t <=? now s)); [exact (Op_fire pf s k t Ek)|apply Op_eff, Eff_refl].
  - (* Run *) destruct (nth_error (queue s) k) as [t|]; [|apply Eff_refl]. eapply Eff_trans; [|apply eff_run_task].
    apply Eff_queue. intros -> _. destruct k; reflexivity.
  - (* NextPage *) destruct (paging s) eqn:Ep; [apply Op_next_page, Ep|apply Op_eff, Eff_refl].
  - (* Result *) destruct (result_call s); [apply Eff_frame; repeat split|apply Eff_refl].
  - (* KsReport *) apply eff_ks_report.
  - (* PResp *) destruct (nth_error (attempts s) a) as [at_|] eqn:En; [|apply Eff_refl]. destruct (aopen at_ && aprep at_); [|apply Eff_refl].
    eapply Eff_trans; [apply eff_answered|]. apply eff_submit_task, answered_sent, (nth_error_nonnil _ _ _ En).
  - (* Foreign *) apply Eff_refl.
  - (* Shutdown *) apply Eff_frame; repeat split.
  - (* RunRefresh *) destruct (refreshes s) as [|n]; [apply Eff_refl|]. destruct (k <=? n)%nat; [|apply Eff_refl].
    eapply eff_after; [|apply eff_final_result]. repeat split.
Qed.

End Effects.
