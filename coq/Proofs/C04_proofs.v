(* C04 proofs: the driver-shaped readers (Model/Response.v) invert the spec encoders (Model/ResponseSpec.v), sizes
   unbounded.  [reads p e x]: parser p, given the encoding e followed by anything, returns x and leaves what followed. *)
From Coq Require Import ZArith List Bool Lia ZifyBool.
From Verif Require Import Response ResponseSpec ListFacts.
Require Verif.Proofs.Bits64.
Import ListNotations.
Local Open Scope Z_scope.

(* a well-formedness condition that is a conjunction, taken apart *)
Ltac bsplit :=
  repeat match goal with
         | H : (_ && _) = true |- _ => apply andb_prop in H; destruct H
         end.

(* Response.list_eqb is ListFacts.eq_listb at Z.eqb *)
Lemma list_eqb_refl : forall a, list_eqb a a = true.
Proof. intros a. apply (eq_listb_spec Z.eqb Z.eqb_eq). reflexivity. Qed.

Lemma list_eqb_eq : forall a b, list_eqb a b = true -> a = b.
Proof. apply (eq_listb_spec Z.eqb Z.eqb_eq). Qed.

Lemma len_nonneg : forall {A} (a : list A), 0 <= len a.
Proof. unfold len. lia. Qed.

Lemma len_map : forall {A B} (f : A -> B) l, len (map f l) = len l.
Proof. intros. unfold len. rewrite map_length. reflexivity. Qed.

Definition reads {A} (p : P A) (e : list Z) (x : A) : Prop := forall rest, p (e ++ rest) = Some (x, rest).

Lemma reads_ret : forall {A} (a : A), reads (ret a) [] a.
Proof. intros A a rest. reflexivity. Qed.

Lemma reads_prefix : forall {A B} (p : P A) (f : A -> P B) e a rest, reads p e a -> pbind p f (e ++ rest) = f a rest.
Proof. intros A B p f e a rest H. unfold pbind. rewrite H. reflexivity. Qed.

Lemma reads_bind : forall {A B} (p : P A) (f : A -> P B) e e' a b,
  reads p e a -> reads (f a) e' b -> reads (pbind p f) (e ++ e') b.
Proof. intros A B p f e e' a b Hp Hf rest. rewrite <- app_assoc, (reads_prefix _ _ _ _ _ Hp). apply Hf. Qed.

Lemma reads_last : forall {A B} (p : P A) (f : A -> P B) e a b, reads p e a -> reads (f a) [] b -> reads (pbind p f) e b.
Proof. intros A B p f e a b Hp Hf. rewrite <- (app_nil_r e). exact (reads_bind _ _ _ _ _ _ Hp Hf). Qed.

(* a field whose flag is not set: rd_opt false p is ret None *)
Lemma reads_absent : forall {A B} (p : P A) (f : option A -> P B) e b, reads (f None) e b -> reads (pbind (rd_opt false p) f) e b.
Proof. intros A B p f e b H. exact H. Qed.

Create HintDb resp.
Create HintDb wf.
#[export] Hint Resolve reads_ret : resp.

(* the first parser of the reader reads the first part of the encoding: shown by t, or by a lemma of the hint database resp (side conditions: wf) *)
Ltac field_by t :=
  lazymatch goal with
  | |- reads (pbind _ _) (_ ++ _) _ => eapply reads_bind
  | |- reads (pbind _ _) _ _ => eapply reads_last
  end; [t|cbv beta zeta].
Ltac field := field_by ltac:(solve [eauto with resp wf nocore]).
Ltac fields := repeat field; eauto with resp wf nocore.

(* evaluates a reader's tests on the literal code just read (prim_known, andb: the simple-type test of rd_type) *)
Ltac ctest := cbn [Z.eqb Pos.eqb Z.leb Z.compare Pos.compare Pos.compare_cont prim_known andb].

Lemma short_arith : forall n, wf_short n = true -> (n / 256) mod 256 * 256 + n mod 256 = n.
Proof. intros n H. unfold wf_short in H. assert (0 <= n < 65536) by lia. clear H. Z.to_euclidean_division_equations. lia. Qed.

Lemma be4 : forall u, ((u / 16777216 * 256 + (u / 65536) mod 256) * 256 + (u / 256) mod 256) * 256 + u mod 256 = u.
Proof.
  intros u. pose proof (Z.div_mod u 256 ltac:(lia)) as A. pose proof (Z.div_mod (u / 256) 256 ltac:(lia)) as B.
  pose proof (Z.div_mod (u / 65536) 256 ltac:(lia)) as C. rewrite Z.div_div in B, C by lia.
  change (256 * 256) with 65536 in B. change (65536 * 256) with 16777216 in C. lia.
Qed.

Lemma rt_short : forall n, wf_short n = true -> reads rd_short (enc_short n) n.
Proof. intros n H rest. unfold enc_short, rd_short. cbn [app]. rewrite (short_arith n H). reflexivity. Qed.

Lemma rt_int : forall n, wf_int n = true -> reads rd_int (enc_int n) n.
Proof.
  intros n H rest. unfold wf_int in H. unfold enc_int, rd_int. cbn [app]. rewrite be4. do 2 f_equal.
  refine (Bits64.twos_mod 32 n eq_refl _). change (2 ^ (32 - 1)) with 2147483648. lia.
Qed.

Lemma rt_n : forall b : list Z, reads (rd_n (len b)) b b.
Proof.
  intros b rest. unfold rd_n. pose proof (len_nonneg b).
  destruct (len b <? 0) eqn:E; [lia|].
  unfold len. rewrite Nat2Z.id, firstn_app_len, skipn_app_len. reflexivity.
Qed.

Lemma wf_short_len : forall {A} (l : list A), (len l <? 65536) = true -> wf_short (len l) = true.
Proof. intros. unfold wf_short. pose proof (len_nonneg l). lia. Qed.
Lemma wf_int_len : forall {A} (l : list A), (len l <? 2147483648) = true -> wf_int (len l) = true.
Proof. intros. unfold wf_int. pose proof (len_nonneg l). lia. Qed.
Lemma wf_short_cl : forall cl, wf_cl cl = true -> wf_short cl = true.
Proof. intros cl H. unfold wf_cl in H. unfold wf_short. lia. Qed.

#[export] Hint Resolve rt_short rt_int rt_n : resp.
(* eq_refl: the conditions on literal codes and counts (wf_short 0, wf_int 4, ...) evaluate *)
#[export] Hint Resolve wf_short_len wf_int_len wf_short_cl eq_refl : wf.

Lemma rt_utf8 : forall s, utf8_valid s = true -> reads (rd_utf8 s) [] s.
Proof. intros s H. unfold rd_utf8. rewrite H. apply reads_ret. Qed.
#[export] Hint Resolve rt_utf8 : resp.

Lemma rt_string : forall s, wf_string s = true -> reads rd_string (enc_string s) s.
Proof. intros s H. unfold wf_string in H. bsplit. unfold rd_string, enc_string. fields. Qed.

Lemma rt_bstring : forall b, wf_sbytes b = true -> reads rd_bstring (enc_short_bytes b) b.
Proof. intros b H. unfold rd_bstring, enc_short_bytes. fields. Qed.

Lemma rt_blong : forall b, wf_lbytes b = true -> reads rd_blong (enc_bytes (Some b)) b.
Proof. intros b H. unfold rd_blong, enc_bytes. fields. Qed.

Lemma rt_blong_null : rd_blong (enc_bytes None) = Some ([], []).
Proof. reflexivity. Qed.

Lemma rt_value : forall o, wf_obytes o = true -> reads rd_value (enc_bytes o) o.
Proof.
  intros [b|] H; unfold rd_value, enc_bytes; [|intros rest; reflexivity].
  field. pose proof (len_nonneg b). destruct (len b <? 0) eqn:E; [lia|]. fields.
Qed.

#[export] Hint Resolve rt_string rt_bstring rt_blong rt_value : resp.

(* each member may rely on its own well-formedness and on its encoding being no longer than the whole list's
   (what a fuelled reader needs in order to recurse) *)
Lemma rt_count : forall {A B} (enc : A -> list Z) (p : P B) (f : A -> B) (ok : A -> bool) (l : list A),
  (forall x, ok x = true -> (List.length (enc x) <= List.length (enc_list enc l))%nat -> reads p (enc x) (f x)) ->
  forallb ok l = true -> reads (rd_count (len l) p) (enc_list enc l) (map f l).
Proof.
  intros A B enc p f ok l H W. unfold rd_count, len. rewrite Nat2Z.id.
  induction l as [|x l IH]; [apply reads_ret|]. cbn [forallb] in W. apply andb_prop in W. destruct W as [Wx W].
  change (enc_list enc (x :: l)) with (enc x ++ enc_list enc l) in *. rewrite app_length in H.
  eapply reads_bind; [apply H; [exact Wx|lia]|].
  eapply reads_last; [apply IH; [intros y Wy L; apply H; [exact Wy|lia]|exact W]|apply reads_ret].
Qed.

Lemma rt_list : forall {A} (enc : A -> list Z) (p : P A) (ok : A -> bool) (l : list A),
  (forall x, ok x = true -> reads p (enc x) x) -> forallb ok l = true -> reads (rd_count (len l) p) (enc_list enc l) l.
Proof. intros A enc p ok l H W. rewrite <- (map_id l) at 3. apply (rt_count _ _ _ ok); [intros x Wx _; apply H, Wx|exact W]. Qed.

Lemma rt_pair : forall {A B} (pa : P A) (pb : P B) ea eb a b,
  reads pa ea a -> reads pb eb b -> reads (x <- pa ;; y <- pb ;; ret (x, y)) (ea ++ eb) (a, b).
Proof. intros. fields. Qed.

(* the spec's well-formedness conditions on optional fields have this shape *)
Lemma rt_opt : forall {A} (p : P A) (enc : A -> list Z) (ok : A -> bool) (o : option A),
  (forall x, ok x = true -> reads p (enc x) x) -> match o with Some x => ok x | None => true end = true ->
  reads (rd_opt (is_some o) p) (match o with Some x => enc x | None => [] end) o.
Proof. intros A p enc ok [x|] H W; cbn [is_some rd_opt]; [fields|apply reads_ret]. Qed.
#[export] Hint Resolve rt_opt : resp.

Lemma rt_stringlist : forall l, wf_string_list l = true -> reads rd_stringlist (enc_string_list l) l.
Proof.
  intros l H. unfold wf_string_list in H. bsplit. unfold rd_stringlist, enc_string_list. field.
  apply (rt_list _ _ _ _ rt_string). assumption.
Qed.
#[export] Hint Resolve rt_stringlist : resp.

Lemma mem_In : forall k l, mem k l = true <-> In k l.
Proof. exact (memb_In (eq_listb Z.eqb) (eq_listb_spec Z.eqb Z.eqb_eq)). Qed.

Lemma dict_set_fresh : forall {V} k (v : V) d, mem k (map fst d) = false -> dict_set k v d = d ++ [(k, v)].
Proof.
  induction d as [|[k' v'] d IH]; cbn; intros H; [reflexivity|].
  apply orb_false_elim in H. destruct H as [H1 H2]. rewrite H1. f_equal. auto.
Qed.

Lemma nodup_NoDup : forall l, nodup l = true -> NoDup l.
Proof.
  induction l as [|x l IH]; intros H; constructor; apply andb_prop in H; destruct H as [M N]; [|auto].
  intros I. apply mem_In in I. rewrite I in M. discriminate.
Qed.

Lemma dict_of_nodup : forall {V} (l : list (list Z * V)), nodup (map fst l) = true -> dict_of l = l.
Proof.
  intros V l H. unfold dict_of. rewrite (fold_set_fresh dict_set (fun kv => kv)); [apply map_id| |exact (nodup_NoDup _ H)].
  intros k v d Hk. apply dict_set_fresh. destruct (mem k (map fst d)) eqn:E; [apply mem_In in E; tauto|reflexivity].
Qed.

Lemma rt_dict : forall {V} (enc : list Z * V -> list Z) (p : P (list Z * V)) (ok : list Z * V -> bool) m,
  (forall kv, ok kv = true -> reads p (enc kv) kv) -> forallb ok m = true -> nodup (map fst m) = true ->
  reads (l <- rd_count (len m) p ;; ret (dict_of l)) (enc_list enc m) m.
Proof.
  intros V enc p ok m H W N. eapply reads_last; [exact (rt_list _ _ _ _ H W)|].
  rewrite (dict_of_nodup _ N). apply reads_ret.
Qed.

Lemma assoc_del_fresh : forall {V} k (l : list (list Z * V)), mem k (map fst l) = false -> assoc_del k l = l.
Proof.
  induction l as [|[k' v'] l IH]; cbn; intros H; [reflexivity|].
  apply orb_false_elim in H. destruct H as [H1 H2]. rewrite H1. cbn. f_equal. auto.
Qed.

Lemma dict_pop_spec : forall {V} k (l : list (list Z * V)),
  nodup (map fst l) = true -> mem k (map fst l) = true ->
  exists v, assoc_get k l = Some v /\ dict_pop k l = Some (v, assoc_del k l).
Proof.
  induction l as [|[k' v'] l IH]; cbn; intros N M; [discriminate|].
  apply andb_prop in N. destruct N as [N1 N2].
  destruct (list_eqb k k') eqn:E.
  - exists v'. split; [reflexivity|].
    apply list_eqb_eq in E. subst k'.
    apply negb_true_iff in N1. fold (assoc_del k l). rewrite (assoc_del_fresh _ _ N1). reflexivity.
  - destruct (IH N2 M) as [v [G Pp]]. exists v. split; [exact G|]. rewrite Pp. reflexivity.
Qed.

Lemma rt_bytesmap : forall o,
  (len o <? 65536) && nodup (map fst o) && forallb (fun kv => wf_string (fst kv) && wf_obytes (snd kv)) o = true ->
  reads rd_bytesmap (enc_bytes_map o) o.
Proof.
  intros o W. apply andb_prop in W. destruct W as [W F]. apply andb_prop in W. destruct W as [L N].
  unfold rd_bytesmap, enc_bytes_map. field.
  refine (rt_dict _ _ _ _ _ F N). intros [k v] W. bsplit. apply rt_pair; auto with resp wf.
Qed.

Lemma rt_stringmultimap : forall o,
  (len o <? 65536) = true -> nodup (map fst o) = true ->
  forallb (fun kv => wf_string (fst kv) && wf_string_list (snd kv)) o = true ->
  reads rd_stringmultimap (enc_string_multimap o) o.
Proof.
  intros o L N F. unfold rd_stringmultimap, enc_string_multimap. field.
  refine (rt_dict _ _ _ _ _ F N). intros [k v] W. bsplit. apply rt_pair; auto with resp wf.
Qed.

Lemma spec_prim_known : forall pv c, spec_prim pv c = true -> prim_known c = true /\ wf_short c = true /\ (c =? 0) = false.
Proof. intros pv c H. unfold spec_prim in H. unfold prim_known, wf_short. lia. Qed.

(* rd_type's fuel: every nested read_type is given a shorter encoding, so the length of the encoding is enough *)
Lemma rt_type : forall pv fuel t, wf_type pv t = true ->
  (List.length (enc_type t) < fuel)%nat -> reads (rd_type fuel) (enc_type t) t.
Proof.
  induction fuel as [|fuel IH]; intros t W F; [lia|].
  destruct t as [s|c|t|t|k v|ks nm fs|ts]; cbn [wf_type] in W; cbn [enc_type rd_type].
  (* F: the fuel exceeds the two bytes of the type code plus the lengths of the parts *)
  all: cbn [enc_type] in F; rewrite ?app_length in F; change (List.length (enc_short _)) with 2%nat in F.
  - (* TCustom *) apply andb_prop in W. destruct W as [Ws Wc]. field. ctest. field. rewrite Wc. apply reads_ret.
  - (* TPrim *) destruct (spec_prim_known _ _ W) as [K [S N]]. field. rewrite N, K. apply reads_ret.
  - (* TList *) field. ctest. field_by ltac:(apply IH; [exact W|lia]). apply reads_ret.
  - (* TSet *) field. ctest. field_by ltac:(apply IH; [exact W|lia]). apply reads_ret.
  - (* TMap *) apply andb_prop in W. destruct W as [Wk Wv]. field. ctest.
    field_by ltac:(apply IH; [exact Wk|lia]). field_by ltac:(apply IH; [exact Wv|lia]). apply reads_ret.
  - (* TUdt *) apply andb_prop in W. destruct W as [W Wfs]. bsplit. field. ctest. do 3 field.
    field_by ltac:(eapply (rt_count _ _ (fun p => p)); [intros [fn ft] Wp L|exact Wfs]).
    + cbn [fst snd] in *. rewrite app_length in L. unfold enc_list in L. bsplit.
      field. field_by ltac:(apply IH; [assumption|clear -F L; lia]). apply reads_ret.
    + rewrite map_id. destruct (len fs =? 0) eqn:E; [lia|]. apply reads_ret.
  - (* TTuple *) apply andb_prop in W. destruct W as [Wl Wts]. field. ctest. field.
    field_by ltac:(eapply (rt_count _ _ (fun t => t)); [intros x Wx L|exact Wts]).
    + unfold enc_list in L. apply IH; [exact Wx|lia].
    + rewrite map_id. apply reads_ret.
Qed.

Lemma rt_type_top : forall pv t, wf_type pv t = true -> reads rd_type_top (enc_type t) t.
Proof. intros pv t W rest. unfold rd_type_top. eapply rt_type; [eassumption|]. rewrite app_length. lia. Qed.
#[export] Hint Resolve rt_type_top : resp.

(* <global_table_spec>?<col_spec>* read back under the flag the encoder set, then the rest by K *)
Lemma rt_glob_cols : forall {B} pv cs flags (K : list colspec -> P B) e b,
  wf_cols pv cs = true -> has flags 1 = cols_global cs -> reads (K (cols_list cs)) e b ->
  reads (glob <- rd_glob flags ;; cols <- rd_colspecs glob (cols_count cs) ;; K cols) (enc_cols cs ++ e) b.
Proof.
  intros B pv cs flags K e b W G HK. unfold rd_glob, rd_colspecs. rewrite G. unfold wf_cols in W.
  apply andb_prop in W. destruct W as [_ W].
  destruct cs as [ks tb cols|cols]; cbn [cols_global cols_count cols_list enc_cols] in *.
  - apply andb_prop in W. destruct W as [Wkt Wcols]. apply andb_prop in Wkt. destruct Wkt as [Wks Wtb].
    rewrite (app_assoc (enc_string ks)), <- (app_assoc _ _ e).
    field_by ltac:(eapply reads_last; [apply rt_pair; auto with resp|apply reads_ret]).
    field_by ltac:(eapply rt_count; [intros [n t] Wc _|exact Wcols]); [|exact HK]. cbn [fst snd] in Wc. bsplit. fields.
  - apply reads_absent. field_by ltac:(eapply rt_list; [intros [k t n ty] Wc|exact W]); [|exact HK].
    cbn [c_ks c_tbl c_name c_type] in Wc. bsplit. fields.
Qed.

Lemma flags_has : forall g p n i,
  let f := b2z g 1 + b2z p 2 + b2z n 4 + b2z i 8 in
  has f 1 = g /\ has f 2 = p /\ has f 4 = n /\ has f 8 = i /\ has f 1073741824 = false /\ wf_int f = true.
Proof. intros [] [] [] []; vm_compute; repeat split. Qed.

Lemma rt_rmeta : forall pv m, wf_rmeta pv m = true -> reads rd_results_metadata (enc_rmeta m) (exact_rmeta m).
Proof.
  intros pv [paging newid cols] W. unfold wf_rmeta in W. unfold rd_results_metadata, enc_rmeta, exact_rmeta.
  cbn [rm_paging rm_new_id rm_cols] in *.
  apply andb_prop in W. destruct W as [W Wcols]. apply andb_prop in W. destruct W as [Wpaging Wid].
  set (glob := match cols with McSome cs => cols_global cs | McNone _ => false end).
  set (nometa := match cols with McNone _ => true | McSome _ => false end).
  destruct (flags_has glob (is_some paging) nometa (is_some newid)) as (F1 & F2 & F4 & F8 & FC & FW).
  set (flags := b2z glob 1 + _ + _ + _) in *.
  assert (Wcount : wf_int (match cols with McNone n => n | McSome cs => cols_count cs end) = true).
  { destruct cols as [n|cs]; [|unfold wf_cols in Wcols]; apply andb_prop in Wcols; destruct Wcols; assumption. }
  do 2 field. rewrite F2, F4. field_by ltac:(exact (rt_opt _ (fun p => enc_bytes (Some p)) wf_lbytes _ rt_blong Wpaging)).
  destruct cols as [n|cs].
  - apply andb_prop in Wcols. destruct Wcols as [_ Wnoid]. destruct newid; [discriminate|]. apply reads_ret.
  - rewrite FC, F8. apply reads_absent. (* no continuous paging in the specification *)
    field_by ltac:(apply (rt_opt _ _ (fun i => wf_sbytes i && spec_metadata_id pv));
                   [intros i Wi; apply andb_prop in Wi; destruct Wi; auto with resp|exact Wid]).
    rewrite <- (app_nil_r (enc_cols cs)). apply (rt_glob_cols pv); [exact Wcols|exact F1|apply reads_ret].
Qed.
#[export] Hint Resolve rt_rmeta : resp.

Lemma rt_schema : forall pv sc, wf_schema_change pv sc = true ->
  reads (rd_schema_change pv) (enc_schema_change pv sc) (exact_schema sc).
Proof.
  intros pv [ch ks tg] W. unfold wf_schema_change in W. unfold rd_schema_change, enc_schema_change, exact_schema.
  cbn [sc_change sc_keyspace sc_target] in *.
  destruct (3 <=? pv); destruct tg; cbn [target_name orb] in *; bsplit; try discriminate;
    do 3 field; simpl (list_eqb _ _); cbv iota; fields.
  (* left: a table change on v1/v2, told from a keyspace change by its table name, which is not empty *)
  match goal with H : negb _ = true |- _ => apply negb_true_iff in H; rewrite H end. apply reads_ret.
Qed.
#[export] Hint Resolve rt_schema : resp.

Lemma len_cols_list : forall cs, len (cols_list cs) = cols_count cs.
Proof. destruct cs; [apply len_map|reflexivity]. Qed.

Lemma rt_rows_body : forall n (rows : list (list (option bytes))),
  forallb (fun row => (len row =? n) && forallb wf_obytes row) rows = true ->
  reads (rd_count (len rows) (rd_count n rd_value)) (enc_list (enc_list enc_bytes) rows) rows.
Proof.
  intros n rows H. refine (rt_list _ _ _ _ _ H). intros row W. apply andb_prop in W. destruct W as [L W].
  apply Z.eqb_eq in L. subst n. exact (rt_list _ _ _ _ rt_value W).
Qed.

Lemma rt_shortlist : forall l, wf_int (len l) && forallb wf_short l = true ->
  reads (n <- rd_int ;; rd_count n rd_short) (enc_int (len l) ++ enc_list enc_short l) l.
Proof. intros l W. bsplit. field. apply (rt_list _ _ _ _ rt_short). assumption. Qed.

Lemma rt_result : forall pv rm r, wf_result pv rm r = true -> reads (rd_result pv rm) (enc_result pv r) (exact_result rm r).
Proof.
  intros pv rm r W. destruct r as [|m rows|ks|id mid pk bind res|sc]; cbn [wf_result] in W;
    unfold rd_result; cbn [enc_result exact_result]; field; ctest.
  - (* ResVoid *) apply reads_ret.
  - (* ResRows *) bsplit. unfold rd_rows. do 2 field. unfold meta_count in *.
    destruct m as [paging newid [n|cs]]; cbn [rm_cols exact_rmeta mo_cols mo_paging mo_meta_id mo_cp_seq mo_cp_last] in *.
    + destruct rm as [c|]; [|discriminate]. destruct (len c =? n) eqn:E; [|discriminate]. apply Z.eqb_eq in E. subst n.
      bsplit. field_by ltac:(eapply rt_rows_body; eassumption). apply reads_ret.
    + rewrite <- len_cols_list in *. destruct (cols_list cs) as [|c0 cr] eqn:EC; [discriminate|].
      field_by ltac:(eapply rt_rows_body; eassumption). apply reads_ret.
  - (* ResSetKeyspace *) fields.
  - (* ResPrepared *) rewrite !andb_true_iff in W. destruct W as [[[[[[[Wid Emid] Wmid] Epk] Wpk] Wbind] Eres] Wres].
    apply eqb_prop in Emid, Epk, Eres. unfold rd_prepared. field.
    change (uses_prepared_metadata pv) with (spec_metadata_id pv). rewrite <- Emid, <- Epk.
    assert (FG : has (b2z (cols_global bind) 1) 1 = cols_global bind /\ wf_int (b2z (cols_global bind) 1) = true).
    { destruct (cols_global bind); split; reflexivity. }
    destruct FG as [FG FW].
    assert (Wc : wf_int (cols_count bind) = true) by (unfold wf_cols in Wbind; apply andb_prop in Wbind; tauto).
    do 3 field. field_by ltac:(exact (rt_opt _ _ _ _ rt_shortlist Wpk)). apply (rt_glob_cols pv); [assumption|exact FG|].
    destruct res as [m|], (2 <=? pv); try discriminate; fields.
  - (* ResSchemaChange *) field_by ltac:(exact (rt_schema pv sc W)). apply reads_ret.
Qed.
#[export] Hint Resolve rt_result : resp.

Lemma rt_write_type : forall wt, wf_wt wt = true -> reads rd_write_type (enc_string (wt_name wt)) wt.
Proof.
  intros wt H rest. unfold wf_wt in H.
  assert (C : wt = 0 \/ wt = 1 \/ wt = 2 \/ wt = 3 \/ wt = 4 \/ wt = 5 \/ wt = 6 \/ wt = 7) by lia.
  repeat (destruct C as [C|C]; [subst wt; vm_compute; reflexivity|]). subst wt; vm_compute; reflexivity.
Qed.

Lemma rt_bool : forall d, wf_byte d = true -> reads rd_bool [d] (negb (d =? 0)).
Proof.
  intros d H rest. unfold wf_byte in H. unfold rd_bool, rd_byte, pbind, ret. cbn [app].
  do 3 f_equal. destruct (d <? 128) eqn:E; [reflexivity|].
  destruct (d =? 0) eqn:E0, (d - 256 =? 0) eqn:E1; try reflexivity; lia.
Qed.

Lemma rt_inet_addr : forall a, wf_addr a = true -> reads rd_inet_addr (enc_inetaddr a) a.
Proof.
  intros a H rest. unfold wf_addr in H. unfold rd_inet_addr, enc_inetaddr. cbn [app].
  unfold pbind at 1. unfold rd_byte.
  assert (S : (if len a <? 128 then len a else len a - 256) = len a) by (destruct (len a <? 128) eqn:E; lia).
  rewrite S, (reads_prefix _ _ _ _ _ (rt_n a)), H, Z.eqb_refl. reflexivity.
Qed.
#[export] Hint Resolve rt_write_type rt_bool rt_inet_addr : resp.

Lemma rt_inet : forall a p, wf_addr a = true -> wf_int p = true -> reads rd_inet (enc_inet a p) (a, p).
Proof. intros. apply rt_pair; auto with resp wf. Qed.

Lemma rt_failures : forall pv f, wf_failures pv f = true -> reads (rd_failures pv) (enc_failures f) (exact_failures f).
Proof.
  intros pv f W. unfold rd_failures. change (uses_error_code_map pv) with (spec_reason_map pv).
  destruct f as [n|m]; cbn [wf_failures enc_failures exact_failures] in *.
  - bsplit. destruct (spec_reason_map pv); [discriminate|]. fields.
  - apply andb_prop in W. destruct W as [W Wm]. apply andb_prop in W. destruct W as [W Wnodup].
    apply andb_prop in W. destruct W as [Wv Wlen]. rewrite Wv.
    unfold rd_error_code_map. eapply reads_last; [|apply reads_ret]. field.
    eapply rt_dict; [|exact Wm|exact Wnodup]. intros [a c] Wp. bsplit. apply rt_pair; auto with resp wf.
Qed.
#[export] Hint Resolve rt_inet rt_failures : resp.

Lemma simple_code_class : forall c, existsb (Z.eqb c) simple_codes = true ->
  error_class c = spec_class c /\ wf_int c = true /\ (forall pv, rd_error_info pv (error_class c) = ret EiNone)
  /\ forall m, to_exception (BError (spec_class c) c m EiNone) = Some (documented_exception (ErrSimple c) m).
Proof.
  intros c H.
  repeat (apply orb_prop in H; destruct H as [H|H]; [apply Z.eqb_eq in H; subst c; repeat split; reflexivity|]).
  discriminate.
Qed.

Lemma err_code_class : forall pv e, wf_err pv e = true ->
  error_class (err_code e) = spec_class (err_code e) /\ wf_int (err_code e) = true.
Proof. intros pv e W. destruct e; try (split; reflexivity). destruct (simple_code_class _ W) as (C & I & _). split; assumption. Qed.

(* also for the errors the driver reads short: what they lose, they lose in decoding *)
Lemma exceptions_table : forall pv e m, wf_err pv e = true ->
  to_exception (BError (spec_class (err_code e)) (err_code e) m (exact_einfo e)) = Some (documented_exception e m).
Proof. intros pv e m W. destruct e; try reflexivity. apply simple_code_class. exact W. Qed.

Lemma response_exception : forall pv rm r e m, wf_spec pv rm r = true -> rs_body r = RError e m ->
  to_exception (exact_body pv rm (rs_body r)) = Some (documented_exception e m).
Proof.
  intros pv rm r e m W B. unfold wf_spec in W. rewrite B in *. cbn [wf_rbody exact_body] in *. bsplit.
  apply (exceptions_table pv). assumption.
Qed.

(* recv_error_info as the driver has it: no class for CAS_WRITE_UNKNOWN, no <contentions> in Write_timeout *)
Definition driver_einfo (e : err) : einfo :=
  match e with
  | ErrCasWriteUnknown _ _ _ => EiNone
  | ErrWriteTimeout cl rc bf wt _ => EiWriteTimeout cl rc bf wt None
  | _ => exact_einfo e
  end.

(* ... read from a prefix e1 of what the specification puts after the message *)
Lemma rt_error_info : forall pv e, wf_err pv e = true ->
  exists e1 e2, enc_err e = e1 ++ e2 /\ reads (rd_error_info pv (error_class (err_code e))) e1 (driver_einfo e).
Proof.
  intros pv e W.
  destruct e as [code|cl rq al|cl rc bf wt [c|]|cl rc bf d|cl rc bf f d|ks fn args|cl rc bf f wt|cl rc bf|ks tb|id];
    cbn [wf_err err_code enc_err] in *.
  1: destruct (simple_code_class _ W) as (_ & _ & E & _); rewrite (E pv).   (* ErrSimple *)
  2-11: bsplit; cbv [error_class Z.eqb Pos.eqb]; cbn [rd_error_info].
  (* all but two are read to their end *)
  all: try solve [eexists _, []; split; [symmetry; apply app_nil_r|fields]].
  - (* ErrWriteTimeout, contentions Some c *)
    exists (enc_short cl ++ enc_int rc ++ enc_int bf ++ enc_string (wt_name wt)), (enc_short c).
    split; [rewrite <- !app_assoc; reflexivity|fields].
  - (* ErrCasWriteUnknown *)
    exists [], (enc_short cl ++ enc_int rc ++ enc_int bf). split; [reflexivity|apply reads_ret].
Qed.

Lemma rt_error_body : forall pv rm code m e info,
  wf_int code = true -> wf_string m = true -> reads (rd_error_info pv (error_class code)) e info ->
  reads (rd_body pv rm 0) (enc_int code ++ enc_string m ++ e) (BError (error_class code) code m info).
Proof. intros. unfold rd_body. ctest. fields. Qed.

Lemma rt_event : forall pv e, wf_event pv e = true ->
  reads (rd_event pv) (enc_event pv e)
        (event_name e, match e with
                       | EvTopologyChange c a p | EvStatusChange c a p => EaNode c a p
                       | EvSchemaChange sc => EaSchema (exact_schema sc)
                       end).
Proof.
  intros pv e W. unfold rd_event, enc_event.
  destruct e; cbn [wf_event event_name] in *; bsplit; field; simpl (list_eqb _ _); cbn [orb]; cbv iota; fields.
Qed.
#[export] Hint Resolve rt_event : resp.

(* what the driver hands over for a body the specification allows *)
Definition delivered (pv : Z) (rm : option (list colspec)) (b : rbody) : option mbody :=
  match b with
  | RError e m => Some (BError (spec_class (err_code e)) (err_code e) m (driver_einfo e))
  | RAuthSuccess (Some t) => if utf8_valid t then Some (BAuthSuccess t) else None
  | _ => Some (exact_body pv rm b)
  end.

Lemma reads_delivers : forall {A} (p : P A) e x rest, reads p e x -> option_map fst (p (e ++ rest)) = Some x.
Proof. intros A p e x rest H. rewrite H. reflexivity. Qed.

Lemma rd_body_delivers : forall pv rm r, wf_rbody pv rm (rs_body r) = true ->
  option_map fst (rd_body pv rm (spec_opcode r) (enc_rbody pv (rs_body r))) = delivered pv rm (rs_body r).
Proof.
  (* only the body matters; r is a whole response because spec_opcode is a function of one *)
  intros pv rm [tr wa pa b] W. unfold spec_opcode. cbn [rs_body] in *. rewrite <- (app_nil_r (enc_rbody pv b)).
  (* READY and the null AUTH tokens (read by f.read(-1): up to the end of the frame) are evaluated *)
  destruct b as [e m| |a|o|res|ev|[t|]|[t|]]; cbn [wf_rbody enc_rbody exact_body delivered] in *; try reflexivity;
    try solve [bsplit; apply reads_delivers; unfold rd_body; ctest; fields].
  - (* RError *)
    apply andb_prop in W. destruct W as [Wm We].
    destruct (err_code_class _ _ We) as [C I]. rewrite <- C. destruct (rt_error_info pv e We) as (e1 & e2 & -> & R).
    replace ((enc_int (err_code e) ++ enc_string m ++ e1 ++ e2) ++ []) with ((enc_int (err_code e) ++ enc_string m ++ e1) ++ e2)
      by (rewrite app_nil_r, <- !app_assoc; reflexivity).
    apply reads_delivers, rt_error_body; assumption.
  - (* RSupported *)
    apply andb_prop in W. destruct W as [W Wo]. apply andb_prop in W. destruct W as [W Wcql].
    apply andb_prop in W. destruct W as [Wlen Wnodup].
    apply reads_delivers. unfold rd_body. ctest. field_by ltac:(apply rt_stringmultimap; assumption).
    destruct (dict_pop_spec _ _ Wnodup Wcql) as [v [Gv Pp]]. rewrite Pp, Gv. apply reads_ret.
  - (* RAuthSuccess (Some t) *)
    unfold rd_body. ctest. unfold rd_longstring, pbind. rewrite (rt_blong t W []). unfold rd_utf8.
    destruct (utf8_valid t); reflexivity.
Qed.

Lemma delivered_exact : forall pv rm r,
  delivered pv rm (rs_body r) = Some (exact_body pv rm (rs_body r)) <-> driver_gap r = false.
Proof.
  intros pv rm [tr wa pa b]. unfold driver_gap. cbn [rs_body].
  destruct b as [e m| | | | | | |[t|]]; try (split; reflexivity).
  - (* RError *)
    destruct e as [| |? ? ? ? [c|]| | | | | | |]; split; first [reflexivity|discriminate].
  - (* RAuthSuccess (Some t) *) cbn [delivered]. destruct (utf8_valid t); split; first [reflexivity|discriminate].
Qed.

Lemma rt_uuid : forall t, (len t =? 16) = true -> reads rd_uuid t t.
Proof. intros t H. apply Z.eqb_eq in H. unfold rd_uuid. rewrite <- H. field. rewrite Z.eqb_refl. apply reads_ret. Qed.

Lemma decode_message_rd_body : forall pv rm stream r, wf_spec pv rm r = true ->
  decode_message pv rm stream (spec_flags r) (spec_opcode r) (spec_body pv r)
  = option_map (mkmsg stream (rs_trace r) (rs_warnings r) (rs_payload r))
               (option_map fst (rd_body pv rm (spec_opcode r) (enc_rbody pv (rs_body r)))).
Proof.
  intros pv rm stream [tr wa pa b] W. unfold wf_spec in W. cbn [rs_trace rs_warnings rs_payload rs_body] in *.
  apply andb_prop in W. destruct W as [W Wb]. apply andb_prop in W. destruct W as [W Wp].
  apply andb_prop in W. destruct W as [W Ww]. apply andb_prop in W. destruct W as [_ Wt].
  unfold decode_message, spec_flags, spec_body. cbn [rs_trace rs_warnings rs_payload rs_body].
  (* the frame's flags are a flags word without bit 1 (no compression); trace 2, payload 4, warnings 8 *)
  destruct (flags_has false (is_some tr) (is_some pa) (is_some wa)) as (F1 & F2 & F4 & F8 & _).
  cbn [b2z Z.add] in F1, F2, F4, F8. rewrite F1, F2, F4, F8, andb_false_r.
  rewrite (reads_prefix _ _ _ _ _ (rt_opt _ _ _ _ rt_uuid Wt)), (reads_prefix _ _ _ _ _ (rt_opt _ _ _ _ rt_stringlist Ww)),
          (reads_prefix _ _ _ _ _ (rt_opt _ _ _ _ rt_bytesmap Wp)).
  unfold pbind. destruct (rd_body pv rm (spec_opcode (mkresp tr wa pa b)) (enc_rbody pv b)) as [[v l]|]; reflexivity.
Qed.

Theorem decode_delivers : forall pv rm stream r, wf_spec pv rm r = true ->
  decode_message pv rm stream (spec_flags r) (spec_opcode r) (spec_body pv r)
  = option_map (mkmsg stream (rs_trace r) (rs_warnings r) (rs_payload r)) (delivered pv rm (rs_body r)).
Proof.
  intros pv rm stream r W. rewrite (decode_message_rd_body _ _ _ _ W).
  unfold wf_spec in W. apply andb_prop in W. rewrite (rd_body_delivers pv rm r (proj2 W)). reflexivity.
Qed.

Lemma list_eqb_neq : forall a b, list_eqb a b = false -> a <> b.
Proof. intros a b H E. subst. rewrite list_eqb_refl in H. discriminate. Qed.

Lemma len_app : forall {A} (a b : list A), len (a ++ b) = len a + len b.
Proof. intros. unfold len. rewrite app_length. lia. Qed.

Lemma len_cons : forall {A} (x : A) l, len (x :: l) = len l + 1.
Proof. unfold len. cbn [List.length]. lia. Qed.

Lemma map_id' : forall {A} (l : list A), map (fun x => x) l = l.
Proof. apply map_id. Qed.

Lemma wf_int_len_wf : forall {A} (l : list A), wf_int (len l) = true -> (len l <? 2147483648) = true.
Proof. intros A l. unfold wf_int. lia. Qed.
