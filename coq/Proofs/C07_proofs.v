(* C07 (murmur3 part): the C-semantics model of cmurmur3.c equals the Java-semantics spec, hence (C08) the
   pure-Python implementation, for every key. *)
From Coq Require Import ZArith List Lia.
From Verif Require Import ByteWords Murmur3Spec Murmur3C Bits64 C08_proofs.
Import ListNotations.
Local Open Scope Z_scope.

(* (uint64_t) x is the word x stands for, (int64_t) x its signed reading; every C operation ends in one of the two casts *)
Lemma u64_wrap x : u64 x = wrap x.
Proof. reflexivity. Qed.
Lemma wrap_i64 x : wrap (i64 x) = wrap x.
Proof. change (i64 x) with (sext64 (wrap x)). rewrite wrap_sext64. apply wrap_wrap. Qed.

Lemma wrap_c_mul a b : wrap (c_mul a b) = mul64 (wrap a) (wrap b).
Proof. unfold c_mul. rewrite wrap_i64. apply wrap_mul. Qed.
Lemma wrap_c_add a b : wrap (c_add a b) = add64 (wrap a) (wrap b).
Proof. unfold c_add. rewrite wrap_i64. apply wrap_add. Qed.
Lemma wrap_c_xor a b : wrap (c_xor a b) = Z.lxor (wrap a) (wrap b).
Proof. unfold c_xor. rewrite wrap_i64, wrap_lxor, (u64_wrap a), (u64_wrap b), !wrap_wrap. reflexivity. Qed.
Lemma wrap_c_shl a k : 0 <= k -> wrap (c_shl a k) = wrap (Z.shiftl a k).
Proof. intros Hk. unfold c_shl. rewrite wrap_i64, Z.shiftl_mul_pow2 by exact Hk. reflexivity. Qed.

Lemma wrap_c_rotl x r : 0 < r < 64 -> wrap (c_rotl x r) = rotl64s (wrap x) r.
Proof.
  intros Hr. unfold c_rotl, rotl64s. rewrite M64_wrap, wrap_i64, (u64_wrap x), (u64_wrap (c_shl x r)), !wrap_lor. f_equal.
  rewrite wrap_wrap, wrap_c_shl by lia. apply wrap_shiftl. lia.
Qed.

Lemma wrap_c_fstep k : wrap (c_xor k (Z.shiftr (u64 k) 33)) = Z.lxor (wrap k) (Z.shiftr (wrap k) 33).
Proof. rewrite wrap_c_xor, (u64_wrap k), wrap_shiftr by lia. reflexivity. Qed.

Lemma c_ops : word_ops c_mul c_add c_xor c_rotl c_shl (fun k => c_xor k (Z.shiftr (u64 k) 33)) cC1 cC2
                      (i64 18397679294719823053) (i64 14181476777654086739).
Proof.
  refine {| mul_wrap := wrap_c_mul; add_wrap := wrap_c_add; xor_wrap := wrap_c_xor; rotl_wrap := wrap_c_rotl; shl_wrap := wrap_c_shl;
            fstep_wrap := wrap_c_fstep; c1_wrap := _; c2_wrap := _; f1_wrap := _; f2_wrap := _ |}; reflexivity.
Qed.

Lemma wrap_c_fmix k : wrap (c_fmix k) = fmix64 (wrap k).
Proof. exact (g_fmix c_ops k). Qed.

(* what comes out of an (int64_t) cast is determined by its word *)
Lemma c_add_canonical a b : c_add a b = sext64 (wrap (c_add a b)).
Proof. unfold c_add. rewrite wrap_i64. reflexivity. Qed.

(* by conversion: c_round, c_rounds and c_tail_word are g_round, g_rounds and g_tail over the C operations; c_down and down
   are one Fixpoint under two names *)
Lemma murmur3_c_gen key : murmur3_c key = g_murmur3 c_mul c_add c_xor c_rotl c_shl cC1 cC2 c_fmix key.
Proof. reflexivity. Qed.

Lemma murmur3_c_correct key : murmur3_c key = murmur3_long key.
Proof.
  unfold murmur3_long. rewrite <- (g_murmur3_wrap c_ops c_fmix wrap_c_fmix), murmur3_c_gen.
  unfold g_murmur3. cbv zeta. destruct (g_rounds c_mul c_add c_xor c_rotl cC1 cC2 _ _). apply c_add_canonical.
Qed.
