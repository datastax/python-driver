(* C47: what the stations of C47_proofs say about compressor, checksumming and segment codec: `applied` holds from the
   moment the server accepts STARTUP, and the frames sent are framed accordingly. *)
From Coq Require Import ZArith List Bool.
From Verif Require Import Handshake C47_proofs.
Import ListNotations.
Local Open Scope Z_scope.

Definition applied (v : Z) (s : state) : Prop :=
  comp s = pcomp s /\ cksum s = has_cs v /\ (cksum s = true -> seglz4 s = is_some (pcomp s)).

Definition auth_frame_ok (v : Z) (pc : option Z) (f : frame) : Prop :=
  (f_kind f = MAuthResponse \/ f_kind f = MCredentials) ->
  f_compressed f = is_some pc && negb (has_cs v) /\ f_checksummed f = has_cs v /\ f_segcomp f = has_cs v && is_some pc.

Definition announces (o : list frame) (a : Z) : Prop := exists f, In f o /\ f_kind f = MStartup (Some a).

Lemma shape_applied v pc p n : applied v (shape v pc true p n).
Proof. repeat split. cbn. intros ->. reflexivity. Qed.

Lemma applied_after_accept {cfg h s o} : reached cfg h s o -> c_guard cfg = true ->
  authphase s \/ reported_ready s = true -> applied (c_version cfg) s.
Proof.
  intros [h0 s0 o0 H | h0 s0 o0 more df le H E _] Hg Hr.
  - destruct H; try apply shape_applied; destruct Hr as [[Hr|Hr]|Hr]; discriminate.
  - (* ended without an error under the guard: it was ready *)
    destruct Hr as [[Hr|Hr]|Hr]; try discriminate. destruct le; [discriminate|]. specialize (E eq_refl Hg).
    destruct H; try discriminate. apply shape_applied.
Qed.

Record frames_ok (v : Z) (pc : option Z) (o : list frame) : Prop := {
  checksummed_ok : Forall (fun f => f_checksummed f = true -> has_cs v = true) o;
  auth_frames_ok : Forall (auth_frame_ok v pc) o;
  announced : forall a, pc = Some a -> announces o a
}.

Lemma sent_ok cfg pc ks : frames_ok (c_version cfg) pc (sent_so_far cfg pc ks).
Proof.
  constructor.
  - apply Forall_forall. intros f Hin. destruct (in_sent Hin) as [-> |[-> |(w & ->)]]; try discriminate. auto.
  - apply Forall_forall. intros f Hin. destruct (in_sent Hin) as [-> |[-> |(w & ->)]];
      try (intros [E|E]; discriminate E). intros _. auto.
  - intros a ->. exists (startup_frame (Some a)). split; [right; left|]; reflexivity.
Qed.

Lemma reached_frames {cfg h s o} : reached cfg h s o ->
  (cksum s = true -> has_cs (c_version cfg) = true) /\ frames_ok (c_version cfg) (pcomp s) o.
Proof.
  assert (Hst : forall h s o, station cfg h s o ->
    (cksum s = true -> has_cs (c_version cfg) = true) /\ frames_ok (c_version cfg) (pcomp s) o).
  { intros h0 s0 o0 [|remote pc En|remote pc w rest ks En _|remote pc rest ks En _].
    - (* at_options *) split; [discriminate|]. constructor; [repeat constructor; discriminate | | discriminate].
      constructor; [intros [E|E]; discriminate E | constructor].
    - split; [discriminate | apply sent_ok].
    - split; [cbn; auto | apply sent_ok].
    - split; [cbn; auto | apply sent_ok]. }
  intros [h0 s0 o0 H | h0 s0 o0 more df le H _ _]; exact (Hst _ _ _ H).
Qed.
