(* C14 (other statements sharing a connection): the stream the future points at (_connection, _req_id) is always one it sent
   itself on that connection, so _on_timeout can only withdraw its own request. *)
From Coq Require Import ZArith List.
From Verif Require Import ListFacts FutureState FutureOnce FutureOnce_effects.
Import ListNotations.
Local Open Scope Z_scope.

Definition OwnInv (s : state) : Prop :=
  forall r, cur_req s = Some r -> exists c, nth_error (map ahost (attempts s)) r = Some c /\ cur_conn s = Some c.

Definition own_frame (s s' : state) : Prop :=
  cur_req s' = cur_req s /\ cur_conn s' = cur_conn s /\ map ahost (attempts s') = map ahost (attempts s).

Lemma own_frame_refl s : own_frame s s.
Proof. repeat split. Qed.

Lemma own_keep s s' : own_frame s s' -> OwnInv s -> OwnInv s'.
Proof. intros (h1 & h2 & h3) H r Hr. rewrite h1 in Hr. rewrite h2, h3. apply H, Hr. Qed.

Lemma calm_own s s' : calm s s' -> own_frame s s'.
Proof. intros (_ & _ & (h1 & h2 & _) & h3). unfold own_frame. rewrite h1. repeat split; assumption. Qed.

Lemma Own_query_gen prep h s : OwnInv s -> OwnInv (fst (query_gen prep h s)).
Proof.
  intros H. unfold query_gen. destruct (pool_of _ _).
  - (* POk *) intros r Hr. inversion Hr. exists h. cbn. rewrite nth_error_map, nth_error_app_len. split; reflexivity.
  - (* PNoConn *) eapply own_keep; [|exact H]. repeat split.
  - (* PSendFail *) intros r Hr. discriminate.
  - (* PShutdown *) exact H.
  - (* PMissing *) exact H.
Qed.

Lemma Own_clear a s : OwnInv s -> OwnInv (clear_req a s).
Proof.
  intros H r Hr. cbn in Hr. destruct (cur_req s) as [r0|] eqn:E; [|discriminate].
  destruct (r0 =? a)%nat; [discriminate|]. inversion Hr. subst r0. exact (H r E).
Qed.

Lemma eff_Own g s s' : Eff g s s' -> OwnInv s -> OwnInv s'.
Proof.
  induction 1 as [s|s1 s2 s3 _ IH1 _ IH2|s s' (_ & _ & Ho & _)|k d s|o s _|prep h s|a s|q s _|s _]; intros H; try exact H.
  - apply IH2, IH1, H.
  - (* frame *) exact (own_keep _ _ Ho H).
  - destruct (set_final_frame g o s) as (_ & h1 & (h2 & h3 & _) & _).
    eapply own_keep; [|exact H]. unfold own_frame. rewrite h2. repeat split; assumption.
  - apply Own_query_gen, H.
  - apply Own_clear, H.
Qed.

Lemma Own_step g pf s o : OwnInv s -> OwnInv (step g pf s o).
Proof.
  intros H. destruct (step_Op g pf s o) as [o s' E|d|k t _|pl _|]; try exact H.
  - exact (eff_Own g _ _ E H).
  - exact (eff_Own g _ _ (eff_handler g t (timer_fired k s)) H).
  - eapply eff_Own; [apply eff_send_request|].
    destruct (page_start_keeps pf pl s) as (ha & hc & hr & _).
    eapply own_keep; [|exact H]. unfold own_frame. rewrite ha, hc, hr, hosts_stale. repeat split.
Qed.

Lemma Own_init c : OwnInv (init c).
Proof. eapply own_keep; [apply calm_own, calm_start_timer|]. intros r Hr. discriminate. Qed.

Lemma Own_run g pf h s : OwnInv s -> OwnInv (run g pf s h).
Proof. exact (fold_left_inv _ _ (Own_step g pf) h s). Qed.
