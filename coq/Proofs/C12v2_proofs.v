(* Invariants of Model/PoolV2.v (HostConnectionPool, protocol v1/v2), on the plan of C12_proofs: the accounting of each connection (LInvA),
   who holds an open connection (LOwn) and how far shutdown() has come (LSd), the last two as predicates over the fields they read.
   A region moves at most one id between the pool's lists: lown_move and lphases_move ask where that id ends up. *)
From Coq Require Import ZArith List Bool Lia.
From Verif Require Import Pool ListFacts Pool_base PoolV2.
Import ListNotations.
Local Open Scope Z_scope.

Definition lcok (mx : Z) (k : lconn) : Prop :=
  0 <= l_live k /\ 0 <= l_orph k /\ l_inflight k = l_live k + l_orph k /\ l_inflight k <= mx /\ (l_defunct k = true -> l_closed k = true).

Definition LInvA (s : lstate) : Prop := 0 <= lmaxid s /\ forall c, lcok (lmaxid s) (lget s c).

Lemma lcok_new mx : 0 <= mx -> lcok mx new_lconn.
Proof. unfold lcok; simpl; intuition lia. Qed.

Ltac lcok_arith := unfold lcok in *; simpl; intuition lia.

(* the guard of each lemma is the test, as the region makes it *)
Lemma lcok_take mx k : lcok mx k -> (l_inflight k <? mx) = true -> lcok mx (j_take k).
Proof. lcok_arith. Qed.
Lemma lcok_give mx k : lcok mx k -> (0 <? l_live k) = true -> lcok mx (j_give k).
Proof. lcok_arith. Qed.
Lemma lcok_orphan mx k : lcok mx k -> (0 <? l_live k) = true -> lcok mx (j_orphan k).
Proof. lcok_arith. Qed.
Lemma lcok_late mx k : lcok mx k -> (0 <? l_orph k) = true -> lcok mx (j_late k).
Proof. lcok_arith. Qed.
Lemma lcok_signal mx k : lcok mx k -> lcok mx (j_signal k).
Proof. lcok_arith. Qed.
Lemma lcok_close mx k : lcok mx k -> lcok mx (j_close k).
Proof. lcok_arith. Qed.
Lemma lcok_defunct mx k : lcok mx k -> lcok mx (j_defunct k).
Proof. lcok_arith. Qed.

Create HintDb lcok discriminated.
#[local] Hint Resolve lcok_take lcok_give lcok_orphan lcok_late lcok_signal lcok_close lcok_defunct : lcok.

Lemma LInvA_step s o : LInvA s -> LInvA (fst (lstep s o)).
Proof.
  intros [Hm HA].
  assert (Hi : forall s', lmaxid s' = lmaxid s -> all_nth (lcok (lmaxid s)) new_lconn (lconns s') -> LInvA s').
  { intros s' E H. split; rewrite E; assumption. }
  (* every path through a region writes the table by [upd c j_..] behind the guard that the lcok lemma of that j_.. asks for *)
  destruct o; simpl; split_step; bool_hyps; apply Hi; try reflexivity;
    repeat (apply all_nth_upd; [auto with lcok|]); try exact HA.
  - (* LTaskConnect *) apply all_nth_app. exact HA.
  - (* LShutdownTrash *) apply all_nth_upd_all; [auto with lcok|exact HA].
Qed.

Lemma nth_repeat_new c n : nth c (repeat new_lconn n) new_lconn = new_lconn.
Proof. apply nth_repeat. Qed.

Lemma LInvA_init n co mc mx mr mn : 0 <= mx -> LInvA (linit n co mc mx mr mn).
Proof. intros H. split; [exact H|]. intros c. unfold lget, linit; simpl. rewrite nth_repeat_new. apply lcok_new, H. Qed.

Lemma linv_capacity s c : LInvA s ->
  0 <= l_inflight (lget s c) <= lmaxid s /\ l_inflight (lget s c) = l_live (lget s c) + l_orph (lget s c).
Proof. intros [_ HA]. destruct (HA c) as (?&?&?&?&?). lia. Qed.

Lemma LInvA_run ops : forall s, LInvA s -> LInvA (lrun s ops).
Proof. exact (fold_left_inv _ _ LInvA_step ops). Qed.

Definition fresh_of (x : nat * (bool * nat)) : nat := snd (snd x).

Record lown (cs : list lconn) (act tr fresh clo : list nat) : Prop := {
  accounted : forall c, (c < length cs)%nat ->
    l_closed (nth c cs new_lconn) = true \/ In c act \/ In c tr \/ In c fresh \/ In c clo;
  listed_exist : forall c, In c act \/ In c tr \/ In c fresh -> (c < length cs)%nat
}.
Definition LOwn s := lown (lconns s) (active s) (ltrash s) (map fresh_of (appending s)) (map fst (closing s)).

Definition closes : list lconn -> list lconn -> Prop := entrywise (fun _ k k' => l_closed k = true -> l_closed k' = true) new_lconn.

Lemma closes_refl cs : closes cs cs.
Proof. split; auto. Qed.

Lemma closes_upd cs c f : (forall k, l_closed k = true -> l_closed (f k) = true) -> closes cs (upd c f cs).
Proof. intros Hf. apply (entrywise_upd (fun _ k k' => l_closed k = true -> l_closed k' = true)); auto. Qed.

Lemma closes_lclose_all l cs : closes cs (lclose_all l cs).
Proof. apply (entrywise_upd_all (fun _ k k' => l_closed k = true -> l_closed k' = true)); auto. Qed.

Lemma lown_fresh cs act tr fr cl : lown cs act tr fr cl -> lown (cs ++ [new_lconn]) act tr (fr ++ [length cs]) cl.
Proof.
  intros [Ac Le]. constructor; rewrite app_length; setoid_rewrite in_app_iff; simpl.
  - intros x L. rewrite nth_app_default. destruct (Nat.eq_dec x (length cs)) as [->|N]; [auto 7|].
    destruct (Ac x) as [C|[A|[T|[F|Cl]]]]; [lia|auto 7..].
  - intros x H. assert (x = length cs \/ x < length cs)%nat as [->|L]; [|lia..]. destruct H as [A|[T|[F|[<-|[]]]]]; auto.
Qed.

Lemma lown_closes cs act tr fr cl : lown cs act tr fr cl -> forall cs', closes cs cs' -> lown cs' act tr fr cl.
Proof. intros [Ac Le] cs' [L Hc]. constructor; rewrite L; [|exact Le]. intros c Lc. destruct (Ac c Lc); auto. Qed.

Definition same_but (c : nat) (l l' : list nat) : Prop := forall x, x <> c -> (In x l <-> In x l').

Lemma same_refl c l : same_but c l l.
Proof. intros x _. reflexivity. Qed.
Lemma same_del c l : same_but c l (del c l).
Proof. intros x N. rewrite In_del. tauto. Qed.
Lemma same_ins c l : same_but c l (ins c l).
Proof. intros x N. rewrite In_ins. tauto. Qed.
Lemma same_snoc c l : same_but c l (l ++ [c]).
Proof. intros x N. rewrite in_app_iff. simpl. intuition congruence. Qed.
Lemma same_cons c l : same_but c (c :: l) l.
Proof. intros x N. simpl. intuition congruence. Qed.

Lemma lown_move cs act tr fr cl : lown cs act tr fr cl -> forall c cs' act' tr' fr' cl', closes cs cs' ->
  same_but c act act' -> same_but c tr tr' -> same_but c fr fr' -> same_but c cl cl' ->
  ((c < length cs)%nat -> l_closed (nth c cs' new_lconn) = true \/ In c act' \/ In c tr' \/ In c fr' \/ In c cl') ->
  (In c act' \/ In c tr' \/ In c fr' -> In c act \/ In c tr \/ In c fr) ->
  lown cs' act' tr' fr' cl'.
Proof.
  intros [Ac Le] c cs' act' tr' fr' cl' [L Hc] Sa St Sf Sc Cov Sub.
  constructor; rewrite L; intros x; destruct (Nat.eq_dec x c) as [->|N]; auto.
  - intros Lx. rewrite <- (Sa x N), <- (St x N), <- (Sf x N), <- (Sc x N). destruct (Ac x Lx); auto.
  - rewrite <- (Sa x N), <- (St x N), <- (Sf x N). apply Le.
Qed.

Lemma find_tid_In {A} tid (l : list (nat * A)) a : find_tid tid l = Some a -> In (tid, a) l.
Proof.
  induction l as [|[i b] l IH]; simpl; [discriminate|]. destruct (Nat.eqb i tid) eqn:E.
  - intros H. injection H as <-. apply Nat.eqb_eq in E. subst. left; reflexivity.
  - intros H. right. apply IH, H.
Qed.

Lemma same_fresh tid (l : list (nat * (bool * nat))) t n : find_tid tid l = Some (t, n) ->
  same_but n (map fresh_of l) (map fresh_of (del_tid tid l)).
Proof.
  induction l as [|[i [t' n']] l IH]; simpl; [discriminate|]. destruct (Nat.eqb i tid).
  - intros H. injection H as _ ->. apply same_cons.
  - intros H x N. simpl. rewrite (IH H x N). reflexivity.
Qed.

Create HintDb lown discriminated.
#[local] Hint Resolve closes_refl closes_upd same_refl same_del same_ins same_snoc same_cons same_fresh : lown.

Lemma LOwn_step s o : LOwn s -> LOwn (fst (lstep s o)).
Proof.
  intros HO. pose proof (lown_move _ _ _ _ _ HO) as M.
  assert (U : forall c f, (forall k, l_closed k = true -> l_closed (f k) = true) -> LOwn (lupd s c f)).
  { intros c f Hf. apply (lown_closes _ _ _ _ _ HO), closes_upd, Hf. }
  assert (Kc : forall c, (c < length (lconns s))%nat -> l_closed (nth c (upd c j_close (lconns s)) new_lconn) = true).
  { intros c L. rewrite nth_upd_same by exact L. reflexivity. }
  destruct o; simpl.
  all: try solve [split_step; first [exact HO|apply U; auto]].
  (* [apply (M c)] names the id that moves and [auto with lown] finds that the lists keep the others; the last two goals say where c ends
     up (closed, by Kc, or on a list) and, if that is one of the first three lists, that it was on one *)
  - destruct (find_tid tid (adding s)); [|exact HO]. unfold LOwn; simpl. rewrite map_app. apply lown_fresh, HO.
  - destruct (find_tid tid (appending s)) as [[t n]|] eqn:F; [|exact HO].
    assert (Fn : In n (map fresh_of (appending s))) by apply (in_map fresh_of _ _ (find_tid_In _ _ _ F)).
    (* t decides only whether donec goes up *)
    destruct (lshut s).
    + destruct t; (apply (M n); simpl; [eauto with lown..|intros L; left; apply Kc, L|intros _; right; right; exact Fn]).
    + destruct t; (apply (M n); simpl; [eauto with lown..|intros _; right; left; apply in_elt|intros _; right; right; exact Fn]).
  - (* LReplaceRemove *)
    destruct (mem c (active s)); (apply (M c); simpl; rewrite ?map_app; simpl; [auto with lown..|intros _; do 4 right; apply in_elt|]).
    + intros [A|H]; auto. apply In_del in A. left. apply A.
    + auto.
  - (* LReplaceClose *)
    destruct (closing s) as [|[c []] r]; [exact HO|..]; (apply (M c); simpl; [auto with lown..|intros L; left; apply Kc, L|auto]).
  - (* LReturnTrash *) destruct (_ && _); [|exact HO]. apply (M c); simpl; [auto with lown..|intros L; left; apply Kc, L|].
    intros [A|[T|H]]; auto. apply In_del in T. right. left. apply T.
  - (* LTrash *) destruct (_ && _) eqn:E; [|exact HO]. apply andb_prop in E. destruct E as [Ac _]. apply mem_In in Ac.
    destruct (l_inflight (lget s c) =? 0).
    + apply (M c); simpl; [auto with lown..|intros L; left; apply Kc, L|intros _; left; exact Ac].
    + apply (M c); simpl; [auto with lown..|intros _; right; right; left; apply In_ins; auto|intros _; left; exact Ac].
  - (* LShutdownTrash *) destruct (_ && _); [|exact HO]. apply (lown_closes _ _ _ _ _ HO), closes_lclose_all.
Qed.

Lemma lvalid_lt s c : lvalid s c = true <-> (c < length (lconns s))%nat.
Proof. apply Nat.ltb_lt. Qed.

Lemma lget_close_all s l x :
  nth x (lclose_all l (lconns s)) new_lconn = if mem x l && lvalid s x then j_close (lget s x) else lget s x.
Proof. apply nth_upd_all. reflexivity. Qed.

Record lphases (cs : list lconn) (sh : bool) (ph : Z) (act todo tr : list nat) : Prop := {
  lsd_idle : sh = false -> ph = 0;
  lsd_loop : ph = 2 -> forall c, In c act -> l_closed (nth c cs new_lconn) = true \/ In c todo;
  lsd_over : ph = 3 -> forall c, In c act \/ In c tr -> l_closed (nth c cs new_lconn) = true
}.
Definition LSd s := lphases (lconns s) (lshut s) (lphase s) (active s) (sd_todo s) (ltrash s).

(* shutdown() closes what it found listed when its loop began: enough, since while the loop runs no id joins the active list and
   an active one leaves the to-do list only closed, and once it is over none joins the active list or the trash unless closed *)
Lemma lphases_move cs sh ph act todo tr : lphases cs sh ph act todo tr -> forall c cs' act' todo' tr', closes cs cs' ->
  same_but c act act' -> same_but c todo todo' -> same_but c tr tr' ->
  (ph = 2 -> In c act' -> In c act) ->
  (ph = 2 -> In c act -> In c todo -> l_closed (nth c cs' new_lconn) = true \/ In c todo') ->
  (ph = 3 -> In c act' \/ In c tr' -> (In c act \/ In c tr) \/ l_closed (nth c cs' new_lconn) = true) ->
  lphases cs' sh ph act' todo' tr'.
Proof.
  intros [I A O] c cs' act' todo' tr' [_ Hc] Sa Sd St Ha Hd Ht. constructor; [exact I| |]; intros P x; destruct (Nat.eq_dec x c) as [->|N].
  - intros Hx. destruct (A P c (Ha P Hx)); auto.
  - rewrite <- (Sa x N), <- (Sd x N). intros Hx. destruct (A P x Hx); auto.
  - intros Hx. destruct (Ht P Hx); auto.
  - rewrite <- (Sa x N), <- (St x N). auto.
Qed.

Lemma LSd_step s o : LOwn s -> LSd s -> LSd (fst (lstep s o)).
Proof.
  intros HO HS. pose proof (lphases_move _ _ _ _ _ _ HS) as M.
  assert (U : forall c f, (forall k, l_closed k = true -> l_closed (f k) = true) -> LSd (lupd s c f)).
  { intros c f Hf. apply (M c); simpl; auto with lown. }
  assert (D : forall c l, ~ In c (del c l)) by (intros c l H; apply In_del in H; apply (proj1 H); reflexivity).
  destruct o; simpl.
  all: try solve [split_step; first [exact HS|apply U; auto]].
  - destruct (find_tid tid (adding s)); [|exact HS]. destruct HS as [I A O].
    constructor; try setoid_rewrite nth_app_default; assumption.
  - destruct (find_tid tid (appending s)) as [[t n]|]; [|exact HS].
    destruct t, (lshut s) eqn:Sh; try (apply U; auto); unfold LSd; simpl; rewrite Sh.
    (* the pool is not shut down, so shutdown() has not reached its loop *)
    all: apply (M n); auto with lown; intros P; rewrite (lsd_idle _ _ _ _ _ _ HS Sh) in P; lia.
  - (* LReplaceRemove *) destruct (mem c (active s)); [|exact HS].
    apply (M c); simpl; [auto with lown..|intros _ H; destruct (D _ _ H)|auto|intros _ [H|H]; [destruct (D _ _ H)|auto]].
  - (* LReturnTrash *) destruct (_ && _); [|exact HS].
    apply (M c); simpl; [auto with lown..|auto|auto|intros _ [H|H]; [auto|destruct (D _ _ H)]].
  - (* LTrash *) destruct (_ && _) eqn:E; [|exact HS]. apply andb_prop in E. destruct E as [Ac _]. apply mem_In in Ac.
    destruct (_ =? _); (apply (M c); simpl; [auto with lown..|intros _ H; destruct (D _ _ H)|auto|intros _ _; left; left; exact Ac]).
  - (* LShutdownFlag *) destruct (lshut s); [exact HS|]. constructor; simpl; [discriminate|lia..].
  - (* LShutdownSnap *) destruct (lphase s =? 1) eqn:P; [|exact HS]. apply Z.eqb_eq in P. destruct HS as [I _ _].
    constructor; simpl; [intros F; apply I in F; lia|auto|lia].
  - (* LShutdownNext *) destruct (lphase s =? 2); [|exact HS].
    destruct (sd_todo s) as [|c r]; [destruct (sd_hot s); exact HS|].
    assert (HS' : LSd (lset_todo (lupd s c j_close) r)); [|destruct (sd_hot s); exact HS'].
    apply (M c); simpl; auto with lown. intros _ Hc _. left.
    (* c is still listed active, so it exists and the close takes effect *)
    rewrite nth_upd_same by (apply (listed_exist _ _ _ _ _ HO); auto). reflexivity.
  - (* LShutdownTrash *) destruct (_ && _) eqn:E; [|exact HS]. bool_hyps. destruct HS as [I A _].
    constructor; simpl; [intros F; apply I in F; lia|lia|]. intros _ x [Hx|Hx].
    + destruct (sd_todo s); [|discriminate]. destruct (A ltac:(assumption) x Hx) as [C|[]]. apply closes_lclose_all, C.
    + rewrite lget_close_all, (proj2 (mem_In x _) Hx), (proj2 (lvalid_lt _ _) (listed_exist _ _ _ _ _ HO x ltac:(auto))). reflexivity.
Qed.

Definition LInv (s : lstate) : Prop := LInvA s /\ LOwn s /\ LSd s.

Lemma LInv_step s o : LInv s -> LInv (fst (lstep s o)).
Proof. intros (HA&HO&HS). split; [apply LInvA_step, HA|split; [apply LOwn_step, HO|apply LSd_step; assumption]]. Qed.

Lemma LInv_init n co mc mx mr mn : 0 <= mx -> LInv (linit n co mc mx mr mn).
Proof.
  intros H. split; [apply LInvA_init, H|]. split; constructor; simpl; rewrite ?repeat_length; try discriminate.
  - (* accounted *) intros c L. right. left. apply in_seq. lia.
  - (* listed_exist *) intros c [A|[[]|[]]]. apply in_seq in A. lia.
  - (* lsd_idle *) reflexivity.
Qed.

Lemma LInv_run ops : forall s, LInv s -> LInv (lrun s ops).
Proof. exact (fold_left_inv _ _ LInv_step ops). Qed.

Lemma lmaxid_step s o : lmaxid (fst (lstep s o)) = lmaxid s.
Proof. destruct o; simpl; split_step; reflexivity. Qed.
Lemma lmaxid_run ops s : lmaxid (lrun s ops) = lmaxid s.
Proof. exact (fold_left_const _ lmaxid lmaxid_step ops s). Qed.

Lemma lshut_step s o : lshut s = true -> lshut (fst (lstep s o)) = true.
Proof. intros H. destruct o; simpl; split_step; congruence. Qed.
Lemma lshut_run ops : forall s, lshut s = true -> lshut (lrun s ops) = true.
Proof. exact (fold_left_inv _ _ lshut_step ops). Qed.

Lemma linv_closes s : LInv s -> lquiescent s = true -> lall_closed s = true.
Proof.
  intros (_&HO&HS) Hq. unfold lquiescent, lno_tasks in Hq.
  apply andb_prop in Hq. destruct Hq as [Hn P]. apply Z.eqb_eq in P.
  destruct (lqueue s); [|discriminate]. destruct (adding s); [|discriminate].
  destruct (appending s) eqn:Ap; [|discriminate]. destruct (closing s) eqn:Cl; [|discriminate].
  apply forallb_nth with (d := new_lconn). intros c Hlt. unfold LOwn in HO. rewrite Ap, Cl in HO.
  destruct (accounted _ _ _ _ _ HO c Hlt) as [H|[H|[H|[[]|[]]]]]; [exact H|apply (lsd_over _ _ _ _ _ _ HS P); auto..].
Qed.

Lemma lget_lupd s c f x : lget (lupd s c f) x = if Nat.eqb x c && lvalid s x then f (lget s x) else lget s x.
Proof. apply nth_upd. Qed.

Lemma In_del_tid {A} tid (l : list (nat * A)) x : In x (del_tid tid l) -> In x l.
Proof.
  induction l as [|[i a] l IH]; simpl; [tauto|]. destruct (Nat.eqb i tid); simpl; intuition.
Qed.

Lemma length_mono s o : (length (lconns s) <= length (lconns (fst (lstep s o))))%nat.
Proof.
  destruct o; simpl; split_step; unfold lclose_all; rewrite ?length_update_at, ?app_length, ?length_upd_all; lia.
Qed.
