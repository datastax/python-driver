(* C06 (Model/Segment.v): an answer of parse_seg other than SNeed is final (parse_seg_app), so a read ends on whole segments
   and the first bytes of one more (Segs_split); the loop hands the payload bytes of the segments it accepts, whatever they
   are, to the frame layer, which is the machine of C05 (run_segs); the encoder writes such segments (parse_seg_enc). *)
From Coq Require Import ZArith List Bool Lia ZifyBool.
From Verif Require Import Crc Stream Segment ListFacts Crc_proofs C05_proofs Seg_bytes C06_bridge.
Import ListNotations.
Local Open Scope Z_scope.

(* holds between two reads: whole frames stay in the frame buffer only while bytes of a segment wait *)
Definition settled (io fb : list Z) : Prop := io = [] -> parse1 fb = NeedMore.
Local Hint Unfold settled : core.

Section Decoder.
  Variable compression : bool.
  Variable decompress : list Z -> Z -> list Z.

  Notation parse_seg := (parse_seg compression decompress).
  Notation cloop := (cloop compression decompress).
  Notation cfeed := (cfeed compression decompress).
  Notation run_cfeed := (run_cfeed compression decompress).

  (* Segment.header_length and header_length_with_crc as byte counts *)
  Definition hl : nat := if compression then 5%nat else 3%nat.
  Definition hlc : nat := if compression then 8%nat else 6%nat.

  (* without compression parse_seg takes -1 for the uncompressed length, which the test compression && _ never looks at *)
  Definition seg_body (ul : Z) (enc : list Z) : list Z :=
    if compression && (0 <? ul) then decompress enc ul else enc.

  (* _process_segment_buffer once the header word and its CRC field have been read off the first hlc bytes *)
  Definition seg_after (hd crc : Z) (body : list Z) : sres :=
    if negb (compute_crc24 hd hl =? crc) then SBad else
    let pl := Z.land hd MAX_PAYLOAD_LENGTH in
    if blen body <? pl + 4 then SNeed else
    let enc := firstn (Z.to_nat pl) body in
    if negb (compute_crc32 enc CRC32_INITIAL =? le_val (firstn 4 (skipn (Z.to_nat pl) body))) then SBad
    else SOk (seg_body (Z.land (Z.shiftr hd 17) MAX_PAYLOAD_LENGTH) enc) (skipn (Z.to_nat pl + 4) body).

  Lemma hl_nat : Z.to_nat (header_length compression) = hl.
  Proof. unfold header_length, hl. destruct compression; reflexivity. Qed.

  Lemma hl_Z : Z.of_nat hl = header_length compression.
  Proof. unfold header_length, hl. destruct compression; reflexivity. Qed.

  Lemma hlc_Z : header_length_with_crc compression = Z.of_nat hlc.
  Proof. unfold header_length_with_crc, header_length, hlc. destruct compression; reflexivity. Qed.

  Lemma hlc_hl : hlc = (hl + 3)%nat.
  Proof. unfold hl, hlc. destruct compression; reflexivity. Qed.

  Lemma parse_seg_short : forall q, (length q < hlc)%nat -> parse_seg q = SNeed.
  Proof.
    intros q H. unfold Segment.parse_seg. rewrite hlc_Z.
    replace (blen q <? Z.of_nat hlc) with true by (unfold blen; lia). reflexivity.
  Qed.

  Lemma parse_seg_nil : parse_seg [] = SNeed.
  Proof. apply parse_seg_short. rewrite hlc_hl. cbn. lia. Qed.

  Lemma parse_seg_long : forall q, (hlc <= length q)%nat ->
    parse_seg q = seg_after (le_val (firstn hl q)) (le_val (firstn 3 (skipn hl q))) (skipn hlc q).
  Proof.
    intros q H. unfold Segment.parse_seg, seg_after. rewrite hl_nat, hlc_Z, Nat2Z.id.
    replace (blen q <? Z.of_nat hlc) with false by (unfold blen; lia).
    set (hd := le_val (firstn hl q)). set (pl := Z.land hd MAX_PAYLOAD_LENGTH).
    (* the length test on q is the length test on the bytes after the header; the offsets hlc + pl (+ 4) into q are
       skipn hlc, then skipn pl (+ 4) *)
    replace (blen q <? _ + CRC24_LENGTH + pl + CRC32_LENGTH) with (blen (skipn hlc q) <? pl + 4).
    - rewrite <- Nat.add_assoc, <- !skipn_skipn'. unfold seg_body. destruct compression; reflexivity.
    - unfold blen. rewrite skipn_length, Nat2Z.inj_sub by assumption. unfold hlc, CRC24_LENGTH, CRC32_LENGTH in *. destruct compression.
      + replace (Z.land (Z.shiftr hd 17) MAX_PAYLOAD_LENGTH <? 0) with false; [cbv iota; lia|].
        symmetry. apply Z.ltb_ge, Z.land_nonneg. right. discriminate.
      + change (-1 <? 0) with true. cbv iota. lia.
  Qed.

  Definition sextend (r : sres) (more : list Z) : sres :=
    match r with SOk p rest => SOk p (rest ++ more) | _ => r end.

  Lemma seg_after_app : forall hd crc body more, seg_after hd crc body <> SNeed ->
    seg_after hd crc (body ++ more) = sextend (seg_after hd crc body) more.
  Proof.
    intros hd crc body more. unfold seg_after.
    destruct (negb (compute_crc24 hd hl =? crc)); [reflexivity|].
    set (pl := Z.land hd MAX_PAYLOAD_LENGTH).
    assert (Hpl : 0 <= pl) by (apply Z.land_nonneg; right; discriminate).
    destruct (blen body <? pl + 4) eqn:E; [congruence|]. intros _.
    pose proof (blen_nonneg more). rewrite blen_app. replace (blen body + blen more <? pl + 4) with false by lia.
    unfold blen in E.
    rewrite firstn_app_le, (skipn_app_le (Z.to_nat pl)), (firstn_app_le 4), (skipn_app_le (Z.to_nat pl + 4)) by (rewrite ?skipn_length; lia).
    destruct (negb _); reflexivity.
  Qed.

  Lemma parse_seg_app : forall q more, parse_seg q <> SNeed -> parse_seg (q ++ more) = sextend (parse_seg q) more.
  Proof.
    intros q more H. destruct (Nat.lt_ge_cases (length q) hlc) as [Hs|Hl]; [elim H; apply parse_seg_short; assumption|].
    rewrite (parse_seg_long q) in * by assumption. rewrite parse_seg_long by (rewrite app_length; lia).
    pose proof hlc_hl. rewrite firstn_app_le, !skipn_app_le, firstn_app_le by (rewrite ?skipn_length; lia).
    apply seg_after_app. exact H.
  Qed.

  Lemma parse_seg_cat : forall HD C3 body, length HD = hl -> length C3 = 3%nat ->
    parse_seg (HD ++ C3 ++ body) = seg_after (le_val HD) (le_val C3) body.
  Proof.
    intros HD C3 body H1 H2. pose proof hlc_hl. rewrite parse_seg_long by (rewrite !app_length; lia).
    rewrite (firstn_exact hl), (skipn_exact hl), (firstn_exact 3) by assumption.
    rewrite app_assoc, skipn_exact; [reflexivity|]. rewrite app_length. lia.
  Qed.

  Lemma parse_seg_bad_header : forall HD C3 body, length HD = hl -> length C3 = 3%nat ->
    compute_crc24 (le_val HD) hl <> le_val C3 -> parse_seg (HD ++ C3 ++ body) = SBad.
  Proof.
    intros HD C3 body H1 H2 H. rewrite parse_seg_cat by assumption. unfold seg_after. apply Z.eqb_neq in H. rewrite H. reflexivity.
  Qed.

  Lemma cloop_waits : forall f io fb c, parse_seg io = SNeed -> settled io fb ->
    exists c', cloop (S f) io fb c = (CLive io fb c', []).
  Proof.
    intros f [|z io] fb c E H; cbn [Segment.cloop]; [|rewrite E; eauto].
    destruct c; [rewrite (parse_all_needmore fb (H eq_refl))|]; eauto.
  Qed.

  (* the empty buffer, which cloop treats apart, waits (parse_seg_nil): so the equation needs no io <> [] *)
  Lemma cloop_step : forall f io fb c, cloop (S f) io fb c =
    match parse_seg io with
    | SNeed => cloop (S f) io fb c     (* nothing is said of this case *)
    | SBad => (CDead, [Defunct R_CRC])
    | SOk p rest =>
      match parse1 (fb ++ p) with
      | NeedMore => cloop f rest (fb ++ p) true
      | Bad r => (CDead, [Defunct r])
      | Frame h body fb2 => emit [Deliver h body] (cloop f rest fb2 true)
      end
    end.
  Proof.
    intros f [|z io] fb c; [rewrite parse_seg_nil; reflexivity|]. cbn [Segment.cloop].
    destruct (parse_seg (z :: io)) as [| |p rest]; try reflexivity. destruct (parse1 (fb ++ p)); try reflexivity.
    destruct (Segment.cloop _ _ _ _ _ _). reflexivity.
  Qed.

  Lemma run_cfeed_cons : forall st c cs,
    run_cfeed st (c :: cs) = emit (snd (cfeed st c)) (run_cfeed (fst (cfeed st c)) cs).
  Proof. intros. cbn [Segment.run_cfeed]. destruct (cfeed st c) as [st1 e1]. cbn [fst snd]. destruct (run_cfeed st1 cs). reflexivity. Qed.

  Lemma run_dead : forall chunks, run_cfeed CDead chunks = (CDead, []).
  Proof. induction chunks as [|c cs IH]; [reflexivity|]. simpl. rewrite IH. reflexivity. Qed.

  Lemma cfeed_live : forall io fb c chunk, cfeed (CLive io fb c) chunk = cloop (S (length (io ++ chunk))) (io ++ chunk) fb c.
  Proof. reflexivity. Qed.

  Lemma waiting_prefix : forall q x, parse_seg (q ++ x) = SNeed -> parse_seg q = SNeed.
  Proof.
    intros q x H. destruct (parse_seg q) eqn:E; [reflexivity| |]; rewrite parse_seg_app, E in H by congruence; discriminate.
  Qed.

  (* The frame layer of a connection is the machine of C05 run lazily: after a segment it looks for one frame only, so
     whole frames may stay in the frame buffer until a read ends on a segment boundary.  [flush] is what has been
     delivered followed by what is held back; the segment layer is judged by it. *)
  Definition pending (st : cstate) : istate * list ievent :=
    match st with CLive _ fb _ => parse_all fb | CDead => (Dead, []) end.

  Definition flush (r : cstate * list ievent) : istate * list ievent := emit (snd r) (pending (fst r)).

  (* what a read leaves: in the io buffer the bytes tail of a segment still waited on, and a settled state *)
  Definition rests (tail : list Z) (st : cstate) : Prop :=
    match st with CLive io fb _ => io = tail /\ settled io fb | CDead => True end.

  Lemma flush_emit : forall e r, flush (emit e r) = emit e (flush r).
  Proof. intros. apply emit_app. Qed.

  Lemma flush_waiting : forall io fb c, flush (CLive io fb c, []) = parse_all fb.
  Proof. intros. apply emit_nil. Qed.

  Lemma flush_live : forall io fb c evs, parse1 fb = NeedMore -> flush (CLive io fb c, evs) = (Live fb, evs).
  Proof. intros io fb c evs H. unfold flush, emit. cbn [fst snd pending]. rewrite (parse_all_needmore _ H). cbn [fst snd]. rewrite app_nil_r. reflexivity. Qed.

  Lemma flush_dead : forall evs, flush (CDead, evs) = (Dead, evs).
  Proof. intros. unfold flush, emit. cbn [fst snd pending]. rewrite app_nil_r. reflexivity. Qed.

  (* A byte stream as parse_seg reads it: the payloads of the segments it accepts, one after the other, then bytes it waits
     on; each step shortens the stream, which is what the fuel of cloop counts.  What the loop does with a stream depends on
     this alone, not on the encoder that wrote it (Segs_wire). *)
  Inductive Segs : list Z -> list (list Z) -> list Z -> Prop :=
  | Segs_nil : forall tail, parse_seg tail = SNeed -> Segs tail [] tail
  | Segs_cons : forall io p rest ps tail, parse_seg io = SOk p rest -> (length rest < length io)%nat ->
      Segs rest ps tail -> Segs io (p :: ps) tail.

  Lemma Segs_split : forall q x ps tail, Segs (q ++ x) ps tail ->
    exists ps1 ps2 t, ps = ps1 ++ ps2 /\ Segs q ps1 t /\ Segs (t ++ x) ps2 tail /\ parse_seg t = SNeed.
  Proof.
    intros q x ps tail H. remember (q ++ x) as w eqn:Hw. revert q Hw.
    induction H as [tail Ht|w p rest ps tail E Hlen Hs IH]; intros q ->.
    - pose proof (waiting_prefix _ _ Ht) as Hq. exists [], [], q. auto using Segs_nil.
    - (* what parse_seg says of the bytes read so far tells whether the read ends inside this segment *)
      destruct (parse_seg q) as [| |p' r] eqn:Eq; [|rewrite parse_seg_app, Eq in E by congruence; discriminate|].
      + exists [], (p :: ps), q. repeat split; [apply Segs_nil, Eq|exact (Segs_cons _ p rest ps tail E Hlen Hs)|exact Eq].
      + rewrite parse_seg_app, Eq in E by congruence. injection E as -> <-.
        destruct (IH r eq_refl) as (ps1 & ps2 & t & -> & S1 & S2 & Ht).
        exists (p :: ps1), ps2, t. rewrite !app_length in Hlen. repeat split; auto. apply (Segs_cons q p r); auto. lia.
  Qed.

  (* settled is asked with the flag off only: with it on, as it is after every segment, cloop itself runs the frame loop
     when io has run empty; with it off and io empty nothing is run *)
  Lemma cloop_segs : forall io ps tail, Segs io ps tail -> forall fuel fb c,
    (c = false -> settled io fb) -> (length io < fuel)%nat ->
    let r := cloop fuel io fb c in flush r = feed (Live fb) (concat ps) /\ rests tail (fst r).
  Proof.
    induction 1 as [tail Htail|io p rest ps tail E Hlen Hs IH]; intros fuel fb c Hc Hfuel; (destruct fuel as [|f]; [lia|]); cbn [feed concat].
    - rewrite app_nil_r. destruct tail as [|z tail]; [destruct c|].
      + (* [], true *) cbn [Segment.cloop]. pose proof (parse_all_stable fb) as Hst.
        destruct (parse_all fb) as [[fb'|] evs]; cbn [fst rests stable] in *.
        * rewrite flush_live by exact Hst. auto.
        * rewrite flush_dead. auto.
      + (* [], false *) cbn [Segment.cloop]. rewrite flush_waiting. cbn [fst rests]. auto.
      + destruct (cloop_waits f (z :: tail) fb c Htail) as [c' ->]; [discriminate|]. rewrite flush_waiting. cbn [fst rests]. intuition discriminate.
    - rewrite cloop_step, E, app_assoc, parse_all_step.
      destruct (parse1 (fb ++ p)) as [|r|h body fb2]; [apply IH; [discriminate|lia]|cbn; auto|].
      destruct (IH f fb2 true) as [A B]; [discriminate|lia|].
      rewrite flush_emit, A. auto.
  Qed.

  Theorem run_segs : forall chunks io fb c ps tail, Segs (io ++ concat chunks) ps tail ->
    parse_seg io = SNeed -> settled io fb ->
    let r := run_cfeed (CLive io fb c) chunks in flush r = feed (Live fb) (concat ps) /\ rests tail (fst r).
  Proof.
    induction chunks as [|c0 cs IH]; intros io fb c ps tail Hw Hio Hfb; cbn [concat] in Hw.
    - rewrite app_nil_r in Hw. destruct Hw as [tail _|io p rest ps tail E _ _]; [|congruence].
      cbn [run_cfeed concat feed]. rewrite flush_waiting, app_nil_r. cbn. auto.
    - rewrite app_assoc in Hw. destruct (Segs_split _ _ _ _ Hw) as (ps1 & ps2 & t & -> & S1 & S2 & Ht).
      destruct (cloop_segs _ _ _ S1 (S (length (io ++ c0))) fb c) as [A B]; [|lia|].
      { intros _ E. apply app_eq_nil in E. exact (Hfb (proj1 E)). }
      (* left: the events of this read, then the other reads; right: feed the payloads ps1, then ps2;
         A turns the first feed into this read, and the events of this read move to the front on both sides *)
      rewrite run_cfeed_cons, cfeed_live, concat_app, feed_app, <- A.
      destruct (cloop _ _ _ _) as [st1 evs1]. cbv zeta. cbn [fst snd] in *.
      change (flush (st1, evs1)) with (emit evs1 (pending st1)). rewrite flush_emit, then_feed_emit.
      destruct st1 as [io1 fb1 c1|]; cbn [rests pending] in *.
      + destruct B as [-> B]. rewrite <- parse_all_app. destruct (IH t fb1 c1 ps2 tail S2 Ht B) as [-> D]. auto.
      + rewrite run_dead, flush_dead. auto.
  Qed.

End Decoder.

Definition seg_ok (p : list Z) : Prop := Forall byte_ok p /\ blen p <= MAX_PAYLOAD_LENGTH.
Definition seg := (list Z * bool)%type.
Definition payloads (segs : list seg) : list Z := concat (map (@fst (list Z) bool) segs).
Definition segs_ok (segs : list seg) : Prop := Forall (fun s : seg => seg_ok (fst s)) segs.
Definition frames_bytes (fs : list frame) : list Z := concat (map enc fs).

Lemma deliver_not_defunct : forall fs r, ~ In (Defunct r) (map deliver fs).
Proof. intros fs r Hin. apply in_map_iff in Hin. destruct Hin as ([[d h] b] & F & _). discriminate F. Qed.

Section Codec.
  Variable compression : bool.
  Variable compress : list Z -> list Z.
  Variable decompress : list Z -> Z -> list Z.
  Hypothesis decompress_compress : forall x, decompress (compress x) (blen x) = x.
  Hypothesis compress_bytes : forall x, Forall byte_ok x -> Forall byte_ok (compress x).

  Notation parse_seg := (parse_seg compression decompress).
  Notation encode_segment := (encode_segment compression compress).
  Notation encode_header := (encode_header compression).
  Notation encoded_payload := (encoded_payload compression compress).
  Notation run_cfeed := (run_cfeed compression decompress).
  Notation hlc := (hlc compression).
  Notation seg_body := (seg_body compression decompress).
  Notation Segs := (Segs compression decompress).

  Definition encseg (s : seg) : list Z := encode_segment (fst s) (snd s).
  Definition wire (segs : list seg) : list Z := concat (map encseg segs).

  Lemma encode_header_length : forall pl ul sc, length (encode_header pl ul sc) = hlc.
  Proof.
    intros. unfold Segment.encode_header. rewrite app_length, !le_bytes_length, hl_nat. symmetry. apply hlc_hl.
  Qed.

  Lemma le_val_crc24 : forall hd n, le_val (le_bytes 3 (compute_crc24 hd n)) = compute_crc24 hd n.
  Proof. intros. apply le_val_le_bytes. change (256 ^ Z.of_nat 3) with (2 ^ 24). apply C06_bridge.crc24_range. Qed.

  Lemma le_val_crc32 : forall enc, Forall byte_ok enc ->
    le_val (le_bytes 4 (compute_crc32 enc CRC32_INITIAL)) = compute_crc32 enc CRC32_INITIAL.
  Proof.
    intros. apply le_val_le_bytes. change (256 ^ Z.of_nat 4) with (2 ^ 32).
    apply Crc_proofs.crc32_range; [exact Crc_proofs.crc32_initial_range|assumption].
  Qed.

  Lemma parse_seg_whole : forall pl ul sc enc C4 rest,
    0 <= pl <= MAX_PAYLOAD_LENGTH -> 0 <= ul <= MAX_PAYLOAD_LENGTH -> blen enc = pl -> length C4 = 4%nat ->
    parse_seg (encode_header pl ul sc ++ enc ++ C4 ++ rest) =
      if compute_crc32 enc CRC32_INITIAL =? le_val C4 then SOk (seg_body ul enc) rest else SBad.
  Proof.
    intros pl ul sc enc C4 rest Hpl Hul Henc HC4.
    destruct (C06_bridge.header_fields compression pl ul sc Hpl Hul) as (Hhd & Hp & Hu).
    unfold Segment.encode_header. rewrite hl_nat, <- app_assoc, parse_seg_cat by apply le_bytes_length.
    rewrite le_val_crc24, le_val_le_bytes by (rewrite hl_Z; exact Hhd).
    unfold seg_after, seg_body. rewrite Z.eqb_refl, Hp. cbn [negb].
    pose proof (blen_nonneg rest). rewrite !blen_app, Henc. unfold blen at 1. rewrite HC4.
    replace (pl + (Z.of_nat 4 + blen rest) <? pl + 4) with false by lia.
    assert (Hn : length enc = Z.to_nat pl) by (unfold blen in Henc; lia).
    rewrite firstn_exact, skipn_exact, firstn_exact, (app_assoc enc), skipn_exact by (rewrite ?app_length; lia).
    destruct (_ =? le_val C4); [|reflexivity]. destruct compression; [rewrite (Hu eq_refl)|]; reflexivity.
  Qed.

  Lemma encoded_payload_ok : forall p, seg_ok p ->
    let '(enc, ul) := encoded_payload p in
    Forall byte_ok enc /\ 0 <= blen enc <= MAX_PAYLOAD_LENGTH /\ 0 <= ul <= MAX_PAYLOAD_LENGTH.
  Proof.
    intros p [Hb Hl]. pose proof (blen_nonneg p). pose proof (blen_nonneg (compress p)). unfold Segment.encoded_payload.
    destruct compression; [destruct (blen p <=? blen (compress p)) eqn:E|]; repeat split; auto; unfold MAX_PAYLOAD_LENGTH in *; lia.
  Qed.

  Lemma encoded_payload_body : forall p, let '(enc, ul) := encoded_payload p in seg_body ul enc = p.
  Proof.
    intros p. pose proof (blen_nonneg (compress p)). unfold Segment.encoded_payload, seg_body.
    destruct compression; [destruct (blen p <=? blen (compress p)) eqn:E|]; try reflexivity.
    replace (0 <? blen p) with true by lia. apply decompress_compress.
  Qed.

  Lemma encode_segment_length : forall p sc,
    length (encode_segment p sc) = (hlc + length (fst (encoded_payload p)) + 4)%nat.
  Proof.
    intros. unfold Segment.encode_segment. destruct (encoded_payload p) as [enc ul].
    rewrite !app_length, encode_header_length, le_bytes_length. apply Nat.add_assoc.
  Qed.

  Lemma parse_seg_enc : forall p sc rest, seg_ok p -> parse_seg (encode_segment p sc ++ rest) = SOk p rest.
  Proof.
    intros p sc rest Hok. pose proof (encoded_payload_ok p Hok) as H. pose proof (encoded_payload_body p) as Hp.
    unfold Segment.encode_segment. destruct (encoded_payload p) as [enc ul]. destruct H as (Hb & Hl & Hu). subst p.
    rewrite <- !app_assoc, parse_seg_whole, le_val_crc32, Z.eqb_refl by (auto using le_bytes_length). reflexivity.
  Qed.

  Lemma wire_cons : forall p sc segs, wire ((p, sc) :: segs) = encode_segment p sc ++ wire segs.
  Proof. reflexivity. Qed.

  Lemma wire_app : forall a b, wire (a ++ b) = wire a ++ wire b.
  Proof. intros. unfold wire. rewrite map_app, concat_app. reflexivity. Qed.

  Lemma payloads_app : forall a b, payloads (a ++ b) = payloads a ++ payloads b.
  Proof. intros. unfold payloads. rewrite map_app, concat_app. reflexivity. Qed.

  Lemma Segs_wire : forall segs tail, segs_ok segs -> parse_seg tail = SNeed ->
    Segs (wire segs ++ tail) (map fst segs) tail.
  Proof.
    induction 1 as [|[p sc] segs Hp _ IH]; intros Ht; [apply Segs_nil, Ht|].
    rewrite wire_cons, <- app_assoc. apply (Segs_cons _ _ _ p (wire segs ++ tail)); [apply parse_seg_enc, Hp| |apply IH, Ht].
    rewrite (app_length (encode_segment p sc)), encode_segment_length. lia.
  Qed.

  Theorem roundtrip : forall (segs : list seg) (fs : list frame) (chunks : list (list Z)),
    segs_ok segs -> Forall wf fs -> payloads segs = frames_bytes fs -> concat chunks = wire segs ->
    exists c, run_cfeed (cinit) chunks = (CLive [] [] c, map deliver fs).
  Proof.
    intros segs fs chunks Hok Hwf Hp Hc.
    pose proof (Segs_wire segs [] Hok (parse_seg_nil _ _)) as S. rewrite app_nil_r, <- Hc in S.
    assert (F : feed (Live []) (payloads segs) = (Live [], map deliver fs)).
    { cbn [feed app]. rewrite Hp, <- (app_nil_r (frames_bytes fs)). apply parse_all_frames; [exact Hwf|reflexivity]. }
    destruct (run_segs _ _ chunks [] [] false _ [] S (parse_seg_nil _ _)) as [A B]; [intros _; reflexivity|].
    change (concat (map fst segs)) with (payloads segs) in A. rewrite F in A.
    unfold cinit. destruct (run_cfeed _ _) as [[io fb c|] evs].
    - destruct B as [-> B]. rewrite flush_live in A by exact (B eq_refl). injection A as -> ->. exists c. reflexivity.
    - rewrite flush_dead in A. discriminate A.
  Qed.

  Lemma split_payloads_concat : forall fuel msg, concat (split_payloads fuel msg) = msg.
  Proof.
    induction fuel; intros msg.
    - change (split_payloads 0 msg) with [msg]. cbn [concat]. apply app_nil_r.
    - cbn [split_payloads]. destruct (blen msg <=? MAX_PAYLOAD_LENGTH).
      + cbn [concat]. apply app_nil_r.
      + cbn [concat]. rewrite IHfuel. apply firstn_skipn.
  Qed.

  Lemma split_payloads_ok : forall fuel msg, (length msg <= fuel)%nat -> Forall byte_ok msg ->
    Forall (fun p => Forall byte_ok p /\ blen p <= MAX_PAYLOAD_LENGTH) (split_payloads fuel msg).
  Proof.
    induction fuel; intros msg Hl Hb.
    - change (split_payloads 0 msg) with [msg]. constructor; [|constructor]. split; [assumption|]. unfold blen, MAX_PAYLOAD_LENGTH. lia.
    - cbn [split_payloads]. destruct (blen msg <=? MAX_PAYLOAD_LENGTH) eqn:E.
      + constructor; [|constructor]. split; [assumption|lia].
      + constructor.
        * split; [apply Forall_firstn; assumption|]. unfold blen. rewrite firstn_length. unfold MAX_PAYLOAD_LENGTH. lia.
        * apply IHfuel; [|apply Forall_skipn; assumption]. rewrite skipn_length.
          unfold blen, MAX_PAYLOAD_LENGTH in *. lia.
  Qed.

  Definition carries (w P : list Z) : Prop := exists segs, segs_ok segs /\ wire segs = w /\ payloads segs = P.

  Lemma carries_app : forall w1 P1 w2 P2, carries w1 P1 -> carries w2 P2 -> carries (w1 ++ w2) (P1 ++ P2).
  Proof.
    intros w1 P1 w2 P2 (s1 & O1 & <- & <-) (s2 & O2 & <- & <-). exists (s1 ++ s2).
    rewrite wire_app, payloads_app. repeat split. apply Forall_app. auto.
  Qed.

  Lemma carries_encode : forall msg, Forall byte_ok msg -> carries (encode compression compress msg) msg.
  Proof.
    intros msg H. unfold encode. set (ps := split_payloads (length msg) msg).
    exists (map (fun p => (p, match ps with [_] => true | _ => false end)) ps). unfold segs_ok, wire, payloads.
    rewrite Forall_map, !map_map. cbn [fst]. rewrite map_id. repeat split.
    - apply (split_payloads_ok (length msg) msg); [lia|assumption].
    - apply split_payloads_concat.
  Qed.

  Lemma carries_messages : forall fs, Forall (fun f => Forall byte_ok (enc f)) fs ->
    carries (concat (map (fun f => encode compression compress (enc f)) fs)) (frames_bytes fs).
  Proof.
    induction 1 as [|f fs Hf _ IH]; [exists []; repeat split; constructor|]. apply carries_app; [apply carries_encode, Hf|exact IH].
  Qed.

  Theorem roundtrip_messages : forall (fs : list frame) (chunks : list (list Z)),
    Forall wf fs -> Forall (fun f => Forall byte_ok (enc f)) fs ->
    concat chunks = concat (map (fun f => encode compression compress (enc f)) fs) ->
    exists c, run_cfeed (cinit) chunks = (CLive [] [] c, map deliver fs).
  Proof.
    intros fs chunks Hwf Hb Hc. destruct (carries_messages fs Hb) as (segs & Hok & Hw & Hp).
    apply (roundtrip segs fs chunks); congruence.
  Qed.
End Codec.
