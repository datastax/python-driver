(* C17, exhaustion coverage: while the request has no outcome, every host taken from the plan is either listed in _errors
   or still has something open (an unanswered attempt or a queued executor task). *)
From Coq Require Import ZArith List.
From Verif Require Import FutB ListFacts FutB_lemmas FutB_steps FutB_origin C17_proofs.
Import ListNotations.
Local Open Scope Z_scope.

Definition open_hosts (s : state) : list host :=
  map a_host (filter (fun a => negb (a_done a)) (attempts s)) ++ map task_host (queue s).

Definition covered (s : state) (h : host) : Prop := In h (keys (errors s)) \/ In h (open_hosts s).

Definition is_retry_task (t : task) : bool := match t with TRetry _ _ => true | _ => false end.

(* The token a consumed host holds until it is listed in _errors: an unanswered attempt of the current page fetch, or a
   queued task that will query it again.  An attempt of an earlier page fetch holds nothing: `step` drops its answer without
   listing its host.  A retry task holds nothing: it is queued before, and run after, the failure it answers is listed. *)
Definition held (s : state) (h : host) : Prop :=
  In h (keys (errors s))
  \/ (exists a, In a (attempts s) /\ a_done a = false /\ a_page a = page_no s /\ a_host a = h)
  \/ (exists t, In t (queue s) /\ is_retry_task t = false /\ task_host t = h).

Definition kept (s : state) (h : host) : Prop := In h (consumed s) -> held s h.

Lemma held_covered s h : held s h -> covered s h.
Proof.
  intros [H|[(a & Hin & D & _ & <-)|(t & Hin & _ & <-)]]; [left; exact H|right; apply in_or_app..].
  - left. apply in_map, filter_In. rewrite D. auto.
  - right. apply in_map, Hin.
Qed.

Lemma held_set_err s h e x : x = h \/ held s x -> held (set_err s h e) x.
Proof.
  intros [H|[H|H]]; [left; apply keys_upd; left; exact H|left; apply keys_upd; right; exact H|right; exact H].
Qed.

Lemma held_add_attempt s h p x : x = h \/ held s x -> held (add_attempt s h p) x.
Proof.
  intros [->|[H|[(a & Hin & G)|H]]]; [right; left|left; exact H|right; left|right; right; exact H].
  - eexists. split; [apply in_elt|repeat split].
  - exists a. split; [apply in_or_app; left; exact Hin|exact G].
Qed.

Lemma held_push s t x : (is_retry_task t = false /\ x = task_host t) \/ held s x -> held (push_task s t) x.
Proof.
  intros [[T ->]|[H|[H|(t0 & Hin & G)]]]; [right; right|left; exact H|right; left; exact H|right; right].
  - exists t. split; [apply in_elt|auto].
  - exists t0. split; [apply in_or_app; left; exact Hin|exact G].
Qed.

Lemma In_mark_done_or i l a b : nth_error l i = Some a -> In b l -> b = a \/ In b (mark_done i l).
Proof.
  revert i. induction l as [|a0 l IH]; intros [|i] N Hin; cbn in *; try discriminate; destruct Hin as [<-|Hin]; auto.
  - left. congruence.
  - destruct (IH i N Hin); auto.
Qed.

Lemma held_done s i a x : nth_error (attempts s) i = Some a -> held s x ->
  (x = a_host a /\ a_page a = page_no s) \/ held (set_attempts s (mark_done i (attempts s))) x.
Proof.
  intros N [H|[(b & Hin & D & P & <-)|H]]; [right; left; exact H| |right; right; right; exact H].
  destruct (In_mark_done_or _ _ _ _ N Hin) as [->|G]; [left; auto|right; right; left; exists b; auto].
Qed.

Lemma held_deq s k t x : nth_error (queue s) k = Some t -> held s x ->
  (is_retry_task t = false /\ x = task_host t) \/ held (set_queue s (remove_nth k (queue s))) x.
Proof.
  intros N [H|[H|(t0 & Hin & F & <-)]]; [right; left; exact H|right; right; left; exact H|].
  destruct (In_removed_or _ _ _ _ N Hin) as [->|G]; [left; auto|right; right; right; exists t0; auto].
Qed.

(* h does not stand in the way of listing every host: the request ended otherwise than by NoHostAvailable, or h is kept *)
Definition settled (s : state) (h : host) : Prop := (completed s = true /\ fin_exc s <> Some XNoHost) \/ kept s h.

Section Moves.
Variables (K : host -> Prop) (Q : task -> Prop) (E : event -> Prop).

(* only the host whose attempt is answered, or whose task is run, can lose its token *)
Lemma reach_kept s s' ev h : reach K Q E nothing s s' ev -> kept s h -> K h \/ kept s' h.
Proof.
  intros R Kp. refine (reach_keeps (fun s => K h \/ kept s h) _ _ _ _ R (or_intror Kp)).
  clear. intros s s' e P [Kh|Kp]; [left; exact Kh|]. unfold kept.
  destruct P as [h0 rest p e0 Pl|h0 rest p Pl| |h0 e0 _|h0 m cz _ _ _| | | |t _ _| | | | |i a N Ka|k t N Kt|pl Fp];
    try (right; exact Kp).
  - (* P_skip *) right. intros Hin. apply held_set_err. apply in_app_or in Hin. destruct Hin as [Hin|[<-|[]]]; auto.
  - (* P_plan_sent *) right. intros Hin. apply held_add_attempt. apply in_app_or in Hin. destruct Hin as [Hin|[<-|[]]]; auto.
  - (* P_err *) right. intros Hin. apply held_set_err. auto.
  - (* P_sent *) right. intros Hin. apply held_add_attempt. auto.
  - (* P_push *) right. intros Hin. apply held_push. auto.
  - (* P_done *) destruct (Z.eq_dec h (a_host a)) as [->|Ne]; [left; exact Ka|right].
    intros Hin. destruct (held_done s i a h N (Kp Hin)) as [[G _]|G]; [contradiction|exact G].
  - (* P_deq *) destruct (Z.eq_dec h (task_host t)) as [->|Ne]; [left; exact Kt|right].
    intros Hin. destruct (held_deq s k t h N (Kp Hin)) as [[_ G]|G]; [contradiction|exact G].
  - (* P_fresh *) destruct Fp.
Qed.

Lemma reach_completed s s' ev : reach K Q E nothing s s' ev -> completed s = true -> completed s' = true.
Proof.
  apply (reach_keeps (fun s => completed s = true)). clear. intros s s' e P I.
  destruct P as [| | | | | |x C _|r b C| | | | | | | |pl Fp]; try exact I;
    [congruence|congruence|destruct Fp].   (* P_exc, P_res, P_fresh *)
Qed.
End Moves.
Arguments reach_kept {K Q E s s' ev h}.
Arguments reach_completed {K Q E s s' ev}.

Lemma send_request_kept {s b s' ev h} : send_request s b = (s', ev) -> kept s h -> kept s' h.
Proof. intros W Kp. destruct (reach_kept (send_request_walks W) Kp) as [[]|G]. exact G. Qed.

Lemma fail_settles s x h : completed s = false -> x <> XNoHost -> settled (fail_with s x) h.
Proof.
  intros C N. left. unfold fail_with. rewrite C. split; [apply (completed_exc _ x); reflexivity|]. cbn. congruence.
Qed.

Lemma finish_settles s r h : completed s = false -> settled (finish_with s r) h.
Proof. intros C. left. unfold finish_with. rewrite C. split; [reflexivity|]. cbn. rewrite (open_no_exc s C). discriminate. Qed.

Lemma rows_settles s b h : completed s = false -> settled (finish_rows s b) h.
Proof. intros C. left. unfold finish_rows. rewrite C. split; [reflexivity|]. cbn. rewrite (open_no_exc s C). discriminate. Qed.

Lemma submit_settles s t : completed s = false -> is_retry_task t = false -> settled (submit s t) (task_host t).
Proof.
  intros C T. unfold submit. destruct (session_shut s); [apply fail_settles; [exact C|discriminate]|].
  right. intros _. apply held_push. auto.
Qed.

Lemma query_held s h m cz s' ev ok : query s h m cz = (s', ev, ok) -> held s' h.
Proof.
  rewrite query_eq. destruct (reason (pool_of s h)); intros H; injection H as <- _ _;
    [apply held_set_err|apply held_add_attempt]; auto.
Qed.

Lemma query_or_next_settles {s h m cz s' ev} : query_or_next s h m cz = (s', ev) -> settled s' h.
Proof.
  unfold query_or_next. intros H. destruct (query s h m cz) as [[s1 ev1] ok] eqn:Qr. apply query_held in Qr. right.
  destruct ok.
  - injection H as <- _. intros _. exact Qr.
  - destruct (send_request s1 true) as [s2 ev2] eqn:W. injection H as <- _. apply (send_request_kept W). intros _. exact Qr.
Qed.

Lemma set_result_settles c s h r s' ev : completed s = false -> set_result c s h r = (s', ev) -> settled s' h.
Proof.
  intros C H. destruct r; cbn [set_result] in H; try (injection H as <- _).
  - (* RRows *) apply rows_settles, C.
  - (* RVoid *) apply finish_settles, C.
  - (* RRowsMore *) apply rows_settles, C.
  - (* RPrepared *) apply finish_settles, C.
  - (* RRetryable: whatever the decision, h is listed *)
    destruct (pol c _ k tag _ _) as [d dcl]. unfold handle_decision in H. injection H as <- _.
    right. intros _. apply held_set_err. auto.
  - (* RUnprepared *)
    destruct (unprepared_shape c s h id tag) as [(x & N & Eq)|(qs & ks & Eq)]; rewrite Eq in H; injection H as <- _.
    + apply fail_settles; assumption.
    + exact (submit_settles s (TReprepare h qs ks) C eq_refl).
  - (* ROtherError *) apply fail_settles; [exact C|discriminate].
  - (* ROtherExc *) apply fail_settles; [exact C|discriminate].
  - (* RJunk *) apply fail_settles; [exact C|discriminate].
Qed.

Lemma after_prepare_settles c s h r s' ev : completed s = false -> after_prepare c s h r = (s', ev) -> settled s' h.
Proof.
  intros C H. unfold after_prepare in H. rewrite (open_no_exc s C) in H.
  destruct r; try (injection H as <- _; apply fail_settles; [exact C|discriminate]).
  - (* RPrepared *) destruct (fut_ps c) as [[[pid pqs] pks]|]; [|exact (query_or_next_settles H)].
    destruct (negb (pid =? id)); [injection H as <- _; apply fail_settles; [exact C|discriminate]|exact (query_or_next_settles H)].
  - (* RRetryable: a connection error lists h and walks on *)
    destruct (is_conn_kind k); [|injection H as <- _; apply fail_settles; [exact C|discriminate]].
    destruct (send_request _ true) as [s2 ev2] eqn:W. injection H as <- _.
    right. apply (send_request_kept W). intros _. apply held_set_err. auto.
Qed.

Lemma run_task_settles c s t s' ev : completed s = false -> (is_retry_task t = true -> kept s (task_host t)) ->
  run_task c s t = (s', ev) ->
  settled s' (task_host t).
Proof.
  intros C Kp H. destruct t as [reuse h|h qs ks|h r]; cbn [run_task task_host] in *.
  - rewrite (open_no_exc s C) in H. destruct reuse; [exact (query_or_next_settles H)|].
    right. exact (send_request_kept H (Kp eq_refl)).
  - exact (query_or_next_settles H).
  - exact (after_prepare_settles _ _ _ _ _ _ C H).
Qed.

Theorem step_settles c s o s' ev : is_next_page o = false -> completed s = false -> (forall h, kept s h) ->
  step c s o = (s', ev) -> forall h, settled s' h.
Proof.
  intros NP C Kp H h.
  destruct (reach_kept (step_reach_no_page NP H) (Kp h)) as [Fh|G]; [|right; exact G].
  (* h is the host the step is about *)
  destruct o as [|i r|k| | | |]; try contradiction.
  - (* Resp *)
    destruct Fh as (a & N & <-). cbn [step] in H. rewrite N in H. destruct (a_done a); [injection H as <- _; right; apply Kp|].
    set (s0 := set_attempts s (mark_done i (attempts s))) in *.
    destruct (a_prep a).
    { injection H as <- _. exact (submit_settles s0 (TAfterPrepare (a_host a) r) C eq_refl). }
    destruct (Nat.eqb (a_page a) (page_no s)) eqn:Pg.
    + destruct (resp_current_cases H) as [H'|(k & tag & dcl & reuse & s2 & ev2 & _ & _ & _ & _ & -> & _)].
      * exact (set_result_settles c s0 _ _ _ _ C H').
      * right. intros _. apply held_set_err. auto.
    + injection H as <- _. right. intros Hin. apply Nat.eqb_neq in Pg.
      destruct (held_done s i a _ N (Kp _ Hin)) as [[_ G]|G]; [contradiction|exact G].
  - (* Run *)
    destruct Fh as (t & N & <-). cbn [step] in H. rewrite N in H. revert H. apply run_task_settles; [exact C|].
    intros T Hin. destruct (held_deq s k t _ N (Kp _ Hin)) as [[T' _]|Hd]; [congruence|exact Hd].
Qed.

(* the invariant of a page fetch: while the request has no outcome, every host taken from the plan holds a token *)
Definition Good (s : state) : Prop := completed s = false -> forall h, kept s h.

Lemma good_step c s o s' ev : is_next_page o = false -> Good s -> step c s o = (s', ev) -> Good s'.
Proof.
  intros NP G H C' h. destruct (completed s) eqn:C.
  - rewrite (reach_completed (step_reach_no_page NP H) C) in C'. discriminate C'.
  - destruct (step_settles c s o s' ev NP C (G C) H h) as [[D _]|Kp]; [congruence|exact Kp].
Qed.

Lemma good_exec c ops s s' ev : no_page ops = true -> Good s -> exec c s ops = (s', ev) -> Good s'.
Proof.
  intros N G H. revert G.
  refine (exec_rel c (fun o => is_next_page o = false) (fun s s' _ => Good s -> Good s') _ _ _ ops s s' ev (no_page_Forall _ N) H); auto.
  intros s0 o s1 e NP S G. exact (good_step c s0 o s1 e NP G S).
Qed.

Lemma good_init lb target pl cl idem hasp maxa ks : Good (init lb target pl cl idem hasp maxa ks).
Proof.
  unfold init. edestruct start_timer_eq as (a & l & -> & _). intros _ h [].
Qed.

Lemma exhaustion_covers c s o s' ev : is_next_page o = false -> Good s -> fin_res s = None -> fin_exc s = None ->
  step c s o = (s', ev) -> fin_exc s' = Some XNoHost -> forall h, In h (consumed s ++ plan s) -> covered s' h.
Proof.
  intros NP G R E S N h Hh. pose proof (not_completed s R E) as C.
  destruct (reach_nohost (step_reach S) N) as [K|P]; [congruence|].
  destruct (step_plan_move c s o s' ev NP S) as [e Cs Ps _]. rewrite P, app_nil_r in Ps. rewrite Ps, <- Cs in Hh.
  destruct (step_settles c s o s' ev NP C (G C) S h) as [[_ D]|Kp]; [congruence|exact (held_covered _ _ (Kp Hh))].
Qed.

Lemma covered_mono_set_exc s x h : covered (set_exc s x) h <-> covered s h.
Proof. reflexivity. Qed.
