(* Counting in the containers of Model/Conn.v: `cnt x l`, how often x occurs in l, is the measure everything is stated in.
   At the end, `fields`: the reduction of the model's record updates that every Conn proof uses. *)
From Coq Require Import ZArith List Bool Lia.
From Verif Require Import ListFacts Conn.
Import ListNotations.
Local Open Scope Z_scope.

Lemma cnt_count x l : cnt x l = Z.of_nat (count_occ Z.eq_dec l x).
Proof.
  induction l as [|y l IH]; cbn [cnt count_occ]; [reflexivity|].
  destruct (Z.eqb_spec x y), (Z.eq_dec y x); try congruence; lia.
Qed.

Lemma cnt_app x a b : cnt x (a ++ b) = cnt x a + cnt x b.
Proof. rewrite !cnt_count, count_occ_app. lia. Qed.

Lemma cnt_nonneg x l : 0 <= cnt x l.
Proof. rewrite cnt_count. lia. Qed.

Lemma cnt_In x l : In x l <-> 1 <= cnt x l.
Proof. rewrite cnt_count, (count_occ_In Z.eq_dec). lia. Qed.

Lemma cnt_le1_NoDup l : (forall x, cnt x l <= 1) -> NoDup l.
Proof. intros H. apply (NoDup_count_occ Z.eq_dec). intros x. specialize (H x). rewrite cnt_count in H. lia. Qed.

Lemma cnt_rm x i l : cnt x (rm i l) = if x =? i then 0 else cnt x l.
Proof.
  induction l as [|y l IH]; cbn [rm cnt]; [destruct (x =? i); reflexivity|].
  destruct (Z.eqb_spec i y); cbn [cnt]; rewrite IH; destruct (Z.eqb_spec x i); destruct (Z.eqb_spec x y); lia.
Qed.

Lemma cnt_range_from x a n :
  (a <= x < a + Z.of_nat n -> cnt x (range_from a n) = 1) /\ (~ a <= x < a + Z.of_nat n -> cnt x (range_from a n) = 0).
Proof.
  revert a. induction n as [|n IH]; intros a; cbn [range_from cnt]; [lia|].
  specialize (IH (a + 1)). destruct (Z.eqb_spec x a); lia.
Qed.

Lemma mem_cnt i l : mem i l = true -> 1 <= cnt i l.
Proof. intros M. apply cnt_In, (memb_In Z.eqb Z.eqb_eq), M. Qed.

Lemma keys_cons {A} k (v : A) l : keys ((k, v) :: l) = k :: keys l.
Proof. reflexivity. Qed.
Lemma keys_app {A} (a b : list (Z * A)) : keys (a ++ b) = keys a ++ keys b.
Proof. apply map_app. Qed.
Lemma keys_map_tag {A B} (f : A -> B) (l : list (Z * A)) : keys (map (fun c => (fst c, f (snd c))) l) = keys l.
Proof. unfold keys. rewrite map_map. reflexivity. Qed.

Lemma keys_rmk {A} i (l : list (Z * A)) : keys (rmk i l) = rm i (keys l).
Proof.
  induction l as [|[k v] l IH]; cbn [rmk keys map fst rm]; [reflexivity|].
  destruct (i =? k); cbn [map fst]; fold (keys l); fold (keys (rmk i l)); rewrite IH; reflexivity.
Qed.

Lemma lookup_cnt {A} i (l : list (Z * A)) v : lookup i l = Some v -> 1 <= cnt i (keys l).
Proof.
  induction l as [|[k w] l IH]; cbn [lookup keys map fst cnt]; [discriminate|]. fold (keys l).
  pose proof (cnt_nonneg i (keys l)). destruct (i =? k); intros E; [|apply IH in E]; lia.
Qed.

Lemma lookup_none_cnt {A} i (l : list (Z * A)) : lookup i l = None -> cnt i (keys l) = 0.
Proof.
  induction l as [|[k w] l IH]; cbn [lookup keys map fst cnt]; [reflexivity|]. fold (keys l).
  destruct (i =? k); intros E; [discriminate|]. rewrite (IH E). lia.
Qed.

Lemma cnt_zero_lookup {A} i (l : list (Z * A)) : cnt i (keys l) = 0 -> lookup i l = None.
Proof.
  intros E. destruct (lookup i l) eqn:L; [|reflexivity]. apply lookup_cnt in L. lia.
Qed.

Lemma rmk_id {A} i (l : list (Z * A)) : cnt i (keys l) = 0 -> rmk i l = l.
Proof.
  induction l as [|[k v] l IH]; cbn [rmk keys map fst cnt]; [reflexivity|]. fold (keys l).
  pose proof (cnt_nonneg i (keys l)). destruct (i =? k); intros E; [lia|]. rewrite IH by lia. reflexivity.
Qed.

Lemma lookup_rmk_same {A} i (l : list (Z * A)) : lookup i (rmk i l) = None.
Proof. apply cnt_zero_lookup. rewrite keys_rmk, cnt_rm, Z.eqb_refl. reflexivity. Qed.

Lemma lookup_rmk_other {A} i j (l : list (Z * A)) : i <> j -> lookup i (rmk j l) = lookup i l.
Proof.
  intros N. induction l as [|[k v] l IH]; cbn [rmk lookup]; [reflexivity|].
  destruct (Z.eqb_spec j k) as [->|N2].
  - destruct (Z.eqb_spec i k); [congruence|exact IH].
  - cbn [lookup]. destruct (Z.eqb_spec i k); [reflexivity|exact IH].
Qed.

Lemma zlen_cons {A} (a : A) l : zlen (a :: l) = zlen l + 1.
Proof. unfold zlen. cbn [length]. lia. Qed.
Lemma zlen_nonneg {A} (l : list A) : 0 <= zlen l.
Proof. unfold zlen. lia. Qed.
Lemma zlen_app {A} (a b : list A) : zlen (a ++ b) = zlen a + zlen b.
Proof. unfold zlen. rewrite app_length. lia. Qed.

Lemma zlen_rm i l : zlen (rm i l) = zlen l - cnt i l.
Proof. induction l as [|y l IH]; cbn [rm cnt]; [reflexivity|]. destruct (i =? y); rewrite ?zlen_cons, IH; lia. Qed.

Lemma zlen_rmk {A} i (l : list (Z * A)) : zlen (rmk i l) = zlen l - cnt i (keys l).
Proof. pose proof (zlen_rm i (keys l)) as E. rewrite <- keys_rmk in E. unfold zlen, keys in *. rewrite !map_length in E. exact E. Qed.

Lemma unit_tags_rmk_one i g t : lookup i g = Some t -> cnt i (keys g) = 1 ->
  unit_tags (rmk i g) = unit_tags g - unit_tag t.
Proof.
  induction g as [|[k v] g IH]; cbn [rmk keys map fst cnt lookup unit_tags]; [discriminate|]. fold (keys g).
  pose proof (cnt_nonneg i (keys g)). destruct (i =? k); intros L E.
  - injection L as ->. rewrite rmk_id by lia. lia.
  - cbn [unit_tags]. rewrite IH by (auto; lia). lia.
Qed.

Lemma unit_tags_nonneg g : 0 <= unit_tags g.
Proof. induction g as [|[k v] g IH]; cbn [unit_tags]; [lia|]. destruct v; cbn [unit_tag]; lia. Qed.

Lemma send_verdict_cases s : send_verdict s = 0 \/ send_verdict s = 1 \/ send_verdict s = 2.
Proof. unfold send_verdict. destruct (defunct s), (closed s), (writable s); auto. Qed.

Lemma unit_tags_lost {A} (r : list (Z * A)) g : unit_tags (map (fun c => (fst c, TLost)) r ++ g) = unit_tags g.
Proof. induction r as [|[k v] r IH]; [reflexivity|]. cbn [map app unit_tags fst unit_tag]. rewrite IH. lia. Qed.

(* a loop that only logs, as error_all_cp_sessions does *)
Lemma errcp_log {A} (f : A -> event) l s : log (fold_right (fun c acc => ev (f c) acc) s l) = map f l ++ log s.
Proof. induction l as [|c l IH]; [reflexivity|]. cbn [fold_right map app log ev]. rewrite IH. reflexivity. Qed.

(* cbn restricted to the field projections and record updates of Model/Conn.v *)
Ltac fields :=
  cbn [free highest max_id reqs orphans cps in_flight thr thr_reached defunct closed writable msg_received cur
       erroring ghost wire owed ks_pending leaked spurious raced assert_failed log
       ev set_free set_reqs set_orph set_cps set_inf set_flags set_cur set_erroring set_ghost set_wire set_units
       set_bad add_owed add_leak put_ghost del_ghost register].

Lemma err_swap_spec s : reqs (err_swap s) = [] /\ zlen (erroring (err_swap s)) = zlen (erroring s) + zlen (reqs s).
Proof.
  unfold err_swap. fields. rewrite zlen_app. split; [reflexivity|]. f_equal.
  destruct (reqs s) as [|[k v] rest]; [reflexivity|]. unfold zlen. cbn [length]. rewrite rev_length, map_length. reflexivity.
Qed.

Lemma step_close s : let s' := step s Close in
  closed s' = true /\ defunct s' = defunct s /\ reqs s' = reqs s /\ erroring s' = erroring s.
Proof. unfold step. destruct (closed s) eqn:C; fields; auto. Qed.

Lemma step_defunctflag_closed s : closed s = true -> step s DefunctFlag = s.
Proof. intros C. unfold step. rewrite C, orb_true_r. reflexivity. Qed.
