(* C34: calendar round trips, 'yyyy-mm-dd', time-of-day fields and strings, time-UUID layout and ordering. *)
From Coq Require Import ZArith List Bool Lia ZifyBool.
From Verif Require Import PyBase UtilTime DecDigits Civil TimeOfDay TimeUUID.
Require Verif.Gen.UtilTimeGen Verif.Model.UuidFields Verif.Proofs.BytesBE Verif.Proofs.UtilTime_proofs.
Local Open Scope Z_scope.
(* down to the reset at the end of the file, every lia that meets / or mod relies on this hook *)
Ltac Zify.zify_post_hook ::= Z.to_euclidean_division_equations.

Lemma take_num_digits : forall k x acc rest,
  take_num k acc (to_digits k x ++ rest) = Some (acc * 10 ^ Z.of_nat k + x mod 10 ^ Z.of_nat k, rest).
Proof.
  induction k as [|k IH]; intros x acc rest.
  - cbn. f_equal. f_equal. lia.
  - cbn [to_digits take_num app].
    set (P := 10 ^ Z.of_nat k) in *.
    replace ((48 <=? 48 + (x / P) mod 10) && (48 + (x / P) mod 10 <=? 57)) with true by lia.
    rewrite IH. f_equal. f_equal.
    rewrite Nat2Z.inj_succ, Z.pow_succ_r by lia. fold P.
    replace (10 * P) with (P * 10) by ring. rewrite (Z.rem_mul_r x P 10) by lia. ring.
Qed.

Lemma take_num_small : forall k x rest, 0 <= x < 10 ^ Z.of_nat k ->
  take_num k 0 (to_digits k x ++ rest) = Some (x, rest).
Proof. intros. rewrite take_num_digits. rewrite Z.mod_small by assumption. f_equal. Qed.

(* The calendar.  Years are taken to begin on March 1st (January and February count with the year before) and months
   are numbered 0 = March ... 11 = February.  year_start y is the day on which year y begins, for every integer y (floor
   division; inside an era the y / 400 term matters at y = 400 only), month_start mp the day of the year on which month
   mp begins.  Both conversions are  day + 719468 = day_number y m d  (year_start y' + month_start mp + d - 1)  read in one direction or
   the other (days_from_civil_eq, civil_from_days_spec), and a date is valid when that day lies inside its month and
   its year (valid_date_doy); all are floor expressions, so what follows is linear arithmetic once the quotients are
   named. *)
Definition year_start (y : Z) : Z := 365 * y + y / 4 - y / 100 + y / 400.
Definition month_start (mp : Z) : Z := (153 * mp + 2) / 5.
Definition day_number (y m d : Z) : Z :=
  year_start (y - if m <=? 2 then 1 else 0) + month_start ((m + 9) mod 12) + d - 1.

Lemma year_start_mono a b : a <= b -> year_start a <= year_start b.
Proof. unfold year_start. lia. Qed.

Lemma year_unique y y' doe :
  year_start y <= doe < year_start (y + 1) -> year_start y' <= doe < year_start (y' + 1) -> y' = y.
Proof.
  intros B B'. destruct (Z_lt_le_dec y y'); [pose proof (year_start_mono (y + 1) y'); lia|].
  destruct (Z_lt_le_dec y' y); [pose proof (year_start_mono (y' + 1) y); lia|lia].
Qed.

(* year y ends with the February of the civil year y + 1 *)
Lemma year_length y : year_start (y + 1) - year_start y = 365 + Z.b2z (is_leap (y + 1)).
Proof. unfold year_start, is_leap. lia. Qed.

(* the year formula of ymd_of_doe.  Years begin in March, so a leap day is the last day of its four-year cycle.
   doe / 1460 - doe / 36524 + doe / 146096 counts the leap days passed, but early: dividing by 1460 for 1461 it reaches
   the next one as many days before the cycle ends as leap days have passed in the era, fewer than 97.  Those days lie
   in the cycle's last year, as the leap day does, and a day less among them leaves the year what it is.  So with the
   count taken out every year has 365 days left: year z begins where the rest passes 365 z *)
Lemma year_start_above doe z : 0 <= doe < 146097 -> 0 <= z <= 400 ->
  doe < year_start z <-> doe - doe / 1460 + doe / 36524 - doe / 146096 < 365 * z.
Proof. unfold year_start. lia. Qed.

Lemma year_of_day doe : 0 <= doe < 146097 ->
  let y := (doe - doe / 1460 + doe / 36524 - doe / 146096) / 365 in
  0 <= y < 400 /\ year_start y <= doe < year_start (y + 1).
Proof.
  intros H. cbv zeta. set (y := _ / 365).
  pose proof (year_start_above doe y H) as L. pose proof (year_start_above doe (y + 1) H) as U.
  subst y. lia.
Qed.

Lemma doe_of_eq y m d : 0 <= y < 400 -> doe_of y m d = year_start y + month_start ((m + 9) mod 12) + d - 1.
Proof. unfold doe_of, year_start, month_start. lia. Qed.

Lemma month_of_day doy mp : month_start mp <= doy < month_start (mp + 1) <-> (5 * doy + 2) / 153 = mp.
Proof. unfold month_start. lia. Qed.

(* the brackets of month_start allow 31 or 30 days, 30 for February too: its 28 or 29 are where the year ends *)
Lemma valid_date_doy y m d : let y' := y - (if m <=? 2 then 1 else 0) in let mp := (m + 9) mod 12 in
  valid_date y m d = true <->
  1 <= m <= 12 /\ 1 <= d /\ month_start mp + d - 1 < month_start (mp + 1) /\
  month_start mp + d - 1 < year_start (y' + 1) - year_start y'.
Proof.
  cbv zeta. rewrite year_length. unfold valid_date, days_in_month, month_start. destruct (m =? 2) eqn:E2.
  - replace (m <=? 2) with true by lia. replace (y - 1 + 1) with y by ring. destruct (is_leap y); lia.
  - destruct ((m =? 4) || (m =? 6) || (m =? 9) || (m =? 11)) eqn:E; lia.
Qed.

(* floor division makes the eras of Hinnant's algorithm invisible: they enter through this equation only *)
Lemma year_start_shift y e : year_start (y + 400 * e) = year_start y + 146097 * e.
Proof. unfold year_start. lia. Qed.

Lemma ymd_of_doe_spec doe : 0 <= doe < 146097 -> let '(y, m, d) := ymd_of_doe doe in let mp := (m + 9) mod 12 in
  0 <= y < 400 /\ 1 <= m <= 12 /\ 1 <= d /\ month_start mp + d - 1 < month_start (mp + 1) /\
  month_start mp + d - 1 < year_start (y + 1) - year_start y /\ doe = year_start y + month_start mp + d - 1.
Proof.
  intros H. unfold ymd_of_doe. destruct (year_of_day doe H) as [Hy Hd]. cbv zeta in *.
  set (y := _ / 365) in *. clearbody y. replace (365 * y + y / 4 - y / 100) with (year_start y) by (unfold year_start; lia).
  pose proof (proj2 (month_of_day (doe - year_start y) _) eq_refl) as Hm.
  set (mp := (5 * (doe - year_start y) + 2) / 153) in *. clearbody mp.
  assert (doe - year_start y < 366) as Hdoy by (pose proof (year_length y); lia).
  assert (0 <= mp <= 11) as Hmp by (unfold month_start in *; lia).
  assert (((if mp <? 10 then mp + 3 else mp - 9) + 9) mod 12 = mp) as -> by (destruct (mp <? 10) eqn:?; lia).
  fold (month_start mp). destruct (mp <? 10) eqn:?; lia.
Qed.

Lemma days_from_civil_eq y m d : days_from_civil y m d = day_number y m d - 719468.
Proof.
  unfold days_from_civil, day_number. set (y' := if m <=? 2 then y - 1 else y).
  replace (y - if m <=? 2 then 1 else 0) with y' by (unfold y'; destruct (m <=? 2); lia).
  rewrite doe_of_eq by lia.
  assert (year_start y' = year_start (y' mod 400) + 146097 * (y' / 400)) as -> by (rewrite <- year_start_shift; f_equal; lia).
  lia.
Qed.

Lemma civil_from_days_spec n : let '(y, m, d) := civil_from_days n in
  valid_date y m d = true /\ day_number y m d = n + 719468.
Proof.
  unfold civil_from_days, day_number. set (z := n + 719468).
  pose proof (ymd_of_doe_spec (z mod 146097) ltac:(lia)) as E.
  destruct (ymd_of_doe (z mod 146097)) as [[yoe m] d]. cbv zeta in E.
  rewrite valid_date_doy. cbv zeta.
  replace (yoe + z / 146097 * 400 + _ - _) with (yoe + 400 * (z / 146097)) by ring.
  replace (yoe + 400 * (z / 146097) + 1) with (yoe + 1 + 400 * (z / 146097)) by ring.
  rewrite !year_start_shift. lia.
Qed.

(* a valid date is determined by its day number: the year by its bracket of year starts, then the month by its bracket
   of month starts *)
Lemma date_unique y m d y2 m2 d2 : valid_date y m d = true -> valid_date y2 m2 d2 = true ->
  day_number y m d = day_number y2 m2 d2 -> (y, m, d) = (y2, m2, d2).
Proof.
  unfold day_number. rewrite !valid_date_doy. cbv zeta.
  set (y' := y - _). set (y2' := y2 - _). set (mp := (m + 9) mod 12). set (mp2 := (m2 + 9) mod 12).
  intros (Hm & Hd & Hmo & Hyr) (Hm2 & Hd2 & Hmo2 & Hyr2) E.
  assert (0 <= month_start mp /\ 0 <= month_start mp2) as [P P2] by (unfold month_start, mp, mp2; lia).
  assert (y2' = y') as Ey by (apply (year_unique _ _ (year_start y' + month_start mp + d - 1)); lia).
  rewrite Ey in E.
  assert (mp2 = mp) as Emp.
  { rewrite <- (proj1 (month_of_day (month_start mp + d - 1) mp)), <- (proj1 (month_of_day (month_start mp2 + d2 - 1) mp2)) by lia.
    f_equal. lia. }
  rewrite Emp in E.
  assert (m2 = m) as Em by (unfold mp, mp2 in Emp; lia).
  unfold y', y2' in Ey. rewrite Em in *. f_equal; [f_equal|]; lia.
Qed.

Lemma days_of_civil_of_days : forall n, let '(y, m, d) := civil_from_days n in
  days_from_civil y m d = n /\ valid_date y m d = true.
Proof.
  intro n. pose proof (civil_from_days_spec n) as S. destruct (civil_from_days n) as [[y m] d]. destruct S as [V E].
  rewrite days_from_civil_eq. split; [lia|exact V].
Qed.

Lemma civil_of_days_of_civil : forall y m d, valid_date y m d = true ->
  civil_from_days (days_from_civil y m d) = (y, m, d).
Proof.
  intros y m d V. pose proof (civil_from_days_spec (days_from_civil y m d)) as S.
  destruct (civil_from_days _) as [[y2 m2] d2]. destruct S as [V2 E]. rewrite days_from_civil_eq in E.
  apply date_unique; [exact V2|exact V|lia].
Qed.

Lemma year_range : forall n, let '(y, m, d) := civil_from_days n in MIN_DAY <= n <= MAX_DAY <-> 1 <= y <= 9999.
Proof.
  intros n. pose proof (civil_from_days_spec n) as S. destruct (civil_from_days n) as [[y m] d]. destruct S as [V E].
  apply valid_date_doy in V. cbv zeta in V. destruct V as (Hm & Hd & Hmo & _).
  unfold MIN_DAY, MAX_DAY. unfold day_number, year_start, month_start in *. destruct (m <=? 2) eqn:C; lia.
Qed.

Lemma days_in_month_le : forall y m, days_in_month y m <= 31.
Proof.
  intros. unfold days_in_month.
  destruct (m =? 2); [destruct (is_leap y)|destruct ((m =? 4) || (m =? 6) || (m =? 9) || (m =? 11))]; lia.
Qed.

Lemma valid_date_bounds : forall y m d, valid_date y m d = true -> 1 <= m <= 12 /\ 1 <= d <= 31.
Proof. intros y m d. unfold valid_date. pose proof (days_in_month_le y m). lia. Qed.

Lemma parse_print_date : forall y m d, 1 <= y <= 9999 -> valid_date y m d = true ->
  parse_date (print_date y m d) = Some (y, m, d).
Proof.
  intros y m d Hy V. destruct (valid_date_bounds _ _ _ V) as [Hm Hd].
  unfold parse_date, print_date.
  do 2 (rewrite take_num_small by lia; cbn [app expect]; rewrite Z.eqb_refl).
  rewrite <- (app_nil_r (to_digits 2 d)), take_num_small by lia.
  rewrite V. replace (1 <=? y) with true by lia. reflexivity.
Qed.

Lemma date_from_datetime_day : forall y m d hh mm ss, valid_tod hh mm ss = true ->
  date_from_datetime y m d hh mm ss = days_from_civil y m d.
Proof.
  intros y m d hh mm ss V. unfold valid_tod in V. unfold date_from_datetime, timegm.
  generalize (days_from_civil y m d). intro n. lia.
Qed.

(* Gen/UtilTime.v and Gen/UtilTimeGen.v hold the same translation, so the theorems of UtilTime_proofs are about both, by conversion *)
Lemma time_from_timestamp_spec n old : time_from_timestamp n old = if (n <? 0) || (n >=? DAY) then Raise else Ok (tt, n).
Proof. exact (UtilTime_proofs.time_from_timestamp_spec n old). Qed.

Lemma time_accepts_range : forall n, time_accepts n = true <-> 0 <= n < DAY.
Proof.
  intro n. unfold time_accepts. rewrite time_from_timestamp_spec. destruct (_ || _) eqn:E; lia.
Qed.

Lemma time_value_id : forall n v, time_value n = Some v -> v = n.
Proof.
  intros n v. unfold time_value. rewrite time_from_timestamp_spec. destruct (_ || _); [discriminate|]. intros [= <-]. reflexivity.
Qed.

Lemma time_fields_ok : forall n, 0 <= n < DAY ->
  of_fields (time_hour n) (time_minute n) (time_second n) (time_nanosecond n) = n /\
  0 <= time_hour n <= 23 /\ 0 <= time_minute n <= 59 /\ 0 <= time_second n <= 59 /\ 0 <= time_nanosecond n <= 999999999.
Proof.
  intros n H. split; [exact (UtilTime_proofs.time_fields_recompose n)|].
  pose proof (UtilTime_proofs.time_fields_range n : 0 <= time_minute n < 60 /\ 0 <= time_second n < 60 /\
    0 <= time_nanosecond n < 1000000000 /\ (0 <= time_hour n < 24 <-> 0 <= n < DAY)). lia.
Qed.

Lemma time_parse_str : forall n, 0 <= n < DAY -> time_parse (time_str n) = Some n.
Proof.
  intros n H. destruct (time_fields_ok n H) as [F [Hh [Hm [Hs Hn]]]].
  unfold time_parse, time_str.
  do 3 (rewrite take_num_small by lia; cbn [app expect]; rewrite Z.eqb_refl).
  rewrite <- (app_nil_r (to_digits 9 _)), take_num_small by lia.
  replace (_ && (_ <=? 61)) with true by lia.
  rewrite F. replace ((0 <=? n) && (n <? DAY)) with true by lia. reflexivity.
Qed.

Lemma time_parse_range : forall s n, time_parse s = Some n -> 0 <= n < DAY.
Proof.
  (* the only Some of time_parse stands under the test 0 <= n < DAY; the walk takes every scrutinee on the way to it apart *)
  intros s n H. assert ((0 <=? n) && (n <? DAY) = true) as G; [|lia].
  revert H. unfold time_parse.
  repeat match goal with
         | |- (if ?c then _ else _) = _ -> _ => destruct c eqn:?; try discriminate
         | |- (let (_, _) := ?x in _) = _ -> _ => destruct x
         | |- match ?x with _ => _ end = _ -> _ => destruct x; try discriminate
         end.
  intros [= <-]. assumption.
Qed.

Lemma uuid_from_us_eq us node clock : let i := us * 10 + OFFSET in
  uuid_from_us us node clock =
  {| f_low := i mod 2 ^ 32; f_mid := (i / 2 ^ 32) mod 2 ^ 16; f_hiv := (i / 2 ^ 48) mod 2 ^ 12 + 4096;
     f_csh := 128 + (clock / 2 ^ 8) mod 2 ^ 6; f_csl := clock mod 2 ^ 8; f_node := node |}.
Proof.
  unfold uuid_from_us. cbv zeta.
  destruct (UtilTime_proofs.v1_layout (us * 10 + OFFSET) clock) as (-> & -> & -> & -> & ->).
  change 4096 with (1 * 2 ^ 12). rewrite Z.lor_comm, BytesBE.lor_disjoint_add by lia. reflexivity.
Qed.

Lemma uuid_time_exact : forall us node clock, 0 <= us * 10 + OFFSET < 2 ^ 60 ->
  uuid_time (uuid_from_us us node clock) = us * 10 + OFFSET.
Proof.
  intros us node clock H. rewrite uuid_from_us_eq. unfold uuid_time. cbn [f_low f_mid f_hiv].
  (* the version nibble drops out; taken apart from the recomposition, which lia finds dear with it *)
  replace ((_ + 4096) mod 4096) with (((us * 10 + OFFSET) / 2 ^ 48) mod 2 ^ 12) by lia. lia.
Qed.

Lemma decode_exact : forall us node clock, 0 <= us * 10 + OFFSET < 2 ^ 60 ->
  decode_us (uuid_from_us us node clock) = us.
Proof.
  intros us node clock H. unfold decode_us. rewrite uuid_time_exact by exact H. lia.
Qed.

Lemma cmp_pointwise : forall a b, Forall2 (fun x y => signed8 x <= signed8 y) a b -> cmp_signed_bytes a b <> Gt.
Proof.
  induction 1 as [|x y a b H _ IH]; cbn [cmp_signed_bytes]; [discriminate|].
  destruct (signed8 x ?= signed8 y) eqn:C; [exact IH|discriminate|]. apply Z.compare_gt_iff in C. lia.
Qed.

Lemma signed8_range : forall b, 0 <= b < 256 -> signed8 128 <= signed8 b <= signed8 127.
Proof. intros b H. unfold signed8. destruct (b <? 128) eqn:E; cbn; lia. Qed.

Lemma uuid_time_min : forall us node clock, uuid_time (min_uuid us) = uuid_time (uuid_from_us us node clock).
Proof. reflexivity. Qed.

Lemma uuid_time_max : forall us node clock, uuid_time (max_uuid us) = uuid_time (uuid_from_us us node clock).
Proof. reflexivity. Qed.

Lemma lsb_bytes_min : forall us, lsb_bytes (min_uuid us) = repeat 128 8.
Proof. reflexivity. Qed.

Lemma lsb_bytes_max : forall us, lsb_bytes (max_uuid us) = 191 :: repeat 127 7.
Proof. reflexivity. Qed.

(* 0x80 is the least signed byte, 0x7f the greatest; the first byte has variant bits 10, so there it is 0x80 and 0xbf *)
Lemma uuid_bounds : forall us node clock,
  cass_le (min_uuid us) (uuid_from_us us node clock) = true /\ cass_le (uuid_from_us us node clock) (max_uuid us) = true.
Proof.
  intros us node clock. unfold cass_le, cass_compare.
  rewrite lsb_bytes_min, lsb_bytes_max, (uuid_time_min us node clock), (uuid_time_max us node clock), Z.compare_refl.
  rewrite uuid_from_us_eq. unfold lsb_bytes. cbn [f_csh f_csl f_node repeat].
  split; (destruct (cmp_signed_bytes _ _) eqn:C; [reflexivity|reflexivity|]; exfalso; revert C; apply cmp_pointwise).
  - constructor; [apply signed8_range; lia|].
    repeat constructor; apply signed8_range, Z.mod_pos_bound; reflexivity.
  - constructor; [change (signed8 191) with (-65); unfold signed8; destruct (_ <? 128) eqn:E; lia|].
    repeat constructor; apply signed8_range, Z.mod_pos_bound; reflexivity.
Qed.

Theorem source_uuid_is_model : forall us node clock, uuid_accepts node clock = true ->
  exists f, UtilTimeGen.uuid_from_time_tail node clock (us * 10 + OFFSET) = Ok (f, 1) /\
            UuidFields.py_uuid_int f 1 = Some (uuid_int (uuid_from_us us node clock)).
Proof.
  intros us node clock Hacc. unfold uuid_accepts in Hacc.
  rewrite UtilTime_proofs.uuid_tail_spec. destruct (clock >? 16383) eqn:E; [lia|].
  eexists. split; [reflexivity|].
  rewrite uuid_from_us_eq. unfold uuid_int. cbn [f_low f_mid f_hiv f_csh f_csl f_node].
  apply UtilTime_proofs.py_uuid_int_v1; lia.
Qed.

(* a clock sequence above 14 bits is refused by the regenerated code itself, a node outside 48 bits by uuid.UUID *)
Theorem source_uuid_rejects : forall us node clock, uuid_accepts node clock = false ->
  match UtilTimeGen.uuid_from_time_tail node clock (us * 10 + OFFSET) with
  | Ok (f, v) => UuidFields.py_uuid_int f v = None
  | Raise => True
  | Fuel => False
  end.
Proof.
  intros us node clock Hrej. unfold uuid_accepts in Hrej.
  rewrite UtilTime_proofs.uuid_tail_spec. destruct (clock >? 16383) eqn:E; [exact I|].
  unfold UuidFields.py_uuid_int. replace (UuidFields.uuid_fields_ok _) with false by (unfold UuidFields.uuid_fields_ok; lia).
  reflexivity.
Qed.

(* a year and the year 400 e later have the same length *)
Lemma is_leap_shift : forall a e, is_leap (a + 400 * e) = is_leap a.
Proof.
  intros a e. pose proof (year_length (a - 1 + 400 * e)) as H. pose proof (year_length (a - 1)) as H0.
  replace (a - 1 + 400 * e + 1) with (a + 400 * e) in H by ring. replace (a - 1 + 1) with a in H0 by ring.
  rewrite !year_start_shift in H. destruct (is_leap (a + 400 * e)), (is_leap a); lia.
Qed.

Lemma valid_date_shift : forall a e m d, valid_date (a + 400 * e) m d = valid_date a m d.
Proof. intros. unfold valid_date, days_in_month. rewrite is_leap_shift. reflexivity. Qed.

Ltac Zify.zify_post_hook ::= idtac.
