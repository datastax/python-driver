From Coq Require Import ZArith List Bool Lia.
From Verif Require Import RingBase ListFacts.
Import ListNotations.
Local Open Scope Z_scope.

Lemma memZ_In : forall x l, memZ x l = true <-> In x l.
Proof. exact (memb_In Z.eqb Z.eqb_eq). Qed.

Lemma memZ_false : forall x l, memZ x l = false <-> ~ In x l.
Proof. intros. rewrite <- memZ_In. destruct (memZ x l); intuition congruence. Qed.

Lemma memZ_app : forall x a b, memZ x (a ++ b) = memZ x a || memZ x b.
Proof. intros. apply eq_iff_eq_true. rewrite orb_true_iff, !memZ_In. apply in_app_iff. Qed.

Lemma set_add_In : forall x y l, In y (set_add x l) <-> y = x \/ In y l.
Proof.
  intros. unfold set_add. destruct (memZ x l) eqn:E.
  - apply memZ_In in E. intuition congruence.
  - rewrite in_app_iff. cbn [In]. intuition congruence.
Qed.

Lemma set_add_NoDup : forall x l, NoDup l -> NoDup (set_add x l).
Proof.
  intros. unfold set_add. destruct (memZ x l) eqn:E; [assumption|].
  apply NoDup_snoc; [assumption|]. apply memZ_false. assumption.
Qed.

Lemma set_add_length : forall x l, (length l <= length (set_add x l))%nat.
Proof. intros. unfold set_add. destruct (memZ x l); [lia|]. rewrite app_length. lia. Qed.

Lemma set_add_new : forall x l, ~ In x l -> set_add x l = l ++ [x].
Proof. intros x l H. unfold set_add. apply memZ_false in H. rewrite H. reflexivity. Qed.

Lemma set_add_old : forall x l, In x l -> set_add x l = l.
Proof. intros x l H. unfold set_add. apply memZ_In in H. rewrite H. reflexivity. Qed.

Lemma set_add_all : forall (P : Z -> Prop) x l, P x -> (forall y, In y l -> P y) -> forall y, In y (set_add x l) -> P y.
Proof. intros P x l Hx Hl y Hy. apply set_add_In in Hy. destruct Hy as [->|Hy]; [assumption | apply Hl; assumption]. Qed.

Lemma set_add_incl : forall x l m, In x m -> incl l m -> incl (set_add x l) m.
Proof. intros x l m. exact (set_add_all (fun y => In y m) x l). Qed.

Lemma lenZ_snoc : forall {A} (l : list A) x, lenZ (l ++ [x]) = lenZ l + 1.
Proof. intros. unfold lenZ. rewrite app_length. cbn [length]. lia. Qed.

(* nts_step tests `lenZ placed =? nracks` and `lenZ placed <? nracks` on the same pair: both values from one comparison *)
Lemma le_cases_b : forall a b, a <= b ->
  a = b /\ (a =? b) = true /\ (a <? b) = false \/ a < b /\ (a =? b) = false /\ (a <? b) = true.
Proof. intros a b H. destruct (Z.eqb_spec a b), (Z.ltb_spec a b); [lia | left | right | lia]; repeat split; assumption. Qed.

Lemma memZ_filter : forall (f : Z -> bool) h l, f h = true -> memZ h (filter f l) = memZ h l.
Proof. intros f h l Hf. apply eq_iff_eq_true. rewrite !memZ_In, filter_In. tauto. Qed.

(* l minus the members of reps: the driver's skipped list is Cassandra's without the hosts that have become replicas *)
Definition without (reps l : list Z) : list Z := filter (fun x => negb (memZ x reps)) l.

Lemma without_cons : forall reps y l, without reps (y :: l) = if memZ y reps then without reps l else y :: without reps l.
Proof. intros. unfold without. cbn [filter]. destruct (memZ y reps); reflexivity. Qed.

Lemma without_set_add_old : forall reps h l, In h reps -> without reps (set_add h l) = without reps l.
Proof.
  intros reps h l H. apply memZ_In in H. unfold without, set_add. destruct (memZ h l); [reflexivity|].
  rewrite filter_app. cbn [filter]. rewrite H. apply app_nil_r.
Qed.

Lemma without_set_add_new : forall reps h l, ~ In h reps -> without reps (set_add h l) = set_add h (without reps l).
Proof.
  intros reps h l H. apply memZ_false in H. unfold without, set_add. rewrite memZ_filter by (rewrite H; reflexivity).
  destruct (memZ h l); [reflexivity|]. rewrite filter_app. cbn [filter]. rewrite H. reflexivity.
Qed.

Lemma without_snoc : forall reps h l, ~ In h l -> without (reps ++ [h]) l = without reps l.
Proof.
  intros. apply filter_ext_in. intros x Hx. rewrite memZ_app. cbn [memZ].
  destruct (x =? h) eqn:E; [apply Z.eqb_eq in E; subst; contradiction|]. rewrite !orb_false_r. reflexivity.
Qed.

Lemma without_all : forall reps l, (forall x, In x l -> In x reps) -> without reps l = [].
Proof. intros reps l H. apply filter_none. intros x Hx. apply negb_false_iff, memZ_In, H, Hx. Qed.

Lemma dedup_gen_In : forall l acc y, In y (fold_left (fun a x => set_add x a) l acc) <-> In y acc \/ In y l.
Proof.
  induction l as [|x l IH]; intros; cbn [fold_left In]; [tauto|].
  rewrite IH, set_add_In. intuition congruence.
Qed.

Lemma dedup_In : forall l y, In y (dedup l) <-> In y l.
Proof. intros. unfold dedup. rewrite dedup_gen_In. cbn [In]. tauto. Qed.

Lemma dedup_NoDup : forall l, NoDup (dedup l).
Proof. intros l. apply (fold_left_inv (fun a x => set_add x a) (@NoDup Z)); [|constructor]. intros acc x. apply set_add_NoDup. Qed.

Lemma NoDup_same_length : forall {A} (a b : list A), NoDup a -> NoDup b -> (forall x, In x a <-> In x b) -> length a = length b.
Proof.
  intros A a b Ha Hb H. apply Nat.le_antisymm; apply NoDup_incl_length; try assumption; intros x Hx; apply H; assumption.
Qed.

Lemma NoDup_full : forall (a b : list Z), NoDup a -> incl a b -> (length b <= length a)%nat -> NoDup b -> incl b a.
Proof. intros a b Ha Hi Hl Hb. apply NoDup_length_incl; assumption. Qed.

(* a lists members of b, none twice: it is no longer than b, and when as long it holds all of b (the counting argument of C26_nts) *)
Definition within (a b : list Z) : Prop := NoDup a /\ incl a b.

Lemma within_nil : forall b, within [] b.
Proof. intros b. split; [constructor | intros x []]. Qed.

Lemma within_set_add : forall x a b, within a b -> In x b -> within (set_add x a) b.
Proof. intros x a b [Hn Hi] Hx. split; [apply set_add_NoDup | apply set_add_incl]; assumption. Qed.

Lemma within_snoc : forall x a b, within a b -> In x b -> ~ In x a -> within (a ++ [x]) b.
Proof. intros x a b H Hx Hn. rewrite <- set_add_new by assumption. apply within_set_add; assumption. Qed.

Lemma within_lenZ : forall a b, within a b -> lenZ a <= lenZ b.
Proof. intros a b [Hn Hi]. apply inj_le. apply NoDup_incl_length; assumption. Qed.

Lemma within_full : forall a b, within a b -> lenZ b <= lenZ a -> incl b a.
Proof. intros a b [Hn Hi] Hl. apply NoDup_length_incl; try assumption. unfold lenZ in Hl. lia. Qed.

Lemma dedup_map_dedup_len : forall (f : Z -> Z) l, lenZ (dedup (map f (dedup l))) = lenZ (dedup (map f l)).
Proof.
  intros. unfold lenZ. f_equal. apply NoDup_same_length; try apply dedup_NoDup.
  intros x. rewrite !dedup_In, !in_map_iff. split; intros [y [E Hy]]; exists y; (split; [assumption|]); apply dedup_In; assumption.
Qed.

Lemma rot_In : forall {A} k (l : list A) x, In x (rot k l) <-> In x l.
Proof.
  intros. unfold rot. rewrite in_app_iff. rewrite <- (firstn_skipn k l) at 3. rewrite in_app_iff. tauto.
Qed.

Lemma map_rot : forall {A B} (f : A -> B) k l, map f (rot k l) = rot k (map f l).
Proof. intros. unfold rot. rewrite map_app, skipn_map, firstn_map. reflexivity. Qed.

Lemma rot_nil : forall {A} k, rot k (@nil A) = [].
Proof. intros. unfold rot. rewrite skipn_nil, firstn_nil. reflexivity. Qed.

Lemma rot_app_length : forall {A} (a b : list A), rot (length a) (a ++ b) = b ++ a.
Proof. intros. unfold rot. rewrite skipn_app_len, firstn_app_len. reflexivity. Qed.

Lemma assoc_combine : forall {V} (ks : list Z) (vs : list V) k dv,
  NoDup ks -> length vs = length ks -> (k < length ks)%nat ->
  assoc (nth k ks 0) (combine ks vs) = Some (nth k vs dv).
Proof.
  induction ks as [|a ks IH]; intros vs k dv Hn Hl Hk; cbn [length] in *; [lia|].
  destruct vs as [|v vs]; cbn [length] in *; [lia|].
  inversion Hn as [|? ? Ha Hn']; subst.
  destruct k as [|k]; cbn [nth combine assoc].
  - rewrite Z.eqb_refl. reflexivity.
  - destruct (nth k ks 0 =? a) eqn:E.
    + apply Z.eqb_eq in E. exfalso. apply Ha. rewrite <- E. apply nth_In. lia.
    + apply IH; [assumption | lia | lia].
Qed.

Lemma assoc_In : forall {V} k (m : list (Z * V)) v, assoc k m = Some v -> In (k, v) m.
Proof.
  induction m as [|[k' v'] m IH]; intros v H; cbn [assoc] in H; [discriminate|].
  destruct (k =? k') eqn:E.
  - apply Z.eqb_eq in E. inversion H. subst. left. reflexivity.
  - right. apply IH. assumption.
Qed.

Lemma nth_map_seq : forall {V} (f : nat -> V) n k dv, (k < n)%nat -> nth k (map f (seq 0 n)) dv = f k.
Proof.
  intros. rewrite nth_indep with (d' := f O) by (rewrite map_length, seq_length; assumption).
  rewrite map_nth. rewrite seq_nth by assumption. reflexivity.
Qed.

Lemma map_nth_seq : forall (ks : list Z), map (fun i => nth i ks 0) (seq 0 (length ks)) = ks.
Proof.
  intros. apply nth_ext with (d := 0) (d' := 0); rewrite map_length, seq_length; [reflexivity|].
  intros k Hk. rewrite nth_map_seq by assumption. reflexivity.
Qed.

Lemma map_pair : forall {A B C} (g : A -> B) (f : A -> C) l, map (fun i => (g i, f i)) l = combine (map g l) (map f l).
Proof. intros. induction l as [|i l IH]; cbn [map combine]; [reflexivity|]. rewrite IH. reflexivity. Qed.

Lemma upd_same : forall {V} (f : Z -> V) k v, upd f k v k = v.
Proof. intros. unfold upd. rewrite Z.eqb_refl. reflexivity. Qed.

Lemma upd_other : forall {V} (f : Z -> V) k v x, x <> k -> upd f k v x = f x.
Proof. intros. unfold upd. destruct (Z.eqb_spec x k); [contradiction | reflexivity]. Qed.

Lemma strictly_sorted_cons : forall a l, strictly_sorted (a :: l) = true -> (forall x, In x l -> a < x) /\ strictly_sorted l = true.
Proof.
  intros a l. revert a. induction l as [|b l IH]; intros a H.
  - split; [intros x [] | reflexivity].
  - apply andb_true_iff in H. destruct H as [Hab Hs]. apply Z.ltb_lt in Hab.
    split; [|exact Hs]. intros x [<-|Hx]; [assumption|]. apply (IH b Hs) in Hx. lia.
Qed.

Lemma strictly_sorted_NoDup : forall l, strictly_sorted l = true -> NoDup l.
Proof.
  induction l as [|a l IH]; intros H; [constructor|].
  destruct (strictly_sorted_cons _ _ H) as [Hf Hs]. constructor; [|apply IH; assumption].
  intro Hin. specialize (Hf _ Hin). lia.
Qed.
