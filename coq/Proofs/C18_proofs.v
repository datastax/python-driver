From Coq Require Import ZArith List Bool Lia.
From Verif Require Import Paging.
Import ListNotations.
Local Open Scope Z_scope.

(* One law for every call in any state: what it sends ++ what is then left to send = what was left before (to_send:
   failed requests repeated).  Rows are accounted for per reading, from the first page (init_spec): rest_rows are
   those not yet fetched, more_size the fetch_next_page() calls manual paging still needs. *)
Definition to_send (s : rset) : list (option Z) :=
  match more s with Some (st, srv) => expected_reqs (Some st) srv | None => [] end.
Definition rest_rows (s : rset) : list Z := match more s with Some (_, srv) => all_rows srv | None => [] end.
Definition more_size (s : rset) : nat := match more s with Some (_, srv) => (npages srv + nfails srv)%nat | None => O end.

Lemma reqs_app a b : reqs (a ++ b) = reqs a ++ reqs b.
Proof. induction a as [|[st|v] a IH]; cbn; [reflexivity| rewrite IH; reflexivity | exact IH]. Qed.

Lemma reqs_ret o v : reqs (o ++ [Ret v]) = reqs o.
Proof. rewrite reqs_app. apply app_nil_r. Qed.

Lemma expected_nofail : forall srv cur, nfails srv = O -> nspecs srv = O -> expected_reqs cur srv = cur :: map Some (states srv).
Proof.
  induction srv as [rs|rs st rest IH|rest IH|rest IH]; intros cur H H'; cbn in *; try discriminate.
  - reflexivity.
  - rewrite IH by assumption. reflexivity.
Qed.

Lemma expected_length : forall srv cur, length (expected_reqs cur srv) = (npages srv + nfails srv + nspecs srv)%nat.
Proof. induction srv; intros c; cbn; rewrite ?IHsrv; lia. Qed.

Lemma all_rows_concat srv : all_rows srv = concat (pages srv).
Proof. induction srv as [rs|rs st rest IH|rest IH|rest IH]; cbn; [symmetry; apply app_nil_r | rewrite IH; reflexivity | exact IH | exact IH]. Qed.

Lemma npages_pos srv : (1 <= npages srv)%nat.
Proof. induction srv; cbn; lia. Qed.

Lemma states_length srv : S (length (states srv)) = npages srv.
Proof. induction srv; cbn; congruence. Qed.

(* what a next() that returns v has done to the rows and failures that were still ahead *)
Definition advances (rows : list Z) (fails : nat) (s' : rset) (v : val) : Prop :=
  match v with
  | VStop => rows = [] /\ to_send s' = []
  | VRow r => rows = r :: pending_rows s' /\ fails = pending_fails s'
  | VError => rows = pending_rows s' /\ fails = S (pending_fails s')
  | _ => False
  end.

Lemma pull_spec : forall srv lm c st,
  let '(s', o, v) := pull lm c st srv in
  reqs o ++ to_send s' = expected_reqs (Some st) srv /\ it s' <> None /\ advances (all_rows srv) (nfails srv) s' v.
Proof.
  induction srv as [rs|rs st' rest IH|rest IH|rest IH]; intros lm c st.
  - (* Last *) destruct rs as [|r rs]; cbn; repeat split; try discriminate.
    (* left: the rows, for r :: rs *)
    rewrite app_nil_r. reflexivity.
  - (* More *) destruct rs as [|r rs].
    + cbn [pull]. specialize (IH lm [] st'). destruct (pull lm [] st' rest) as [[s' o] v].
      destruct IH as (H1 & H2 & H3). cbn. rewrite H1. auto.
    + repeat split; discriminate.
  - (* Fail *) repeat split; discriminate.
  - (* Spec *) cbn [pull]. specialize (IH lm c st). destruct (pull lm c st rest) as [[s' o] v].
    destruct IH as (H1 & H2 & H3). cbn. rewrite H1. auto.
Qed.

Lemma next_reqs s : let '(s', o, _) := next s in reqs o ++ to_send s' = to_send s.
Proof.
  unfold next. destruct (it s) as [[|r l]|]; [|reflexivity..].
  unfold to_send at 2. destruct (more s) as [[st srv]|]; [|reflexivity].
  pose proof (pull_spec srv (lmode s) (cur s) st) as P. destruct (pull (lmode s) (cur s) st srv) as [[s' o] v]. apply P.
Qed.

Lemma next_rows s : it s <> None ->
  let '(s', _, v) := next s in it s' <> None /\ advances (pending_rows s) (pending_fails s) s' v.
Proof.
  intros Hit. unfold next, pending_rows, pending_fails. destruct (it s) as [[|r l]|]; [| |contradiction].
  - destruct (more s) as [[st srv]|].
    + pose proof (pull_spec srv (lmode s) (cur s) st) as P. destruct (pull (lmode s) (cur s) st srv) as [[s' o] v]. apply P.
    + repeat split; discriminate.
  - repeat split; discriminate.
Qed.

Lemma fetch_srv_spec : forall srv c i lm st, let '(s', o, v) := fetch_srv c i lm st srv in
  reqs o ++ to_send s' = expected_reqs (Some st) srv
  /\ (more_size s' < npages srv + nfails srv)%nat
  /\ (v = VNone /\ cur s' ++ rest_rows s' = all_rows srv \/ v = VError /\ cur s' = c /\ rest_rows s' = all_rows srv).
Proof.
  induction srv as [rs|rs st' rest IH|rest IH|rest IH]; intros c i lm st; cbn.
  - rewrite app_nil_r. repeat split; auto; lia.
  - repeat split; auto; lia.
  - repeat split; auto; lia.
  - specialize (IH c i lm st). destruct (fetch_srv c i lm st rest) as [[s' o] v]. destruct IH as (A & B & C).
    cbn. rewrite A. auto.
Qed.

Lemma fetch_reqs s : let '(s', o, _) := fetch s in reqs o ++ to_send s' = to_send s.
Proof.
  unfold fetch, to_send at 2. destruct (more s) as [[st srv]|]; [|reflexivity].
  pose proof (fetch_srv_spec srv (cur s) (it s) (lmode s) st) as F.
  destruct (fetch_srv (cur s) (it s) (lmode s) st srv) as [[s' o] v]. apply F.
Qed.

(* drain and drain_retry are one loop: after a failed page fetch it goes on (`retry`) or lets the exception out.
   `retry` stands outside the fix and that branch returns the matched `v`, as the model's catch-all does: each
   instance then reduces to the model's loop, fix for fix *)
Section Nexts.
  Variable retry : bool.
  Fixpoint nexts (fuel : nat) (s : rset) (acc : list Z) (o : list out) : rset * list out * val :=
    match fuel with
    | O => (s, o, VFuel)
    | S f =>
        let '(s', o', v) := next s in
        match v with
        | VRow r => nexts f s' (acc ++ [r]) (o ++ o')
        | VError => if retry then nexts f s' acc (o ++ o') else (s', o ++ o', v)
        | VStop => (s', o ++ o', VRows acc)
        | e => (s', o ++ o', e)
        end
    end.
End Nexts.

Lemma drain_nexts : drain = nexts false.
Proof. reflexivity. Qed.

Lemma drain_retry_nexts : drain_retry = nexts true.
Proof. reflexivity. Qed.

Lemma nexts_reqs retry : forall fuel s acc o,
  let '(s', o', _) := nexts retry fuel s acc o in reqs o' ++ to_send s' = reqs o ++ to_send s.
Proof.
  induction fuel as [|f IH]; intros s acc o; cbn [nexts]; [reflexivity|].
  pose proof (next_reqs s) as N. destruct (next s) as [[s1 o1] v].
  assert (E : reqs (o ++ o1) ++ to_send s1 = reqs o ++ to_send s) by (rewrite reqs_app, <- app_assoc, N; reflexivity).
  destruct v; try exact E.
  - (* VRow *) rewrite <- E. apply IH.
  - (* VError *) destruct retry; [rewrite <- E; apply IH | exact E].
Qed.

(* calls still to be made: one per pending row, one per pending failure, and the one that stops *)
Lemma nexts_rows retry : forall fuel s acc o, it s <> None -> (retry = false -> pending_fails s = O) ->
  (length (pending_rows s) + pending_fails s < fuel)%nat ->
  let '(s', _, r) := nexts retry fuel s acc o in r = VRows (acc ++ pending_rows s) /\ to_send s' = [].
Proof.
  induction fuel as [|f IH]; intros s acc o Hit Hnf Hf; [lia|]. cbn [nexts].
  pose proof (next_rows s Hit) as N. destruct (next s) as [[s1 o1] v]. destruct N as [Hit1 N].
  destruct v; try contradiction; destruct N as [Hp Hpf].
  - (* VRow *) rewrite Hp in Hf |- *. rewrite Hpf in Hnf. cbn in Hf.
    replace (acc ++ z :: pending_rows s1) with ((acc ++ [z]) ++ pending_rows s1) by (rewrite <- app_assoc; reflexivity).
    apply IH; [assumption.. | lia].
  - (* VStop *) rewrite Hp, app_nil_r. auto.
  - (* VError *) destruct retry; [|specialize (Hnf eq_refl); lia].
    rewrite Hp in Hf |- *. apply IH; [assumption | discriminate | lia].
Qed.

Lemma iter_self s : lmode s = false -> iter_ s = (mkRS (cur s) (Some (cur s)) false (more s), VSelf).
Proof. intros Hl. unfold iter_. rewrite Hl. reflexivity. Qed.

Lemma nexts_all retry fuel s : let s1 := mkRS (cur s) (Some (cur s)) false (more s) in
  (retry = false -> pending_fails s = O) -> (length (pending_rows s1) + pending_fails s < fuel)%nat ->
  let '(_, o, r) := nexts retry fuel s1 [] [] in r = VRows (cur s ++ rest_rows s) /\ reqs o = to_send s.
Proof.
  intros s1 Hnf Hf.
  pose proof (nexts_rows retry fuel s1 [] [] ltac:(discriminate) Hnf Hf) as D.
  pose proof (nexts_reqs retry fuel s1 [] []) as R.
  destruct (nexts retry fuel s1 [] []) as [[s' o] r]. destruct D as [D1 D2].
  split; [exact D1|]. rewrite D2, app_nil_r in R. exact R.
Qed.

Lemma list_self_reqs s : let '(s', o, _) := list_self s in reqs o ++ to_send s' = to_send s.
Proof. unfold list_self, iter_. destruct (lmode s); [reflexivity|]. rewrite drain_nexts. apply (nexts_reqs false). Qed.

Lemma list_self_spec s : lmode s = false -> pending_fails s = O ->
  let '(_, o, r) := list_self s in r = VRows (cur s ++ rest_rows s) /\ reqs o = to_send s.
Proof.
  intros Hl Hnf. unfold list_self. rewrite Hl, (iter_self s Hl), drain_nexts.
  apply nexts_all; [intros _; exact Hnf | lia].
Qed.

Lemma enter_list_mode_reqs s : let '(s', o, _) := enter_list_mode s in reqs o ++ to_send s' = to_send s.
Proof.
  unfold enter_list_mode. destruct (lmode s); [reflexivity|]. destruct (it s); [reflexivity|].
  pose proof (list_self_reqs s) as L. destruct (list_self s) as [[s1 o] r]. destruct r; exact L.
Qed.

Lemma step_reqs s op : let '(s', o) := step s op in reqs o ++ to_send s' = to_send s.
Proof.
  destruct op as [ | | | | | | | |i|other| ]; cbn [step]; try reflexivity.
  - unfold iter_. destruct (lmode s); reflexivity.
  - pose proof (next_reqs s) as N. destruct (next s) as [[s' o] v]. rewrite reqs_ret. exact N.
  - pose proof (fetch_reqs s) as N. destruct (fetch s) as [[s' o] v]. rewrite reqs_ret. exact N.
  - pose proof (enter_list_mode_reqs s) as N. destruct (enter_list_mode s) as [[s' o] [e|]]; rewrite reqs_ret; exact N.
  - pose proof (enter_list_mode_reqs s) as N. destruct (enter_list_mode s) as [[s' o] [e|]]; rewrite reqs_ret; exact N.
  - pose proof (list_self_reqs s) as N. destruct (list_self s) as [[s' o] r]. rewrite reqs_ret. exact N.
Qed.

Lemma run_state_reqs : forall ops s, let '(s', o) := run_state s ops in reqs o ++ to_send s' = to_send s.
Proof.
  induction ops as [|op ops IH]; intros s; cbn [run_state]; [reflexivity|].
  pose proof (step_reqs s op) as S1. destruct (step s op) as [s1 o1].
  specialize (IH s1). destruct (run_state s1 ops) as [s2 o2].
  rewrite reqs_app, <- app_assoc, IH. exact S1.
Qed.

Lemma init_spec srv : let '(s0, o0) := init srv in
  (lmode s0 = false /\ it s0 = None)
  /\ (reqs o0 ++ to_send s0 = expected_reqs None srv /\ cur s0 ++ rest_rows s0 = all_rows srv)
  /\ (pending_fails s0 <= nfails srv)%nat /\ (more_size s0 < npages srv + nfails srv)%nat.
Proof.
  induction srv as [rs|rs st rest IH|rest IH|rest IH]; cbn.
  1: rewrite app_nil_r.
  1, 2: repeat split; lia.
  all: destruct (init rest) as [s o]; destruct IH as ([F1 F2] & [A B] & C & D); cbn; rewrite A; repeat split; (assumption || lia).
Qed.

Lemma init_one_request srv : nfails srv = O -> nspecs srv = O -> snd (init srv) = [Req None].
Proof. destruct srv; (discriminate || reflexivity). Qed.

Lemma any_pattern_prefix srv ops :
  let '(s0, o0) := init srv in let '(s', o) := run_state s0 ops in
  reqs (o0 ++ o) ++ to_send s' = expected_reqs None srv.
Proof.
  pose proof (init_spec srv) as I. destruct (init srv) as [s0 o0].
  pose proof (run_state_reqs ops s0) as R. destruct (run_state s0 ops) as [s' o].
  rewrite reqs_app, <- app_assoc, R. apply I.
Qed.

Lemma iterate_spec srv : nfails srv = O ->
  snd (iterate srv) = VRows (all_rows srv) /\ reqs (fst (iterate srv)) = expected_reqs None srv.
Proof.
  intros Hnf. unfold iterate. pose proof (init_spec srv) as I.
  destruct (init srv) as [s0 o0]. destruct I as (F & [<- <-] & B).
  pose proof (list_self_spec s0 (proj1 F) ltac:(lia)) as L. destruct (list_self s0) as [[s' o] r].
  destruct L as [-> <-]. cbn [fst snd]. rewrite reqs_app. auto.
Qed.

Lemma iterate_retry_spec srv :
  snd (iterate_retry srv) = VRows (all_rows srv) /\ reqs (fst (iterate_retry srv)) = expected_reqs None srv.
Proof.
  unfold iterate_retry. pose proof (init_spec srv) as I.
  destruct (init srv) as [s0 o0]. destruct I as (F & [<- <-] & _). rewrite (iter_self s0 (proj1 F)), drain_retry_nexts.
  pose proof (nexts_all true _ s0 ltac:(discriminate) (Nat.lt_succ_diag_r _)) as D.
  destruct (nexts true _ _ [] []) as [[s' o] r].
  destruct D as [-> <-]. cbn [fst snd]. rewrite reqs_app. auto.
Qed.

Lemma manual_loop_spec : forall fuel s o, (more_size s <= fuel)%nat ->
  let '(o', r) := manual_loop fuel s o in r = Some (cur s ++ rest_rows s) /\ reqs o' = reqs o ++ to_send s.
Proof.
  induction fuel as [|f IH]; intros s o Hf; cbn [manual_loop]; unfold has_more, fetch, rest_rows, to_send;
    unfold more_size in Hf; destruct (more s) as [[st srv]|].
  2, 4: rewrite !app_nil_r; split; reflexivity. (* no page left: the loop is over *)
  - pose proof (npages_pos srv). lia.
  - pose proof (fetch_srv_spec srv (cur s) (it s) (lmode s) st) as F.
    destruct (fetch_srv (cur s) (it s) (lmode s) st srv) as [[s1 o1] v]. destruct F as (F1 & F2 & F3).
    specialize (IH s1 (o ++ o1) ltac:(lia)). destruct (manual_loop f s1 (o ++ o1)) as [o' r]. destruct IH as [-> ->].
    rewrite reqs_app, <- app_assoc, F1. split; [|reflexivity].
    destruct F3 as [[-> <-]|(-> & -> & ->)]; reflexivity.
Qed.

Lemma manual_spec srv : snd (manual srv) = Some (all_rows srv) /\ reqs (fst (manual srv)) = expected_reqs None srv.
Proof.
  unfold manual. pose proof (init_spec srv) as I. destruct (init srv) as [s0 o0]. destruct I as (_ & [<- <-] & B).
  pose proof (manual_loop_spec (npages srv + nfails srv) s0 o0 ltac:(lia)) as M.
  destruct (manual_loop (npages srv + nfails srv) s0 o0) as [o r]. exact M.
Qed.

Lemma async_from_spec : forall srv st, nfails srv = O ->
  let '(o, r, f) := async_from true st srv in reqs o = expected_reqs (Some st) srv /\ r = all_rows srv /\ f = true.
Proof.
  induction srv as [rs|rs st' rest IH|rest IH|rest IH]; intros st Hn; cbn in *; try discriminate; auto.
  - specialize (IH st' Hn). destruct (async_from true st' rest) as [[o r] f]. destruct IH as (A & B & C). cbn. rewrite A, B. auto.
  - specialize (IH st Hn). destruct (async_from true st rest) as [[o r] f]. destruct IH as (A & B & C). cbn. rewrite A. auto.
Qed.

Lemma async_pages_spec early srv : nfails srv = O ->
  let '(o, r, f) := async_pages early srv in reqs o = expected_reqs None srv /\ r = all_rows srv /\ f = true.
Proof.
  intros Hn. unfold async_pages, add_callback_registers. pose proof (init_spec srv) as I.
  destruct (init srv) as [s0 o0]. destruct I as (_ & [<- <-] & B). unfold to_send, rest_rows, pending_fails in *.
  destruct (more s0) as [[st rest]|].
  - pose proof (async_from_spec rest st ltac:(lia)) as A. destruct (async_from true st rest) as [[o r] f].
    rewrite reqs_app. destruct A as (-> & -> & ->). auto.
  - rewrite !app_nil_r. auto.
Qed.

Lemma enter_list_mode_init srv : nfails srv = O -> let '(s0, o0) := init srv in
  exists s1 o, enter_list_mode s0 = (s1, o, None) /\ cur s1 = all_rows srv /\ reqs (o0 ++ o) = expected_reqs None srv.
Proof.
  intros Hnf. pose proof (init_spec srv) as I.
  destruct (init srv) as [s0 o0]. destruct I as ([Hl Hi] & [<- <-] & B). unfold enter_list_mode. rewrite Hl, Hi.
  pose proof (list_self_spec s0 Hl ltac:(lia)) as L. destruct (list_self s0) as [[s' o] r]. destruct L as [-> <-].
  eexists _, _. rewrite reqs_app. repeat split.
Qed.

(* no modelled call sends a request from here: a continuous session, or what it leaves when materialised or exhausted *)
Definition quiet (a : anystate) : Prop :=
  match a with Cont _ => True | Paged s => (lmode s = true /\ it s = None) \/ to_send s = [] end.

Lemma cont_exhausted_quiet c : quiet (cont_exhausted c).
Proof. unfold cont_exhausted. destruct (cmore c); cbn; auto. Qed.

Lemma astep_quiet a o : quiet a -> cont_op o = true -> let '(a', outs) := astep a o in reqs outs = [] /\ quiet a'.
Proof.
  intros Q Hop. destruct a as [s|c]; cbn [astep].
  - destruct Q as [[Hl Hi]|Hm].
    + destruct o; try discriminate; cbn [step]; unfold iter_, next, enter_list_mode, list_self; rewrite ?Hl, ?Hi; cbn; auto.
    + pose proof (step_reqs s o) as R. destruct (step s o) as [s' outs].
      rewrite Hm in R. apply app_eq_nil in R. destruct R as [R1 R2]. split; [exact R1 | right; exact R2].
  - destruct o; try discriminate; cbn [cstep]; destruct (cit c), (gen c); cbn; auto using cont_exhausted_quiet.
Qed.

Lemma arun_quiet : forall ops a, quiet a -> forallb cont_op ops = true ->
  reqs (snd (arun_state a ops)) = [] /\ quiet (fst (arun_state a ops)).
Proof.
  induction ops as [|o ops IH]; intros a Q H; cbn [arun_state]; [auto|].
  cbn in H. apply andb_true_iff in H. destruct H as [H1 H2].
  pose proof (astep_quiet a o Q H1) as S1. destruct (astep a o) as [a1 o1]. destruct S1 as [R1 Q1].
  destruct (IH a1 Q1 H2) as [R2 Q2]. destruct (arun_state a1 ops) as [a2 o2]. cbn [fst snd] in *.
  rewrite reqs_app, R1, R2. auto.
Qed.

Lemma cont_next_steps : forall g m, snd (arun_state (Cont (mkCS g true m)) (repeat ONext (length g))) = map (fun r => Ret (VRow r)) g.
Proof.
  induction g as [|r g IH]; intros m; cbn [length repeat arun_state]; [reflexivity|].
  cbn [astep cstep cit gen cmore]. specialize (IH m). destruct (arun_state (Cont (mkCS g true m)) (repeat ONext (length g))) as [a o].
  cbn in *. rewrite IH. reflexivity.
Qed.
