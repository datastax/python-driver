(* C33: the element orders used for running the model satisfy (or, for nested sets, violate) the order laws. *)
From Coq Require Import ZArith List Bool Lia.
From Verif Require Import ListFacts SortedSet.
Import ListNotations.
Local Open Scope Z_scope.

Lemma z_ltb_irrefl : forall x, z_ltb x x = false.
Proof. intro x. unfold z_ltb. apply Z.ltb_irrefl. Qed.
Lemma z_ltb_trans : forall x y z, z_ltb x y = true -> z_ltb y z = true -> z_ltb x z = true.
Proof. unfold z_ltb. intros x y z H1 H2. apply Z.ltb_lt in H1, H2. apply Z.ltb_lt. lia. Qed.
Lemma z_ltb_total : forall x y, z_ltb x y = false -> z_ltb y x = false -> x = y.
Proof. unfold z_ltb. intros x y H1 H2. apply Z.ltb_ge in H1, H2. lia. Qed.
Lemma z_eqb_spec : forall x y, z_eqb x y = true <-> x = y.
Proof. intros. unfold z_eqb. apply Z.eqb_eq. Qed.

Lemma lz_ltb_cons : forall a x b y,
  (lz_ltb (a :: x) (b :: y) = true <-> a < b \/ (a = b /\ lz_ltb x y = true)) /\
  (lz_ltb (a :: x) (b :: y) = false <-> b < a \/ (a = b /\ lz_ltb x y = false)).
Proof.
  intros a x b y. cbn. destruct (Z.ltb_spec a b) as [L|L]; [split; split; try discriminate; lia|].
  destruct (Z.ltb_spec b a) as [L'|L']; [split; split; try discriminate; lia|].
  assert (a = b) by lia. split; split; try tauto; intros [H'|H']; [lia|tauto|lia|tauto].
Qed.

Lemma lz_ltb_irrefl : forall x, lz_ltb x x = false.
Proof. induction x as [|a x IH]; [reflexivity|]. apply lz_ltb_cons. right. auto. Qed.

Lemma lz_ltb_trans : forall x y z, lz_ltb x y = true -> lz_ltb y z = true -> lz_ltb x z = true.
Proof.
  induction x as [|a x IH]; intros [|b y] [|c z]; try discriminate; try reflexivity.
  intros H1 H2. apply lz_ltb_cons in H1, H2. apply lz_ltb_cons.
  destruct H1 as [H1|[-> H1]], H2 as [H2|[-> H2]]; [left; lia|left; lia|left; lia|right; eauto].
Qed.

Lemma lz_ltb_total : forall x y, lz_ltb x y = false -> lz_ltb y x = false -> x = y.
Proof.
  induction x as [|a x IH]; intros [|b y]; try discriminate; try reflexivity.
  intros H1 H2. apply lz_ltb_cons in H1, H2.
  destruct H1 as [H1|[-> H1]], H2 as [H2|[E H2]]; try lia. f_equal. apply IH; assumption.
Qed.

Lemma lz_eqb_spec : forall x y, lz_eqb x y = true <-> x = y.
Proof. exact (eq_listb_spec Z.eqb Z.eqb_eq). Qed.

Lemma bm_ltb_irrefl : forall x, bm_ltb x x = false.
Proof. intro x. unfold bm_ltb. rewrite Z.eqb_refl. apply andb_false_r. Qed.

Lemma bm_ltb_trans : forall x y z, bm_ltb x y = true -> bm_ltb y z = true -> bm_ltb x z = true.
Proof.
  unfold bm_ltb. intros x y z H1 H2.
  apply andb_true_iff in H1. destruct H1 as [A1 B1]. apply andb_true_iff in H2. destruct H2 as [A2 B2].
  apply Z.eqb_eq in A1, A2. apply negb_true_iff in B1, B2. apply Z.eqb_neq in B1, B2.
  apply andb_true_iff. split.
  - apply Z.eqb_eq. rewrite <- A1 at 1. rewrite <- Z.land_assoc, A2. exact A1.
  - apply negb_true_iff. apply Z.eqb_neq. intros ->. apply B1.
    rewrite <- A2. rewrite Z.land_comm. symmetry. exact A1.
Qed.

Lemma bm_eqb_spec : forall x y, bm_eqb x y = true <-> x = y.
Proof. intros. unfold bm_eqb. apply Z.eqb_eq. Qed.

(* {1} and {2} (bitmasks 1 and 2): once both are added, the first one is not found *)
Lemma bm_witness : snd (step Z bm_ltb bm_eqb (final Z bm_ltb bm_eqb [] [OAdd 1; OAdd 2]) (OContains 1)) = RBool false
                   /\ In 1 (final Z bm_ltb bm_eqb [] [OAdd 1; OAdd 2]).
Proof. split; [reflexivity|]. vm_compute. right. left. reflexivity. Qed.

Lemma bm_run_not_ok : ~ run_ok Z bm_ltb bm_eqb [] [OAdd 1; OAdd 2; OContains 1].
Proof.
  cbn [run_ok]. intros (Inv1 & Spec1 & Inv2 & Spec2 & Inv3 & Spec3 & _).
  cbn [spec] in Spec3. destruct Spec3 as (_ & b & Hb & Hiff).
  destruct bm_witness as [W1 W2].
  assert (RBool false = RBool b) as [= <-] by exact (eq_trans (eq_sym W1) Hb).
  discriminate (proj2 Hiff W2).
Qed.

(* a duplicate appears as well: the representation invariant is lost *)
Lemma bm_duplicate : final Z bm_ltb bm_eqb [] [OAdd 1; OAdd 2; OAdd 1] = [1; 2; 1].
Proof. reflexivity. Qed.
