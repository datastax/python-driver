(* Invariants of Model/Pool.v (HostConnection): the accounting of each connection (InvA), and three facts about the pool's own fields
   (InvB): the phases of shutdown(), the one _replace task, who holds an open connection. Each of the three is a predicate over the
   fields it reads, taken at the projections of a state, so that a region which writes none of them keeps it by conversion. *)
From Coq Require Import ZArith List Bool Lia.
From Verif Require Import Pool ListFacts Pool_base.
Import ListNotations.
Local Open Scope Z_scope.

Definition cok (mx : Z) (k : conn) : Prop :=
  0 <= c_live k /\ 0 <= c_orph k /\ c_inflight k = c_live k + c_orph k /\ c_inflight k <= mx /\
  0 <= c_retp k /\ 0 <= c_trp k /\ (c_defunct k = true -> c_closed k = true).

Definition InvA (s : state) : Prop :=
  0 <= maxid s /\ forall c, cok (maxid s) (getc s c).

Lemma cok_new mx : 0 <= mx -> cok mx new_conn.
Proof. unfold cok; simpl; intuition lia. Qed.

Ltac cok_arith := unfold cok in *; simpl; intuition lia.

(* the guard of each lemma is the test, as the region makes it *)
Lemma cok_take mx k : cok mx k -> (c_inflight k <? mx) = true -> cok mx (k_take k).
Proof. cok_arith. Qed.
Lemma cok_give mx k : cok mx k -> (0 <? c_live k) = true -> cok mx (k_give k).
Proof. cok_arith. Qed.
Lemma cok_orphan mx th k : cok mx k -> (0 <? c_live k) = true -> cok mx (k_orphan th k).
Proof. cok_arith. Qed.
Lemma cok_late mx k : cok mx k -> (0 <? c_orph k) = true -> cok mx (k_late k).
Proof. cok_arith. Qed.
Lemma cok_read mx b k : cok mx k -> (0 <? c_retp k) = true -> cok mx (k_read b k).
Proof. destruct b; cok_arith. Qed.
Lemma cok_trp mx k : cok mx k -> (0 <? c_trp k) = true -> cok mx (k_trp k).
Proof. cok_arith. Qed.
Lemma cok_signal mx k : cok mx k -> cok mx (k_signal k).
Proof. cok_arith. Qed.
Lemma cok_close mx k : cok mx k -> cok mx (k_close k).
Proof. cok_arith. Qed.
Lemma cok_defunct mx k : cok mx k -> cok mx (k_defunct k).
Proof. cok_arith. Qed.
Lemma cok_replaced mx k : cok mx k -> cok mx (k_replaced k).
Proof. cok_arith. Qed.

Create HintDb cok discriminated.
#[local] Hint Resolve cok_take cok_give cok_orphan cok_late cok_read cok_trp cok_signal cok_close cok_defunct cok_replaced : cok.

Lemma InvA_step s o : InvA s -> InvA (fst (step s o)).
Proof.
  intros [Hm HA].
  assert (Hi : forall s', maxid s' = maxid s -> all_nth (cok (maxid s)) new_conn (conns s') -> InvA s').
  { intros s' E H. split; rewrite E; assumption. }
  (* every path through a region writes the table by [upd c k_..] behind the guard that the cok lemma of that k_.. asks for *)
  destruct o; simpl; split_step; bool_hyps; apply Hi; try reflexivity;
    repeat (apply all_nth_upd; [auto with cok|]); try exact HA.
  - (* ReplaceConnect *) apply all_nth_app. exact HA.
  - (* ShutdownTrash *) apply all_nth_upd_all; [auto with cok|exact HA].
Qed.

Lemma InvA_run ops : forall s, InvA s -> InvA (run s ops).
Proof. exact (fold_left_inv _ _ InvA_step ops). Qed.

Lemma InvA_init w mx th : 0 <= mx -> InvA (init w mx th).
Proof. intros H. split; [exact H|]. intros c. destruct w, c as [|[|c]]; apply cok_new, H. Qed.

Lemma inv_capacity s c : InvA s -> let k := getc s c in
  0 <= c_live k /\ 0 <= c_orph k /\ c_inflight k = c_live k + c_orph k /\ c_inflight k <= maxid s.
Proof. intros [_ HA]. destruct (HA c) as (?&?&?&?&_). auto. Qed.

Lemma dead_closed s c : InvA s -> dead (getc s c) = true -> c_closed (getc s c) = true.
Proof.
  intros [_ HA] H. destruct (HA c) as (_&_&_&_&_&_&Hd). unfold dead in H.
  destruct (c_defunct (getc s c)); [apply Hd; reflexivity|exact H].
Qed.

Lemma busy_live mx k : cok mx k -> (c_inflight k =? c_orph k) = false -> 0 < c_live k.
Proof. intros (?&_&?&_) E. apply Z.eqb_neq in E. lia. Qed.

(* how far shutdown() has come: the flag, then the current connection, then the trash *)
Record phases (sh : bool) (ph : Z) (cu : option nat) (tr : list nat) : Prop := {
  sd_idle : sh = false -> ph = 0;
  sd_nocur : 2 <= ph -> cu = None;
  sd_notrash : ph = 3 -> tr = []
}.
Definition Sd s := phases (shut s) (sd_phase s) (cur s) (trash s).

Lemma Sd_step s o : Sd s -> Sd (fst (step s o)).
Proof.
  intros HS. destruct o; simpl; try solve [split_step; exact HS];
    split_step; try exact HS; destruct HS as [I C T]; constructor; simpl; auto; bool_hyps.
  1: { (* ReturnTrash in phase 3: the trash is empty already *) intros P. rewrite (T P) in *. contradiction. }
  1: { (* ReplaceAssign installs a connection only while shut = false, that is in phase 0 *)
       intros P. rewrite I in P by assumption. lia. }
  1: { (* ReplaceFinish trashes one likewise *) intros P. rewrite I in P by assumption. lia. }
  (* the three regions of shutdown(): arithmetic on the phase, which leaves 0 only with the flag (last line: sd_idle in phases 2, 3) *)
  all: intros; try lia.
  all: try (apply C; lia).
  all: destruct (shut s); [discriminate|rewrite I in * by reflexivity; lia].
Qed.

(* what may happen to a connection without spoiling what the task knows of it *)
Definition ages (k k' : conn) : Prop :=
  c_replaced k' = c_replaced k /\ (c_thr k = true -> c_thr k' = true) /\ (c_closed k = true -> c_closed k' = true).

Definition ages_all : list conn -> list conn -> Prop := entrywise (fun _ => ages) new_conn.

Lemma ages_refl k : ages k k.
Proof. unfold ages. auto. Qed.

(* due for replacement: the connection exists and is over its threshold or closed *)
Definition due (cs : list conn) (c : nat) : Prop :=
  (c < length cs)%nat /\ (c_thr (nth c cs new_conn) = true \/ c_closed (nth c cs new_conn) = true).

(* where the task stands (the four lists), and what it knows there of the connection c it replaces and of the fresh one n *)
Inductive job (cs : list conn) (cu : option nat) (rp sh : bool) : list nat -> list nat -> list (nat * nat) -> list nat -> Prop :=
| j_none : (rp = true -> sh = true) -> job cs cu rp sh [] [] [] []
| j_queued c : rp = true -> due cs c -> (forall x, cu = Some x -> x = c) -> job cs cu rp sh [c] [] [] []
| j_connecting c : rp = true -> due cs c -> (forall x, cu = Some x -> x = c) -> job cs cu rp sh [] [c] [] []
| j_assigning c n : rp = true -> due cs c -> (forall x, cu = Some x -> x = c) ->
    S n = length cs -> (c < n)%nat -> c_replaced (nth n cs new_conn) = false -> job cs cu rp sh [] [] [(c, n)] []
| j_finishing c : rp = true -> due cs c -> (forall x, cu = Some x -> (c < x)%nat) -> job cs cu rp sh [] [] [] [c].

Definition Job s := job (conns s) (cur s) (replacing s) (shut s) (queue s) (connecting s) (assigning s) (finishing s).

Lemma due_ages cs cs' c : ages_all cs cs' -> due cs c -> due cs' c.
Proof. intros [L Ha] [V [T|C]]; (split; [rewrite L; exact V|]); [left|right]; apply Ha; assumption. Qed.

Lemma job_conns cs cs' cu rp sh q cn a f : ages_all cs cs' -> job cs cu rp sh q cn a f -> job cs' cu rp sh q cn a f.
Proof.
  intros Ha HJ. pose proof (due_ages cs cs') as D. destruct HJ; constructor; auto.
  - rewrite (proj1 Ha). assumption.
  - rewrite (proj1 (proj2 Ha n)). assumption.
Qed.

Lemma job_upd cs c g cu rp sh q cn a f : ages (nth c cs new_conn) (g (nth c cs new_conn)) ->
  job cs cu rp sh q cn a f -> job (upd c g cs) cu rp sh q cn a f.
Proof. intros H. apply job_conns, (entrywise_upd (fun _ => ages)); [intros _; apply ages_refl|exact H]. Qed.

Lemma job_drop_cur cs cu rp sh q cn a f : job cs cu rp sh q cn a f -> job cs None rp sh q cn a f.
Proof. intros HJ. destruct HJ; constructor; auto; discriminate. Qed.

Lemma job_submit cs cu sh c q cn a f : job cs cu false sh q cn a f -> due cs c -> (forall x, cu = Some x -> x = c) ->
  job cs cu true sh (q ++ [c]) cn a f.
Proof. intros HJ D Cu. inversion HJ; try discriminate. constructor; auto. Qed.

Lemma job_check cs cu rp sh c q cn a f : job cs cu rp sh (c :: q) cn a f ->
  job cs cu rp sh q (if sh then cn else cn ++ [c]) a f.
Proof. intros HJ. inversion HJ. destruct sh; constructor; auto. Qed.

Lemma job_resubmit cs cu rp sh c q cn a f : job cs cu rp sh q (c :: cn) a f -> job cs cu rp sh (q ++ [c]) cn a f.
Proof. intros HJ. inversion HJ. constructor; auto. Qed.

Lemma job_connected cs cu rp sh c q cn a f : job cs cu rp sh q (c :: cn) a f ->
  job (cs ++ [new_conn]) cu rp sh q cn (a ++ [(c, length cs)]) f.
Proof.
  intros HJ. inversion HJ as [|?|? R [V D] Cu|?|?]. constructor; auto.
  - split; [rewrite app_length; lia|rewrite nth_app_default; exact D].
  - rewrite app_length; simpl; lia.
  - rewrite nth_app_default, nth_overflow by lia. reflexivity.
Qed.

Lemma job_abort cs cu rp c n q cn a f : job cs cu rp true q cn ((c, n) :: a) f -> job cs cu rp true q cn a f.
Proof. intros HJ. inversion HJ. constructor; auto. Qed.

Lemma job_installed cs cu rp sh c n q cn a f : job cs cu rp sh q cn ((c, n) :: a) f -> job cs (Some n) rp sh q cn a (f ++ [c]).
Proof. intros HJ. inversion HJ. constructor; auto. intros x Hx. injection Hx as <-. assumption. Qed.

(* any table cs': [j_none] does not read it *)
Lemma job_finished cs cs' cu rp sh c q cn a f : job cs cu rp sh q cn a (c :: f) -> job cs' cu false sh q cn a f.
Proof. intros HJ. inversion HJ. constructor. discriminate. Qed.

Lemma job_fresh cs cu rp sh q cn c n a f : job cs cu rp sh q cn ((c, n) :: a) f ->
  (forall x, cu = Some x -> x = c) /\ S n = length cs /\ c_replaced (nth n cs new_conn) = false.
Proof. intros HJ. inversion HJ; auto. Qed.

Lemma job_last cs cu rp sh q cn a c f : job cs cu rp sh q cn a (c :: f) -> due cs c /\ forall x, cu = Some x -> (c < x)%nat.
Proof. intros HJ. inversion HJ; auto. Qed.

Lemma ages_close_all l cs : ages_all cs (close_all l cs).
Proof. apply (entrywise_upd_all (fun _ => ages)); [intros _; apply ages_refl|reflexivity|]. unfold ages; auto. Qed.

Lemma Job_step s o : InvA s -> Job s -> Job (fst (step s o)).
Proof.
  intros HA HJ.
  assert (U : forall c f, ages (getc s c) (f (getc s c)) -> Job (updc s c f)) by (intros c f Ha; exact (job_upd _ _ _ _ _ _ _ _ _ _ Ha HJ)).
  destruct o; simpl; try solve [split_step; exact HJ].
  all: try (destruct (_ && _) eqn:E; [|exact HJ]; bool_hyps).
  (* the regions of a client call (BorrowTry, ReturnDec, ReturnRead, ReturnSignal, LateDec, ConnDefunct, SetKsInc; Orphan below):
     behind the guard one connection changes, in a way that [ages] allows *)
  all: try (apply U; unfold ages; auto; fail).
  - (* BorrowCheckReplace *) unfold Job in *; simpl. replace (replacing s) with false in HJ by congruence.
    apply job_submit; [exact HJ|split; [apply valid_lt; assumption|auto]|congruence].
  - (* ReturnReplace *) destruct (replacing s) eqn:R; unfold Job in *; simpl; rewrite R in *; apply job_drop_cur in HJ; [exact HJ|].
    apply job_submit; [exact HJ| |discriminate]. split; [apply valid_lt; assumption|right; apply (dead_closed s c HA); assumption].
  - (* ReturnTrash *) destruct (_ && _); [unfold updc; simpl; rewrite update_at_twice|]; apply U;
      unfold ages; auto.
  - destruct (queue s) as [|c q] eqn:Q; [exact HJ|]. destruct (shut s) eqn:Sh; unfold Job in *; simpl;
      rewrite Q, Sh in *; apply job_check in HJ; exact HJ.
  - destruct (connecting s) as [|c r] eqn:Cn; [exact HJ|]. destruct ok; unfold Job in *; rewrite Cn in HJ;
      [apply job_connected|apply job_resubmit]; exact HJ.
  - destruct (assigning s) as [|[c n] r] eqn:As; [exact HJ|]. destruct (shut s) eqn:Sh; unfold Job in *; simpl;
      rewrite As, ?Sh in *; [|eapply job_installed, HJ].
    apply job_abort in HJ. apply job_upd, HJ. unfold ages; auto.
  - destruct (finishing s) as [|c r] eqn:Fi; [exact HJ|]. split_step; unfold Job in *; simpl;
      rewrite Fi in HJ; eapply job_finished, HJ.
  - (* ShutdownFlag *) destruct (shut s); [exact HJ|]. unfold Job in *; simpl. destruct HJ; constructor; auto.
  - (* ShutdownCloseMain *) destruct (_ =? _); [|exact HJ]. destruct (cur s) as [c|] eqn:Cu; [|exact HJ]. unfold Job in *.
    rewrite Cu in HJ. apply job_drop_cur in HJ. apply job_upd, HJ. unfold ages; auto.
  - (* ShutdownTrash *) destruct (_ =? _); [|exact HJ]. exact (job_conns _ _ _ _ _ _ _ _ _ (ages_close_all _ _) HJ).
  - (* Orphan *) apply U. unfold ages; simpl. repeat split; auto. intros ->. reflexivity.
Qed.

(* why a trashed connection is still in the trash: it is closed already, or a call that will look at it again is under way *)
Definition held (k : conn) : Prop := c_closed k = true \/ 0 < c_live k + c_retp k + c_trp k.

Lemma held_valid cs c : held (nth c cs new_conn) -> (c < length cs)%nat.
Proof.
  intros H. destruct (Nat.lt_ge_cases c (length cs)) as [L|L]; [exact L|]. rewrite nth_overflow in H by exact L.
  destruct H as [H|H]; [discriminate H|simpl in H; lia].
Qed.

Record own (cs : list conn) (cu : option nat) (tr fresh fin : list nat) : Prop := {
  open_known : forall c, (c < length cs)%nat ->
    c_closed (nth c cs new_conn) = true \/ cu = Some c \/ In c tr \/ In c fresh \/ In c fin;
  replaced_older : forall c x, c_replaced (nth c cs new_conn) = true -> cu = Some x -> (c < x)%nat;
  trash_held : forall c, In c tr -> held (nth c cs new_conn);
  replaced_gone : forall c, c_replaced (nth c cs new_conn) = true -> c_closed (nth c cs new_conn) = true \/ In c tr
}.
Definition Own s := own (conns s) (cur s) (trash s) (map snd (assigning s)) (finishing s).

(* what [own] lets happen to entry x, one line each: closed only goes up; a trashed one stays held; the replaced flag is set only on
   a connection older than the current one that is closed or in the trash *)
Definition keeps (cu : option nat) (tr : list nat) (x : nat) (k k' : conn) : Prop :=
  (c_closed k = true -> c_closed k' = true) /\
  (In x tr -> held k -> held k') /\
  (c_replaced k' = true ->
     c_replaced k = true \/ (forall y, cu = Some y -> (x < y)%nat) /\ (c_closed k' = true \/ In x tr)).

Lemma keeps_refl cu tr x k : keeps cu tr x k k.
Proof. unfold keeps. auto. Qed.

Lemma own_conns cs cs' cu tr fr fi : entrywise (keeps cu tr) new_conn cs cs' -> own cs cu tr fr fi -> own cs' cu tr fr fi.
Proof.
  intros [L H] [Ok Ro Th Rg]. constructor; rewrite ?L.
  - intros c Hc. destruct (Ok c Hc) as [C|O]; [left; apply H, C|right; exact O].
  - intros c x R. destruct (proj2 (proj2 (H c)) R) as [R0|[Old _]]; [apply Ro, R0|apply Old].
  - intros c Hc. apply H, Th; exact Hc.
  - intros c R. destruct (proj2 (proj2 (H c)) R) as [R0|[_ D]]; [|exact D]. destruct (Rg c R0) as [C|T]; [left; apply H, C|right; exact T].
Qed.

Lemma own_upd cs cu tr fr fi c f : keeps cu tr c (nth c cs new_conn) (f (nth c cs new_conn)) ->
  own cs cu tr fr fi -> own (upd c f cs) cu tr fr fi.
Proof. intros H. apply own_conns, entrywise_upd; [apply keeps_refl|exact H]. Qed.

Lemma own_drop_cur cs cu tr fr fi : (forall x, cu = Some x -> (x < length cs)%nat -> c_closed (nth x cs new_conn) = true) ->
  own cs cu tr fr fi -> own cs None tr fr fi.
Proof.
  intros Hc [Ok Ro Th Rg]. constructor; try assumption; try discriminate.
  intros c L. destruct (Ok c L) as [C|[Cu|O]]; auto.
Qed.

Lemma own_set_trash cs cu tr t fr fi :
  (forall x, In x tr -> In x t \/ c_closed (nth x cs new_conn) = true) ->
  (forall x, In x t -> In x tr \/ held (nth x cs new_conn)) ->
  own cs cu tr fr fi -> own cs cu t fr fi.
Proof.
  intros Hout Hin [Ok Ro Th Rg]. constructor; try assumption.
  - intros x L. destruct (Ok x L) as [C|[Cu|[T|O]]]; auto. destruct (Hout x T); auto.
  - intros x Hx. destruct (Hin x Hx) as [T|Hh]; auto.
  - intros x Hx. destruct (Rg x Hx) as [C|T]; auto. destruct (Hout x T); auto.
Qed.

Lemma own_tasks cs cu tr fr fi fr' fi' :
  (forall x, In x fr \/ In x fi -> c_closed (nth x cs new_conn) = true \/ cu = Some x \/ In x tr \/ In x fr' \/ In x fi') ->
  own cs cu tr fr fi -> own cs cu tr fr' fi'.
Proof.
  intros H [Ok Ro Th Rg]. constructor; try assumption.
  intros c L. destruct (Ok c L) as [C|[Cu|[T|O]]]; auto.
Qed.

Lemma own_fresh cs cu tr fr fi : own cs cu tr fr fi -> own (cs ++ [new_conn]) cu tr (fr ++ [length cs]) fi.
Proof.
  intros [Ok Ro Th Rg]. constructor; rewrite ?app_length; simpl; try setoid_rewrite nth_app_default; try assumption.
  - intros x L. rewrite in_app_iff. destruct (Nat.eq_dec x (length cs)) as [->|N]; [simpl; auto 7|].
    destruct (Ok x) as [C|[Cu|[T|[F|Fi]]]]; auto 6. lia.
Qed.

(* the fresh connection becomes the current one; the old one, if it was still current until now, is the task's to finish *)
Lemma own_install cs cu tr fr fi c n : (forall x, cu = Some x -> x = c) -> S n = length cs -> c_replaced (nth n cs new_conn) = false ->
  own cs cu tr (n :: fr) fi -> own cs (Some n) tr fr (fi ++ [c]).
Proof.
  intros Cu Ln Rn [Ok Ro Th Rg]. constructor; try assumption.
  - intros x L. rewrite in_app_iff. destruct (Ok x L) as [C|[WasCur|[T|[[<-|F]|Fi]]]]; auto 6.
    rewrite (Cu x WasCur). simpl. auto 7.
  - (* a replaced connection exists and is not the fresh one *) intros x y R Hy. injection Hy as <-.
    destruct (Nat.lt_ge_cases x (length cs)) as [Lx|Lx]; [|rewrite nth_overflow in R by exact Lx; discriminate].
    assert (x <> n) by congruence. lia.
Qed.

Lemma own_client cs cu tr fr fi c f : let k := nth c cs new_conn in
  c_replaced (f k) = c_replaced k -> (c_closed k = true -> c_closed (f k) = true) ->
  c_live k + c_retp k + c_trp k <= c_live (f k) + c_retp (f k) + c_trp (f k) -> own cs cu tr fr fi -> own (upd c f cs) cu tr fr fi.
Proof.
  intros k Hr Hc Hn. apply own_upd. fold k. repeat split; [exact Hc| |intros R; left; rewrite <- Hr; exact R].
  intros _ [C|P]; [left; apply Hc, C|right; lia].
Qed.

(* the task marks c replaced and lets go of it, closed or in the trash *)
Lemma own_finish cs cu tr fr fi c f : let k := nth c cs new_conn in (c < length cs)%nat -> (forall y, cu = Some y -> (c < y)%nat) ->
  (c_closed k = true -> c_closed (f k) = true) -> (held k -> held (f k)) -> c_closed (f k) = true \/ In c tr ->
  own cs cu tr fr (c :: fi) -> own (upd c f cs) cu tr fr fi.
Proof.
  intros k L Old Hc Hh D HO. apply own_tasks with (fr := fr) (fi := c :: fi); [|apply own_upd; [repeat split; auto|exact HO]].
  intros x [F|[<-|F]]; auto 6. rewrite nth_upd_same by exact L. destruct D; auto.
Qed.

Lemma Own_step s o : InvA s -> Job s -> Own s -> Own (fst (step s o)).
Proof.
  intros HA HJ HO. destruct o; simpl; try solve [split_step; exact HO].
  all: try (destruct (_ && _) eqn:E; [|exact HO]; bool_hyps).
  (* BorrowTry, ReturnDec, ReturnSignal, Orphan, LateDec, ConnDefunct, SetKsInc (ReturnRead below) *)
  all: try solve [apply own_client; simpl; [reflexivity|auto|lia|exact HO]].
  - (* ReturnRead: a dead connection is closed; a live one in the trash makes the call go on to the trash region *)
    apply own_upd; [repeat split; simpl; auto|exact HO]. intros Hin [C|P]; [left; exact C|].
    destruct (dead (getc s c)) eqn:D; [left; apply (dead_closed s c HA D)|].
    right. apply mem_In in Hin. rewrite Hin. simpl. lia.
  - (* ReturnReplace *) assert (Own (set_cur s None)); [|destruct (replacing s); assumption].
    apply own_drop_cur with (cu := cur s); [|exact HO]. intros x Hx _. replace x with c by congruence. apply (dead_closed s c HA); assumption.
  - (* ReturnTrash *) destruct (_ && _) eqn:E2.
    + unfold Own; simpl. rewrite update_at_twice. apply own_set_trash with (tr := trash s).
      * intros x T. rewrite In_del. destruct (Nat.eq_dec x c) as [->|N]; [right|auto].
        rewrite nth_upd_same by (apply valid_lt; assumption). reflexivity.
      * intros x Hx. apply In_del in Hx. left. apply Hx.
      * apply own_upd; [repeat split; unfold held; auto|exact HO].
    + (* still in the trash and not closed now: a request is outstanding *)
      apply own_upd; [repeat split; simpl; auto|exact HO]. intros Hin [C|P]; [left; exact C|right]. apply mem_In in Hin. rewrite Hin, andb_true_r in E2.
      pose proof (busy_live _ _ (proj2 HA c) E2). destruct (proj2 HA c) as (_&_&_&_&Rp&_). unfold getc in *. simpl. lia.
  - destruct (connecting s); [exact HO|]. destruct ok; [|exact HO]. unfold Own; simpl.
    rewrite map_app. apply own_fresh, HO.
  - destruct (assigning s) as [|[c n] r] eqn:As; [exact HO|].
    unfold Job, Own in *. rewrite As in *. destruct (job_fresh _ _ _ _ _ _ _ _ _ _ HJ) as (Cu&Ln&Rn).
    destruct (shut s); simpl.
    + apply own_tasks with (fr := n :: map snd r) (fi := finishing s); [|apply own_upd; [repeat split; unfold held; auto|exact HO]].
      intros x [[<-|F]|F]; [left|auto 6..]. rewrite nth_upd_same by lia. reflexivity.
    + apply own_install with (cu := cur s); assumption.
  - destruct (finishing s) as [|c r] eqn:Fi; [exact HO|].
    unfold Job, Own in *. rewrite Fi in *. destruct (job_last _ _ _ _ _ _ _ _ _ HJ) as ([L D]&Old).
    assert (Hclose : own (upd c k_close (upd c k_replaced (conns s))) (cur s) (trash s) (map snd (assigning s)) r).
    { rewrite update_at_twice. apply own_finish; unfold held; auto. }
    destruct (c_thr (getc s c)) eqn:T.
    + destruct (_ =? _) eqn:E; [exact Hclose|]. destruct (shut s); [exact Hclose|]. simpl.
      (* into the trash, with a request outstanding *)
      apply own_finish; auto; [right; apply In_ins; auto|].
      apply own_set_trash with (tr := trash s); [intros x Hx; left; apply In_ins; auto| |exact HO].
      intros x Hx. apply In_ins in Hx. destruct Hx as [->|Hx]; [right; right|auto].
      pose proof (busy_live _ _ (proj2 HA c) E). destruct (proj2 HA c) as (_&_&_&_&Rp&Tp&_). unfold getc in *. lia.
    + destruct D as [D|D]; [unfold getc in T; congruence|]. apply own_finish; auto.
  - (* ShutdownCloseMain *) destruct (_ =? _); [|exact HO]. destruct (cur s) as [c|] eqn:Cu; [|exact HO]. unfold Own in *; simpl.
    rewrite Cu in HO. apply own_drop_cur with (cu := Some c); [|apply own_upd; [repeat split; unfold held; auto|exact HO]].
    intros x Hx L. injection Hx as <-. rewrite length_update_at in L. rewrite nth_upd_same by exact L. reflexivity.
  - (* ShutdownTrash *) destruct (_ =? _); [|exact HO]. unfold Own; simpl. unfold close_all.
    apply own_set_trash with (tr := trash s); [|intros x []|].
    + intros x Hx. right. rewrite nth_upd_all, (proj2 (mem_In x _) Hx), (proj2 (Nat.ltb_lt _ _) (held_valid _ _ (trash_held _ _ _ _ _ HO x Hx))); reflexivity.
    + apply own_conns with (cs := conns s); [|exact HO]. apply entrywise_upd_all; [apply keeps_refl|reflexivity|].
      unfold keeps, held; auto.
Qed.

Definition InvB (s : state) : Prop := Sd s /\ Job s /\ Own s.
Definition Inv (s : state) : Prop := InvA s /\ InvB s.

Lemma Inv_step s o : Inv s -> Inv (fst (step s o)).
Proof.
  intros (HA&HS&HJ&HO). split; [apply InvA_step|split; [apply Sd_step|split; [apply Job_step|apply Own_step]]]; assumption.
Qed.

Lemma Inv_init w mx th : 0 <= mx -> Inv (init w mx th).
Proof.
  intros H. split; [apply InvA_init, H|]. split; [constructor; simpl; lia|]. split; [constructor; discriminate|].
  assert (Hg : forall c, nth c (conns (init w mx th)) new_conn = new_conn) by (intros c; destruct w, c as [|[|c]]; reflexivity).
  constructor; intros *; rewrite ?Hg; destruct w; simpl; try tauto; try lia.
  - (* open_known *) destruct c; [right; left; reflexivity|lia].
Qed.

Lemma Inv_run ops : forall s, Inv s -> Inv (run s ops).
Proof. exact (fold_left_inv _ _ Inv_step ops). Qed.

Lemma Inv_reach w mx th ops : 0 <= mx -> Inv (run (init w mx th) ops).
Proof. intros H. apply Inv_run, Inv_init, H. Qed.

Lemma maxid_step s o : maxid (fst (step s o)) = maxid s.
Proof. destruct o; simpl; split_step; reflexivity. Qed.

Lemma maxid_run ops s : maxid (run s ops) = maxid s.
Proof. exact (fold_left_const _ maxid maxid_step ops s). Qed.

Lemma shut_step s o : shut s = true -> shut (fst (step s o)) = true.
Proof. intros H. destruct o; simpl; split_step; congruence. Qed.

Lemma shut_run ops : forall s, shut s = true -> shut (run s ops) = true.
Proof. exact (fold_left_inv _ _ shut_step ops). Qed.

Lemma task_kept s : Inv s -> replacing s = true -> shut s = false ->
  (length (queue s) + length (connecting s) + length (assigning s) + length (finishing s) = 1)%nat.
Proof. intros (_&_&HJ&_) R Sh. destruct HJ as [K| | | |]; [rewrite (K R) in Sh; discriminate|reflexivity..]. Qed.

Lemma inv_closes s : Inv s -> quiescent s = true -> all_closed s = true.
Proof.
  intros (_&HS&_&HO) Hq. unfold quiescent, no_tasks in Hq.
  apply andb_prop in Hq. destruct Hq as [Hn Hp]. apply Z.eqb_eq in Hp.
  destruct (queue s); [|discriminate]. destruct (connecting s); [|discriminate].
  destruct (assigning s) eqn:As; [|discriminate]. destruct (finishing s) eqn:Fi; [|discriminate].
  pose proof (sd_nocur _ _ _ _ HS ltac:(lia)) as Hc. pose proof (sd_notrash _ _ _ _ HS Hp) as Ht.
  apply forallb_nth with (d := new_conn). intros c Hlt. unfold Own in HO. rewrite As, Fi, Hc, Ht in HO.
  destruct (open_known _ _ _ _ _ HO c Hlt) as [H|[H|[[]|[[]|[]]]]]; [exact H|discriminate].
Qed.

Lemma inv_new_requests_move s c c' : Inv s -> c_replaced (getc s c) = true ->
  In (OConn c') (snd (step s GetConn)) -> (c < c')%nat.
Proof.
  intros (_&_&_&HO) Hr Hin. simpl in Hin. unfold get_conn in Hin.
  destruct (shut s); [destruct Hin as [H|[]]; discriminate|].
  destruct (cur s) eqn:Cu; [|destruct Hin as [H|[]]; discriminate].
  destruct Hin as [H|[]]. injection H as <-. apply (replaced_older _ _ _ _ _ HO c n Hr Cu).
Qed.

(* only the trash branch of return_connection and the else-branch of _replace give these two reasons, each behind its idle test *)
Lemma close_after_idle_test s o :
  Forall (fun e => match e with
                   | OClose c why => why = BY_TRASH \/ why = BY_REPLACE -> c_inflight (getc s c) = c_orph (getc s c)
                   | _ => True
                   end) (snd (step s o)).
Proof.
  destruct o; simpl; unfold get_conn; split_step; bool_hyps; repeat constructor;
    try (apply Forall_map, Forall_forall; intros x _); simpl;
    unfold BY_TRASH, BY_REPLACE, BY_SHUTDOWN, BY_ABORT, BY_SELF; lia.
Qed.

Lemma close_only_idle s o c why : InvA s -> In (OClose c why) (snd (step s o)) ->
  why = BY_TRASH \/ why = BY_REPLACE -> c_live (getc s c) = 0.
Proof.
  intros HA Hin Hw. destruct (inv_capacity s c HA) as (_&_&E&_).
  pose proof (proj1 (Forall_forall _ _) (close_after_idle_test s o) _ Hin Hw). lia.
Qed.

Lemma inv_eventually_closed s c : Inv s -> c_replaced (getc s c) = true ->
  c_live (getc s c) = 0 -> c_retp (getc s c) = 0 -> c_trp (getc s c) = 0 -> c_closed (getc s c) = true.
Proof.
  intros (_&_&_&HO) Hr H1 H2 H3.
  destruct (replaced_gone _ _ _ _ _ HO c Hr) as [H|H]; [exact H|].
  destruct (trash_held _ _ _ _ _ HO c H) as [Hc|Hp]; [exact Hc|unfold getc in *; lia].
Qed.

(* at most one _replace task, and none unless _is_replacing is set *)
Definition B1 s := (length (queue s) + length (connecting s) + length (assigning s) + length (finishing s) <= (if replacing s then 1 else 0))%nat.

Lemma B1_queue s p l : B1 s -> queue s = p :: l ->
  l = [] /\ connecting s = [] /\ assigning s = [] /\ finishing s = [].
Proof.
  unfold B1. intros H E. rewrite E in H.
  repeat split; apply length_zero_iff_nil; destruct (replacing s); simpl in H; lia.
Qed.
