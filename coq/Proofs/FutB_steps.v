(* The FutB machine as sequences of primitive moves (C16/C17/C19): every function a step is made of `reach`es its
   result by record updates of sixteen kinds; what all of them preserve holds after every step and every history. *)
From Coq Require Import ZArith List.
From Verif Require Import FutB FutB_lemmas.
Import ListNotations.
Local Open Scope Z_scope.

(* shadows List.in_cons in every file that imports this one *)
Definition in_cons (s : state) : host -> Prop := fun x => In x (consumed s).

Definition all_consumed (s : state) : Prop := all_in (hosts_of s []) (in_cons s).

Definition is_next_page (o : op) : bool := match o with NextPage _ => true | _ => false end.

Definition no_page (ops : list op) : bool := forallb (fun o => negb (is_next_page o)) ops.

Lemma map_mark_done i l : map a_host (mark_done i l) = map a_host l.
Proof. revert i. induction l as [|a l IH]; intros [|i]; cbn; auto. rewrite IH. reflexivity. Qed.

(* what start_fetching_next_page does before it starts the timer and sends *)
Definition fresh_page (s : state) (pl : list host) : state :=
  {| plan := pl; consumed := consumed s; pools := pools s; msg_cl := msg_cl s; retries := retries s;
     nconsult := nconsult s; errors := errors s; queue := queue s; attempts := attempts s;
     fin_res := None; fin_exc := None; spec_armed := false; spec_left := spec_left s;
     conn_ks := conn_ks s; paging := paging s; page_no := S (page_no s); elapsed := false; borrowed := borrowed s |}.

Lemma page_start_eq c s p : page_start c s p = start_timer (fresh_page s (make_plan p (tgt c))).
Proof. reflexivity. Qed.

Definition asks_retry (d : decision) : bool := match d with DRetry | DNextHost => true | _ => false end.

Section Reach.
Context {K : host -> Prop} {Q : task -> Prop} {E : event -> Prop} {F : list host -> Prop}.

(* K: the hosts a step may name besides those it takes from the plan itself; Q: the tasks it may submit; E: the messages
   and policy consultations it may emit besides plan sends; F: the plans a next page fetch may start with.  A plan move
   takes the next host off the plan and lists or attempts it at once: in between, the host would be consumed with nothing
   to show for it.  A consultation answered RETRY or RETRY_NEXT_HOST is the move P_retry, which also counts the retry: both
   counters move with the event.  The side conditions are what one invariant each needs: `cz <> CPlan` (plan sends follow
   the plan), `x = XNoHost -> plan s = []` (exhaustion), P_spec's (no timer without a speculative plan). *)
Inductive prim (s : state) : state -> list event -> Prop :=
| P_skip h rest p e : plan s = h :: rest -> prim s (set_err (touch (take_host s h rest) p) h e) [ErrSet h e]
| P_plan_sent h rest p : plan s = h :: rest ->
    prim s (add_attempt (touch (take_host s h rest) p) h false) [Sent h (MOrig (msg_cl s)) CPlan]
| P_touch p : prim s (touch s p) []
| P_err h e : K h -> prim s (set_err s h e) [ErrSet h e]
| P_sent h m cz : cz <> CPlan -> K h -> E (Sent h m cz) -> prim s (add_attempt s h (is_prepare m)) [Sent h m cz]
| P_cancel : prim s (cancel_timer s) []
| P_exc x : completed s = false -> (x = XNoHost -> plan s = []) -> prim s (set_exc s x) []
| P_res r b : completed s = false -> prim s (set_paging (set_res s r) b) []
| P_push t : K (task_host t) -> Q t -> prim s (push_task s t) []
| P_consult h k tag cl d dcl : asks_retry d = false -> E (Consult (nconsult s) h k tag (retries s) cl d dcl) ->
    prim s (tick_consult s) [Consult (nconsult s) h k tag (retries s) cl d dcl]
| P_retry h k tag cl d dcl : asks_retry d = true -> E (Consult (nconsult s) h k tag (retries s) cl d dcl) ->
    prim s (bump_counters (tick_consult s) dcl) [Consult (nconsult s) h k tag (retries s) cl d dcl]
| P_spec a l : spec_armed s = true \/ 0 < spec_left s -> prim s (set_spec s a l) []
| P_env p k : prim s (set_env s p k) []
| P_done i a : nth_error (attempts s) i = Some a -> K (a_host a) -> prim s (set_attempts s (mark_done i (attempts s))) []
| P_deq k t : nth_error (queue s) k = Some t -> K (task_host t) -> prim s (set_queue s (remove_nth k (queue s))) []
| P_fresh pl : F pl -> prim s (fresh_page s pl) [].

Inductive reach : state -> state -> list event -> Prop :=
| reach_nil s : reach s s []
| reach_one s s' e : prim s s' e -> reach s s' e
| reach_app s1 s2 s3 e1 e2 : reach s1 s2 e1 -> reach s2 s3 e2 -> reach s1 s3 (e1 ++ e2).

Lemma reach_cons {s1 s2 s3 e ev} : prim s1 s2 e -> reach s2 s3 ev -> reach s1 s3 (e ++ ev).
Proof. intros P. exact (reach_app s1 s2 s3 e ev (reach_one _ _ _ P)). Qed.

Lemma reach_rel (R : state -> state -> list event -> Prop) :
  (forall s, R s s []) -> (forall s1 s2 s3 e1 e2, R s1 s2 e1 -> R s2 s3 e2 -> R s1 s3 (e1 ++ e2)) ->
  (forall s s' e, prim s s' e -> R s s' e) -> forall s s' e, reach s s' e -> R s s' e.
Proof. intros Rr Rt Rp s s' e H. induction H; eauto. Qed.

Lemma reach_keeps (I : state -> Prop) : (forall s s' e, prim s s' e -> I s -> I s') -> forall s s' e, reach s s' e -> I s -> I s'.
Proof. intros Ip s s' e H. induction H; eauto. Qed.

Lemma reach_sent s s' ev : reach s s' ev ->
  incl (map a_host (attempts s)) (map a_host (attempts s')) /\ incl (sent_hosts ev) (map a_host (attempts s')).
Proof.
  revert s s' ev. apply reach_rel.
  - intros s. split; [apply incl_refl|intros y []].
  - intros s1 s2 s3 e1 e2 [A1 S1] [A2 S2]. split; [exact (incl_tran A1 A2)|].
    unfold sent_hosts. rewrite flat_map_app. apply incl_app; [exact (incl_tran S1 A2)|exact S2].
  - intros s s' e P. destruct P as [|h rest p _| | |h m cz _ _ _| | | | | | | | |i a _ _| |]; try (split; [apply incl_refl|intros y []]).
    + (* P_plan_sent *) cbn [attempts add_attempt touch take_host]. rewrite map_app. split; [apply incl_appl|apply incl_appr]; apply incl_refl.
    + (* P_sent *) cbn [attempts add_attempt]. rewrite map_app. split; [apply incl_appl|apply incl_appr]; apply incl_refl.
    + (* P_done *) cbn [attempts set_attempts]. rewrite map_mark_done. split; [apply incl_refl|intros y []].
Qed.

Lemma fail_reach s x : (x = XNoHost -> plan s = []) -> reach s (fail_with s x) [].
Proof.
  intros N. unfold fail_with. destruct (completed s) eqn:C; apply reach_one; [apply P_cancel|apply P_exc; assumption].
Qed.

Lemma finish_reach s r : reach s (finish_with s r) [].
Proof.
  unfold finish_with. destruct (completed s) eqn:C; apply reach_one; [apply P_cancel|exact (P_res s r (paging s) C)].
Qed.

Lemma rows_reach s b : reach s (finish_rows s b) [].
Proof.
  unfold finish_rows. destruct (completed s) eqn:C; apply reach_one; [apply P_cancel|exact (P_res s FRows b C)].
Qed.

Lemma on_timeout_reach s : reach s (on_timeout s) [].
Proof. unfold on_timeout. destruct (borrowed s); [apply fail_reach; discriminate|apply reach_nil]. Qed.

Lemma submit_reach s t : K (task_host t) -> Q t -> reach s (submit s t) [].
Proof.
  intros Kt Qt. unfold submit. destruct (session_shut s); [apply fail_reach; discriminate|apply reach_one, P_push; assumption].
Qed.

Lemma walk_reach p s b s' ev : walk s p b = (s', ev) -> plan s = p -> reach s s' ev.
Proof.
  revert p s s' ev. apply (walk_ind b (fun s p s' ev => plan s = p -> reach s s' ev)).
  - intros s Pl. destruct b; [apply fail_reach; intros _; exact Pl|apply reach_nil].
  - intros s h rest _ Pl. exact (reach_one _ _ _ (P_plan_sent s h rest PHealthy Pl)).
  - intros s h rest e _ _ Pl. exact (reach_cons (P_skip s h rest _ e Pl) (on_timeout_reach _)).
  - intros s h rest e s' ev _ IH Pl. exact (reach_cons (P_skip s h rest _ e Pl) (IH eq_refl)).
Qed.

Lemma send_request_reach s b s' ev : send_request s b = (s', ev) -> reach s s' ev.
Proof. intros H. exact (walk_reach _ _ _ _ _ H eq_refl). Qed.

Lemma qon_reach s h m cz s' ev : K h -> cz <> CPlan -> (pool_of s h = PHealthy -> E (Sent h m cz)) ->
  query_or_next s h m cz = (s', ev) -> reach s s' ev.
Proof.
  intros N Nc He H. unfold query_or_next in H. rewrite query_eq in H.
  pose proof (P_touch s (pool_of s h)) as T.
  destruct (reason (pool_of s h)) as [e|] eqn:R.
  - destruct (send_request _ true) as [s2 ev2] eqn:W. injection H as <- <-.
    exact (reach_cons T (reach_cons (P_err (touch s (pool_of s h)) h e N) (send_request_reach _ _ _ _ W))).
  - injection H as <- <-. apply reason_healthy in R.
    exact (reach_cons T (reach_one _ _ _ (P_sent (touch s (pool_of s h)) h m cz Nc N (He R)))).
Qed.

Lemma start_timer_reach s : reach s (start_timer s) [].
Proof.
  unfold start_timer. destruct (spec_armed s); [apply reach_nil|]. destruct (0 <? spec_left s) eqn:L; [|apply reach_nil].
  apply reach_one, P_spec. right. apply Z.ltb_lt, L.
Qed.

Lemma spec_fire_reach s s' ev : spec_fire s = (s', ev) -> reach s s' ev.
Proof.
  unfold spec_fire. intros H. destruct (spec_armed s) eqn:A; [|injection H as <- <-; apply reach_nil].
  pose proof (P_spec s false (spec_left s) (or_introl A)) as D.
  set (s0 := set_spec s false (spec_left s)) in *.
  destruct (completed s0); [injection H as <- <-; exact (reach_one _ _ _ D)|].
  destruct (attempts s0).
  { injection H as <- <-. exact (reach_one _ _ _ (P_spec s true (spec_left s) (or_introl A))). }
  destruct (elapsed s0).
  { injection H as <- <-. exact (reach_cons D (on_timeout_reach s0)). }
  destruct (send_request s0 false) as [s1 ev1] eqn:W. injection H as <- <-.
  apply (reach_cons D). rewrite <- (app_nil_r ev1).
  exact (reach_app _ _ _ _ _ (send_request_reach _ _ _ _ W) (start_timer_reach s1)).
Qed.
End Reach.
(* the four licences are read off the goal; only the two relations name them *)
Arguments prim : clear implicits.
Arguments reach : clear implicits.
Arguments send_request_reach {K Q E F s b s' ev}.
Arguments spec_fire_reach {K Q E F s s' ev}.
Arguments reach_sent {K Q E F s s' ev}.

Definition nothing {A} : A -> Prop := fun _ => False.
Definition anything {A} : A -> Prop := fun _ => True.

Lemma send_request_walks {s b s' ev} : send_request s b = (s', ev) -> reach nothing nothing nothing nothing s s' ev.
Proof. apply send_request_reach. Qed.

Lemma reach_mono {K K' : host -> Prop} {Q Q' : task -> Prop} {E E' : event -> Prop} {F F' : list host -> Prop} :
  (forall h, K h -> K' h) -> (forall t, Q t -> Q' t) -> (forall e, E e -> E' e) -> (forall p, F p -> F' p) ->
  forall {s s' ev}, reach K Q E F s s' ev -> reach K' Q' E' F' s s' ev.
Proof.
  intros HK HQ HE HF s s' ev R. induction R as [|s s' e P|s1 s2 s3 e1 e2 _ IH1 _ IH2]; [apply reach_nil| |exact (reach_app _ _ _ _ _ IH1 IH2)].
  apply reach_one. destruct P; econstructor; eauto.
Qed.

(* K here is a proposition: the condition under which a transition keeps every mentioned host consumed (`ok_trans`) *)
Section WithK.
Variable K : Prop.

Definition ok_trans (s s' : state) (ev : list event) : Prop :=
  plan_move s s' ev /\ (K -> all_in (hosts_of s []) (in_cons s) -> all_in (hosts_of s' ev) (in_cons s')).

Definition pre_of (s s1 : state) (h : host) : Prop :=
  plan s1 = plan s /\ consumed s1 = consumed s /\
  (forall x, In x (hosts_of s1 []) -> x = h \/ In x (hosts_of s [])).

Lemma pre_set_exc s s1 h x : pre_of s s1 h -> pre_of s (set_exc s1 x) h.
Proof. intros P. exact P. Qed.

Lemma pre_set_res s s1 h r : pre_of s s1 h -> pre_of s (set_res s1 r) h.
Proof. intros P. exact P. Qed.

Lemma pre_set_spec s s1 h a l : pre_of s s1 h -> pre_of s (set_spec s1 a l) h.
Proof. intros P. exact P. Qed.

Lemma pre_set_env s s1 h p k : pre_of s s1 h -> pre_of s (set_env s1 p k) h.
Proof. intros P. exact P. Qed.

Lemma pre_trans s s1 s2 h : pre_of s s1 h -> pre_of s1 s2 h -> pre_of s s2 h.
Proof.
  intros (P1 & C1 & M1) (P2 & C2 & M2). split; [congruence|split; [congruence|]].
  intros y Hy. apply M2 in Hy. destruct Hy as [->|Hy]; auto.
Qed.

Lemma ok_after_pre s s1 s' h ev : pre_of s s1 h -> (K -> in_cons s h) ->
  ok_trans s1 s' ev -> ok_trans s s' ev.
Proof.
  intros (P & C & M) Hh [[e Ce Pe Se] Hx]. split.
  - apply (Build_plan_move _ _ _ e); [rewrite <- C; exact Ce|rewrite <- P; exact Pe|exact Se].
  - intros HK A. apply Hx; [exact HK|]. intros x Hy. unfold in_cons. rewrite C.
    destruct (M x Hy) as [->|G]; [apply Hh, HK|apply A, G].
Qed.
End WithK.

Lemma hosts_of_set_spec s a l e : hosts_of (set_spec s a l) e = hosts_of s e.
Proof. reflexivity. Qed.
