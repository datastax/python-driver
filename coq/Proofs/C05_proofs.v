(* C05 (Model/Stream.v): an answer of parse1 other than NeedMore is final (parse1_app); hence reading in two steps is
   reading at once (parse_all_app), and any chunking gives the deliveries of one read (chunking). *)
From Coq Require Import ZArith List Bool Lia.
From Verif Require Import Stream ListFacts.
Require Verif.Proofs.Bits64.
Import ListNotations.
Local Open Scope Z_scope.

Definition extend (r : pres) (more : list Z) : pres :=
  match r with Frame h body rest => Frame h body (rest ++ more) | _ => r end.

(* what feed leaves behind: process_io_buffer has run until it needs more bytes *)
Definition stable (st : istate) : Prop :=
  match st with Dead => True | Live buf => parse1 buf = NeedMore end.

Definition emit {St} (evs : list ievent) (r : St * list ievent) : St * list ievent := (fst r, evs ++ snd r).

Definition then_feed (r : istate * list ievent) (more : list Z) : istate * list ievent :=
  emit (snd r) (feed (fst r) more).

Lemma byte_at_app : forall buf more i, (i < length buf)%nat -> byte_at (buf ++ more) i = byte_at buf i.
Proof. intros. unfold byte_at. apply app_nth1. assumption. Qed.

Lemma blen_app : forall a b, blen (a ++ b) = blen a + blen b.
Proof. intros. unfold blen. rewrite app_length. lia. Qed.

Lemma blen_nonneg : forall a, 0 <= blen a.
Proof. intros. unfold blen. lia. Qed.

Lemma header_size_cases : forall v, header_size v = 8 \/ header_size v = 9.
Proof. intros. unfold header_size. destruct (3 <=? v); auto. Qed.

Lemma decode_header_app : forall v buf more, header_size v <= blen buf ->
  decode_header v (buf ++ more) = decode_header v buf.
Proof.
  intros v buf more H. unfold decode_header, header_size, blen in *.
  destruct (3 <=? v); unfold be32, be16; repeat rewrite byte_at_app by lia; reflexivity.
Qed.

Lemma decode_header_ver : forall v buf, h_ver (decode_header v buf) = v.
Proof. intros. unfold decode_header. destruct (3 <=? v); reflexivity. Qed.

Lemma parse1_frame_shape : forall buf h body rest, parse1 buf = Frame h body rest ->
  exists hdr, buf = hdr ++ body ++ rest /\ blen hdr = header_size (h_ver h) /\ blen body = h_len h /\ 0 <= h_len h.
Proof.
  intros [|b0 tl] h body rest H; [discriminate|]. unfold parse1 in H.
  set (buf := b0 :: tl) in *. set (v := Z.land b0 127) in *.
  destruct (negb (supported v)); [discriminate|].
  destruct (blen buf <? header_size v) eqn:H1; [discriminate|].
  destruct (h_len (decode_header v buf) <? 0) eqn:H2; [discriminate|].
  destruct (blen buf <? header_size v + h_len (decode_header v buf)) eqn:H3; [discriminate|].
  inversion H; subst h body rest. rewrite decode_header_ver. set (l := h_len _) in *.
  exists (firstn (Z.to_nat (header_size v)) buf). pose proof (header_size_cases v). unfold blen in *.
  rewrite !firstn_length, skipn_length. repeat split; try lia.
  rewrite <- (firstn_skipn (Z.to_nat (header_size v)) buf) at 1. f_equal.
  rewrite <- (firstn_skipn (Z.to_nat l) (skipn (Z.to_nat (header_size v)) buf)) at 1. f_equal.
  rewrite skipn_skipn'. f_equal. lia.
Qed.

Lemma parse1_frame_shorter : forall buf h body rest, parse1 buf = Frame h body rest -> (length rest < length buf)%nat.
Proof.
  intros buf h body rest H. destruct (parse1_frame_shape _ _ _ _ H) as (hdr & -> & Hh & _).
  rewrite !app_length. unfold blen in Hh. destruct (header_size_cases (h_ver h)); lia.
Qed.

Lemma parse1_frame_body_len : forall buf h body rest, parse1 buf = Frame h body rest -> blen body = h_len h /\ 0 <= h_len h.
Proof. intros buf h body rest H. destruct (parse1_frame_shape _ _ _ _ H) as (hdr & _ & _ & Hb). exact Hb. Qed.

Lemma parse1_frame_split : forall buf h body rest, parse1 buf = Frame h body rest ->
  exists hdr, buf = hdr ++ body ++ rest /\ blen hdr = header_size (h_ver h).
Proof. intros buf h body rest H. destruct (parse1_frame_shape _ _ _ _ H) as (hdr & A & B & _). eauto. Qed.

Lemma parse1_app : forall buf more, parse1 buf <> NeedMore -> parse1 (buf ++ more) = extend (parse1 buf) more.
Proof.
  intros [|b0 tl] more; [intros H; elim H; reflexivity|].
  change ((b0 :: tl) ++ more) with (b0 :: (tl ++ more)). unfold parse1.
  change (b0 :: (tl ++ more)) with ((b0 :: tl) ++ more). set (buf := b0 :: tl). set (v := Z.land b0 127).
  pose proof (blen_nonneg more) as Hm. rewrite blen_app.
  destruct (negb (supported v)); [reflexivity|].
  destruct (blen buf <? header_size v) eqn:E1; [congruence|].
  replace (blen buf + blen more <? header_size v) with false by lia. rewrite decode_header_app by lia.
  set (h := decode_header v buf). destruct (h_len h <? 0) eqn:E2; [reflexivity|].
  destruct (blen buf <? header_size v + h_len h) eqn:E3; [congruence|]. intros _.
  replace (blen buf + blen more <? header_size v + h_len h) with false by lia. unfold blen in *. cbn [extend].
  pose proof (header_size_cases v).
  rewrite (skipn_app_le (Z.to_nat (header_size v))), firstn_app_le, skipn_app_le by (rewrite ?skipn_length; lia).
  reflexivity.
Qed.

Lemma loop_fuel : forall f1 f2 buf, (length buf < f1)%nat -> (length buf < f2)%nat -> parse_loop f1 buf = parse_loop f2 buf.
Proof.
  induction f1 as [|f1 IH]; intros f2 buf H1 H2; [lia|].
  destruct f2 as [|f2]; [lia|]. simpl.
  destruct (parse1 buf) eqn:Hp; try reflexivity.
  pose proof (parse1_frame_shorter _ _ _ _ Hp). rewrite (IH f2 rest) by lia. reflexivity.
Qed.

(* the loop without its fuel *)
Lemma parse_all_eq : forall buf, parse_all buf =
  match parse1 buf with
  | NeedMore => (Live buf, [])
  | Bad r => (Dead, [Defunct r])
  | Frame h body rest => emit [Deliver h body] (parse_all rest)
  end.
Proof.
  intros buf. unfold parse_all at 1. simpl. destruct (parse1 buf) eqn:E; try reflexivity.
  pose proof (parse1_frame_shorter _ _ _ _ E).
  unfold parse_all. rewrite (loop_fuel (length buf) (S (length rest)) rest) by lia. destruct (parse_loop _ rest). reflexivity.
Qed.

Lemma parse_all_needmore : forall buf, parse1 buf = NeedMore -> parse_all buf = (Live buf, []).
Proof. intros buf H. rewrite parse_all_eq, H. reflexivity. Qed.

Lemma parse_all_ind : forall P : list Z -> istate * list ievent -> Prop,
  (forall buf, parse1 buf = NeedMore -> P buf (Live buf, [])) ->
  (forall buf r, parse1 buf = Bad r -> P buf (Dead, [Defunct r])) ->
  (forall buf h body rest r, parse1 buf = Frame h body rest -> P rest r -> P buf (emit [Deliver h body] r)) ->
  forall buf, P buf (parse_all buf).
Proof.
  intros P HN HB HF buf. remember (length buf) as n eqn:Hn. revert buf Hn.
  induction n as [n IH] using lt_wf_ind. intros buf ->. rewrite parse_all_eq. destruct (parse1 buf) eqn:E; auto.
  exact (HF _ _ _ _ _ E (IH _ (parse1_frame_shorter _ _ _ _ E) rest eq_refl)).
Qed.

Lemma parse_all_stable : forall buf, stable (fst (parse_all buf)).
Proof. apply (parse_all_ind (fun _ r => stable (fst r))); cbn; auto. Qed.

Lemma feed_stable : forall st chunk, stable (fst (feed st chunk)).
Proof. intros [buf|] chunk; [apply parse_all_stable|exact I]. Qed.

Lemma parse_all_whole_bodies : forall buf h body, In (Deliver h body) (snd (parse_all buf)) -> blen body = h_len h /\ 0 <= h_len h.
Proof.
  intros buf h body. apply (parse_all_ind (fun _ r => In (Deliver h body) (snd r) -> blen body = h_len h /\ 0 <= h_len h)).
  - intros b _ [].
  - intros b r _ [Hin|[]]. discriminate.
  - intros b h0 body0 rest r E IH [Hin|Hin]; [|exact (IH Hin)]. inversion Hin; subst. exact (parse1_frame_body_len _ _ _ _ E).
Qed.

Lemma feed_whole_bodies : forall st chunk h body, In (Deliver h body) (snd (feed st chunk)) -> blen body = h_len h /\ 0 <= h_len h.
Proof. intros [buf|] chunk h body; [apply parse_all_whole_bodies|intros []]. Qed.

Lemma emit_nil : forall St (r : St * list ievent), emit [] r = r.
Proof. intros St [st evs]. reflexivity. Qed.

Lemma emit_app : forall St e1 e2 (r : St * list ievent), emit (e1 ++ e2) r = emit e1 (emit e2 r).
Proof. intros. unfold emit. cbn [fst snd]. rewrite app_assoc. reflexivity. Qed.

Lemma then_feed_emit : forall e r more, then_feed (emit e r) more = emit e (then_feed r more).
Proof. intros. apply emit_app. Qed.

(* a decision of parse1 on the bytes read so far is the first round of the loop on any extension of them *)
Lemma parse_all_step : forall buf more, parse_all (buf ++ more) =
  match parse1 buf with
  | NeedMore => parse_all (buf ++ more)     (* nothing is said of this case *)
  | Bad r => (Dead, [Defunct r])
  | Frame h body rest => emit [Deliver h body] (parse_all (rest ++ more))
  end.
Proof.
  intros buf more. destruct (parse1 buf) eqn:E; [reflexivity|..]; rewrite parse_all_eq, parse1_app, E by congruence; reflexivity.
Qed.

Lemma parse_all_app : forall more buf, parse_all (buf ++ more) = then_feed (parse_all buf) more.
Proof.
  intros more. apply (parse_all_ind (fun buf r => parse_all (buf ++ more) = then_feed r more)).
  - intros buf E. symmetry. apply emit_nil.
  - intros buf r E. rewrite parse_all_step, E. reflexivity.
  - intros buf h body rest r E IH. rewrite parse_all_step, E, IH. symmetry. apply then_feed_emit.
Qed.

Lemma feed_app : forall st a b, feed st (a ++ b) = then_feed (feed st a) b.
Proof.
  intros [buf|] a b; simpl; [|reflexivity]. rewrite app_assoc. apply parse_all_app.
Qed.

Lemma feed_nil_stable : forall st, stable st -> feed st [] = (st, []).
Proof.
  intros [buf|] H; simpl in *; [|reflexivity]. rewrite app_nil_r. apply parse_all_needmore. exact H.
Qed.

Lemma chunking : forall chunks st, stable st -> run_feed st chunks = feed st (concat chunks).
Proof.
  induction chunks as [|c cs IH]; intros st Hst; simpl.
  - symmetry. apply feed_nil_stable. exact Hst.
  - rewrite feed_app. pose proof (feed_stable st c) as H1. destruct (feed st c) as [st1 e1].
    unfold then_feed. cbn [fst snd] in *. rewrite (IH st1 H1). destruct (feed st1 (concat cs)). reflexivity.
Qed.

Lemma init_stable : stable init.
Proof. reflexivity. Qed.

(* a frame as the server may send it *)
Definition wf_frame (d : Z) (h : header) (body : list Z) : Prop :=
  (d = 0 \/ d = 128) /\ supported (h_ver h) = true /\
  0 <= h_flags h < 256 /\ 0 <= h_op h < 256 /\
  (if 3 <=? h_ver h then -32768 <= h_stream h < 32768 else -128 <= h_stream h < 128) /\
  h_len h = blen body /\ blen body < 2147483648.

Definition frame := (Z * header * list Z)%type.
Definition enc (f : frame) : list Z := let '(d, h, b) := f in enc_frame d h b.
Definition wf (f : frame) : Prop := let '(d, h, b) := f in wf_frame d h b.
Definition deliver (f : frame) : ievent := let '(d, h, b) := f in Deliver h b.

Lemma stream_supported_cases : forall v, supported v = true -> v = 66 \/ v = 65 \/ v = 6 \/ v = 5 \/ v = 4 \/ v = 3 \/ v = 2 \/ v = 1.
Proof.
  intros v H. simpl in H.
  repeat (apply orb_true_iff in H; destruct H as [H|H]; [apply Z.eqb_eq in H; lia|]). discriminate.
Qed.

(* the big-endian bytes enc_frame writes for stream id and length, read back as decode_header does;
   lia sees / and mod between this line and the one that undoes it *)
Ltac Zify.zify_post_hook ::= Z.to_euclidean_division_equations.

Lemma signed_16 : forall s, -32768 <= s < 32768 -> signed 16 (((s / 256) mod 256) * 256 + s mod 256) = s.
Proof.
  intros. unfold signed. change (2 ^ (16 - 1)) with 32768.
  destruct (((s / 256) mod 256) * 256 + s mod 256 <? 32768) eqn:E; lia.
Qed.

Lemma signed_8 : forall s, -128 <= s < 128 -> signed 8 (s mod 256) = s.
Proof. intros s. exact (Bits64.twos_mod 8 s eq_refl). Qed.

Lemma signed_32 : forall l, 0 <= l < 2147483648 ->
  signed 32 (((((l / 16777216) mod 256) * 256 + (l / 65536) mod 256) * 256 + (l / 256) mod 256) * 256 + l mod 256) = l.
Proof.
  intros. unfold signed. change (2 ^ (32 - 1)) with 2147483648.
  destruct (_ <? 2147483648) eqn:E; lia.
Qed.

Ltac Zify.zify_post_hook ::= idtac.

(* the version byte carries the direction in bit 7; _read_frame_header masks it off *)
Lemma version_byte_masked : forall d v, d = 0 \/ d = 128 -> supported v = true -> Z.land (d + v) 127 = v.
Proof.
  intros d v Hd Hs.
  destruct (stream_supported_cases _ Hs) as [E|[E|[E|[E|[E|[E|[E|E]]]]]]]; rewrite E; destruct Hd as [Hd|Hd]; rewrite Hd; reflexivity.
Qed.

Lemma enc_frame_app : forall d h body, enc_frame d h body = enc_frame d h [] ++ body.
Proof. intros. unfold enc_frame. destruct (3 <=? h_ver h); reflexivity. Qed.

Lemma enc_frame_first : forall d h body, hd 0 (enc_frame d h body) = d + h_ver h.
Proof. intros. unfold enc_frame. destruct (3 <=? h_ver h); reflexivity. Qed.

Lemma enc_header_size : forall d h, blen (enc_frame d h []) = header_size (h_ver h).
Proof. intros. unfold enc_frame, header_size. destruct (3 <=? h_ver h); reflexivity. Qed.

Lemma enc_header_decode : forall d h body, wf_frame d h body -> decode_header (h_ver h) (enc_frame d h []) = h.
Proof.
  intros d [v f s o l] body (_ & _ & _ & _ & Hst & Hl & Hb). cbn [h_ver h_stream h_len] in *.
  pose proof (blen_nonneg body). unfold enc_frame, decode_header. cbn [h_ver h_flags h_stream h_op h_len].
  destruct (3 <=? v); unfold be16, be32, byte_at; cbn [nth]; rewrite ?signed_16, ?signed_8, signed_32 by lia; reflexivity.
Qed.

Lemma parse1_whole : forall v hdr body rest, Z.land (hd 0 hdr) 127 = v -> supported v = true ->
  blen hdr = header_size v -> h_len (decode_header v hdr) = blen body ->
  parse1 (hdr ++ body ++ rest) = Frame (decode_header v hdr) body rest.
Proof.
  intros v [|b0 tl] body rest Hv Hs Hlen Hl; [destruct (header_size_cases v); cbn in Hlen; lia|]. cbn [hd] in Hv.
  change ((b0 :: tl) ++ body ++ rest) with (b0 :: (tl ++ body ++ rest)).
  unfold parse1. change (b0 :: (tl ++ body ++ rest)) with ((b0 :: tl) ++ body ++ rest).
  set (hdr := b0 :: tl) in *. rewrite Hv, Hs. cbn [negb].
  pose proof (blen_nonneg body). pose proof (blen_nonneg rest).
  rewrite decode_header_app, Hl, !blen_app, Hlen by lia.
  replace (header_size v + (blen body + blen rest) <? header_size v) with false by lia.
  replace (blen body <? 0) with false by lia.
  replace (header_size v + (blen body + blen rest) <? header_size v + blen body) with false by lia.
  unfold blen in *. rewrite skipn_exact, Nat2Z.id, firstn_exact by lia.
  rewrite app_assoc, skipn_exact by (rewrite app_length; lia). reflexivity.
Qed.

Lemma parse1_enc : forall d h body rest, wf_frame d h body ->
  parse1 (enc_frame d h body ++ rest) = Frame h body rest.
Proof.
  intros d h body rest Hwf. pose proof (enc_header_decode d h body Hwf) as Hdec.
  destruct Hwf as (Hd & Hs & _ & _ & _ & Hl & _).
  rewrite enc_frame_app, <- app_assoc, (parse1_whole (h_ver h)).
  - rewrite Hdec. reflexivity.
  - rewrite enc_frame_first. apply version_byte_masked; assumption.
  - exact Hs.
  - apply enc_header_size.
  - rewrite Hdec. exact Hl.
Qed.

Lemma parse_all_frames : forall frames tail, Forall wf frames -> parse1 tail = NeedMore ->
  parse_all (concat (map enc frames) ++ tail) = (Live tail, map deliver frames).
Proof.
  induction frames as [|[[d h] b] fs IH]; intros tail Hwf Ht; simpl.
  - apply parse_all_needmore. exact Ht.
  - inversion Hwf as [|f fs' Hf Hfs]; subst. rewrite <- app_assoc.
    rewrite parse_all_eq, (parse1_enc d h b _ Hf).
    rewrite (IH tail Hfs Ht). reflexivity.
Qed.

Definition routed_ok (evs : list ievent) (r : revent) : Prop :=
  match r with
  | ToHandler id h b => id = h_stream h /\ 0 <= id /\ In (Deliver h b) evs
  | ToWatchers h b => h_stream h < 0 /\ In (Deliver h b) evs
  | _ => True
  end.

Definition routed_as (f : frame) : revent :=
  let '(d, h, b) := f in if h_stream h <? 0 then ToWatchers h b else ToHandler (h_stream h) h b.

Definition nonneg_ids (fs : list frame) : list Z :=
  map (fun f : frame => h_stream (snd (fst f))) (filter (fun f : frame => negb (h_stream (snd (fst f)) <? 0)) fs).

Lemma routed_ok_cons : forall e evs r, routed_ok evs r -> routed_ok (e :: evs) r.
Proof. intros e evs [id h b|h b|h|x]; cbn; [intros (A & B & C)|intros (A & B)|trivial..]; auto. Qed.

(* the event routed for the head delivery satisfies routed_ok by the test that chose it; the others by induction,
   whatever the set of registered ids has become *)
Lemma route_sound : forall evs reqs r, In r (route reqs evs) -> routed_ok evs r.
Proof.
  induction evs as [|[h b|x] evs IH]; intros reqs r Hin; cbn [route] in Hin; [destruct Hin| |destruct Hin as [<-|[]]; exact I].
  destruct (h_stream h <? 0) eqn:E; [|destruct (mem (h_stream h) reqs)]; destruct Hin as [<-|Hin];
    try (apply routed_ok_cons; exact (IH _ _ Hin)); cbn.
  - (* ToWatchers *) split; [lia|left; reflexivity].
  - (* ToHandler *) split; [reflexivity|]. split; [lia|left; reflexivity].
  - (* Dropped *) exact I.
Qed.

Lemma mem_in : forall x l, mem x l = true <-> In x l.
Proof. exact (existsb_In Z.eqb Z.eqb_eq). Qed.

Lemma in_remove1 : forall y x l, y <> x -> In y l -> In y (remove1 x l).
Proof.
  induction l as [|z l IH]; intros Hne Hin; simpl; [assumption|].
  destruct (x =? z) eqn:E.
  - apply Z.eqb_eq in E. subst. destruct Hin; [congruence|assumption].
  - destruct Hin; [left; assumption|right; auto].
Qed.

Lemma route_frames : forall fs reqs, NoDup (nonneg_ids fs) -> (forall i, In i (nonneg_ids fs) -> In i reqs) ->
  route reqs (map deliver fs) = map routed_as fs.
Proof.
  induction fs as [|[[d h] b] fs IH]; intros reqs Hnd Hin; simpl; [reflexivity|].
  unfold nonneg_ids in *. simpl in *.
  destruct (h_stream h <? 0) eqn:Hn; simpl in *.
  - f_equal. apply IH; assumption.
  - inversion Hnd; subst.
    assert (Hm : mem (h_stream h) reqs = true) by (apply mem_in; apply Hin; left; reflexivity).
    rewrite Hm. f_equal. apply IH; [assumption|].
    intros i Hi. apply in_remove1; [|apply Hin; right; assumption].
    intro E. subst i. contradiction.
Qed.

