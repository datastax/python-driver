(* Bit-level lemmas on unbounded Z: bounds from bits (C06), the signed reading of an N-bit word (the marshal files, C08), and
   reduction to a 64-bit word (C07, C08). *)
From Coq Require Import ZArith Lia Bool.
From Verif Require Import ByteWords.
Local Open Scope Z_scope.

Lemma testbit_above : forall n x m, 0 <= x < 2 ^ n -> n <= m -> Z.testbit x m = false.
Proof.
  intros n x m [H0 H1] Hm. destruct (Z.eq_dec x 0) as [->|Hx]; [apply Z.bits_0|].
  apply Z.bits_above_log2; [assumption|]. assert (Z.log2 x < n) by (apply Z.log2_lt_pow2; lia). lia.
Qed.

Lemma range_of_bits : forall n x, 0 <= n -> 0 <= x -> (forall m, n <= m -> Z.testbit x m = false) -> x < 2 ^ n.
Proof.
  intros n x Hn Hx H. destruct (Z_lt_ge_dec x (2 ^ n)) as [|Hge]; [assumption|exfalso].
  assert (Hpos : 0 < x) by lia.
  assert (n <= Z.log2 x) by (apply Z.log2_le_pow2; lia).
  pose proof (Z.bit_log2 x Hpos) as Hb. rewrite H in Hb by assumption. discriminate.
Qed.

Lemma lxor_range : forall n a b, 0 <= n -> 0 <= a < 2 ^ n -> 0 <= b < 2 ^ n -> 0 <= Z.lxor a b < 2 ^ n.
Proof.
  intros n a b Hn Ha Hb. assert (H0 : 0 <= Z.lxor a b) by (apply Z.lxor_nonneg; lia).
  split; [assumption|]. apply range_of_bits; try assumption.
  intros m Hm. rewrite Z.lxor_spec, (testbit_above n a m), (testbit_above n b m) by assumption. reflexivity.
Qed.

(* two's complement: the signed reading of an N-bit word u; on the N-bit signed range it inverts reduction modulo 2^N.
   new BigInteger(bytes), struct's signed formats and Java's long are each this with N spelled their own way *)
Definition twos (N u : Z) : Z := if u <? 2 ^ (N - 1) then u else u - 2 ^ N.

Lemma pow2_half N : 0 < N -> 2 ^ N = 2 * 2 ^ (N - 1).
Proof. intros HN. rewrite <- Z.pow_succ_r by lia. f_equal. lia. Qed.

Lemma twos_range N u : 0 < N -> 0 <= u < 2 ^ N -> - 2 ^ (N - 1) <= twos N u < 2 ^ (N - 1).
Proof. intros HN Hu. unfold twos. rewrite (pow2_half N HN) in *. destruct (u <? 2 ^ (N - 1)) eqn:E; lia. Qed.

(* the window of residues moved from [0, 2^N) to [-2^(N-1), 2^(N-1)) *)
Lemma twos_shift N x : 0 < N -> (x + 2 ^ (N - 1)) mod 2 ^ N - 2 ^ (N - 1) = twos N (x mod 2 ^ N).
Proof.
  intros HN. unfold twos. rewrite <- (Zplus_mod_idemp_l x), (pow2_half N HN).
  pose proof (Z.pow_pos_nonneg 2 (N - 1)). set (P := 2 ^ (N - 1)) in *. pose proof (Z.mod_pos_bound x (2 * P)).
  destruct (x mod (2 * P) <? P) eqn:F.
  - rewrite Z.mod_small; lia.
  - rewrite <- (Z.mod_add _ (-1)), Z.mod_small; lia.
Qed.

Lemma twos_mod N z : 0 < N -> - 2 ^ (N - 1) <= z < 2 ^ (N - 1) -> twos N (z mod 2 ^ N) = z.
Proof. intros HN Hz. rewrite <- twos_shift, Z.mod_small by (rewrite ?(pow2_half N HN); lia). lia. Qed.

Definition W64 : Z := 2 ^ 64.

(* The 64-bit word an integer stands for.  Each implementation of the hash (Python on unbounded integers, C on int64_t) is
   related to the specification by showing that wrap commutes with its operations. *)
Definition wrap (x : Z) : Z := x mod W64.

Lemma wrap_range x : 0 <= wrap x < W64.
Proof. apply Z.mod_pos_bound. reflexivity. Qed.
Lemma wrap_small x : 0 <= x < W64 -> wrap x = x.
Proof. apply Z.mod_small. Qed.
Lemma wrap_wrap x : wrap (wrap x) = wrap x.
Proof. apply wrap_small, wrap_range. Qed.
Lemma wrap_if (c : bool) x y : wrap (if c then x else y) = if c then wrap x else wrap y.
Proof. destruct c; reflexivity. Qed.
Lemma wrap_add a b : wrap (a + b) = wrap (wrap a + wrap b).
Proof. apply Z.add_mod. discriminate. Qed.
Lemma wrap_mul a b : wrap (a * b) = wrap (wrap a * wrap b).
Proof. apply Z.mul_mod. discriminate. Qed.

Lemma wrap_ones x : wrap x = Z.land x (Z.ones 64).
Proof. symmetry. apply Z.land_ones. discriminate. Qed.

Lemma wrap_lor a b : wrap (Z.lor a b) = Z.lor (wrap a) (wrap b).
Proof. rewrite !wrap_ones. apply Z.land_lor_distr_l. Qed.

(* missing from the library beside Z.land_lor_distr_l *)
Lemma land_lxor_distr_l a b c : Z.land (Z.lxor a b) c = Z.lxor (Z.land a c) (Z.land b c).
Proof.
  apply Z.bits_inj'. intros n _. rewrite Z.land_spec, !Z.lxor_spec, !Z.land_spec.
  destruct (Z.testbit a n), (Z.testbit b n), (Z.testbit c n); reflexivity.
Qed.

Lemma wrap_lxor a b : wrap (Z.lxor a b) = Z.lxor (wrap a) (wrap b).
Proof. rewrite !wrap_ones. apply land_lxor_distr_l. Qed.

Lemma wrap_shiftl a r : 0 <= r -> wrap (Z.shiftl a r) = wrap (Z.shiftl (wrap a) r).
Proof. intros Hr. rewrite !Z.shiftl_mul_pow2 by exact Hr. symmetry. apply Z.mul_mod_idemp_l. discriminate. Qed.

(* the logical right shift of the 64-bit word, as Python spells it: shift, then mask *)
Lemma shiftr_wrap x n : 0 <= n <= 64 -> Z.shiftr (wrap x) n = Z.land (Z.shiftr x n) (Z.ones (64 - n)).
Proof.
  intros Hn. rewrite wrap_ones, Z.shiftr_land, (Z.shiftr_div_pow2 (Z.ones 64)), Z.ones_div_pow2 by lia. reflexivity.
Qed.

Lemma wrap_shiftr x n : 0 <= n -> wrap (Z.shiftr (wrap x) n) = Z.shiftr (wrap x) n.
Proof.
  intros Hn. apply wrap_small. pose proof (wrap_range x) as H. rewrite Z.shiftr_div_pow2 by exact Hn.
  split; [apply Z.div_pos; lia|apply Z.div_lt_upper_bound; nia].
Qed.

Lemma wrap_sext64 w : wrap (sext64 w) = wrap w.
Proof.
  unfold sext64. destruct (w <? 2 ^ 63); [reflexivity|]. change (w - 2 ^ 64) with (w + (-1) * W64). apply Z.mod_add. discriminate.
Qed.

(* the signed reading of the word, as Python's truncate_int64 computes it: sext64 is twos 64 *)
Lemma sext64_wrap_shifted x : (x + 2 ^ 63) mod W64 - 2 ^ 63 = sext64 (wrap x).
Proof. exact (twos_shift 64 x eq_refl). Qed.

Lemma sext64_range w : 0 <= w < W64 -> - 2 ^ 63 <= sext64 w < 2 ^ 63.
Proof. exact (twos_range 64 w eq_refl). Qed.

Lemma sext64_wrap_small x : - 2 ^ 63 <= x < 2 ^ 63 -> sext64 (wrap x) = x.
Proof. exact (twos_mod 64 x eq_refl). Qed.

Definition eqm64 (a b : Z) : Prop := a mod W64 = b mod W64.

Definition signed64 (x : Z) : Z := let y := x mod W64 in if y <? 2 ^ 63 then y else y - W64.

Lemma signed64_range x : - 2 ^ 63 <= signed64 x < 2 ^ 63.
Proof. exact (sext64_range _ (wrap_range x)). Qed.

Lemma signed64_eqm x : eqm64 (signed64 x) x.
Proof. change (wrap (sext64 (wrap x)) = wrap x). rewrite wrap_sext64. apply wrap_wrap. Qed.
