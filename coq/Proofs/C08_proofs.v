(* C08: the source-translated murmur3 (Gen/Murmur3Gen.v, unbounded Python ints) equals the Java-semantics
   specification (Model/Murmur3Spec.v) for EVERY byte string; at the end, the MD5 token model (Model/TokenModels.v)
   reads a digest as Java's BigInteger does. *)
From Coq Require Import ZArith List Bool Lia ZifyBool.
From Verif Require Import PyBase ByteWords Murmur3Ext Murmur3Spec Murmur3Gen TokenModels Bits64 BytesBE.
Import ListNotations.
Local Open Scope Z_scope.

(* M64 and W64 are the same number: no fact, only the way to fold the spec's `mod M64` into wrap by rewrite *)
Lemma M64_wrap a : a mod M64 = wrap a.
Proof. reflexivity. Qed.

(* The spec's operations end in `mod M64`: they take words to words, and reduce the body words themselves, so a body
   word may be handed over wrapped or not. *)
Lemma mul64_wrap_l a b : mul64 (wrap a) b = mul64 a b.
Proof. apply Z.mul_mod_idemp_l. discriminate. Qed.

Lemma round_wrap h w1 w2 : round h (wrap w1) (wrap w2) = round h w1 w2.
Proof. unfold round, mix_k1, mix_k2. rewrite !mul64_wrap_l. reflexivity. Qed.

(* The hash over any operations: a round, the body loop, a tail word, the whole.  Murmur3C's functions are these over the C
   operations, by conversion; the generated Python computes them over Z's (loop1_spec, tail_loop_spec, murmur3_py_gen). *)
Section Gen.
  Variables (mul add xor rotl shl : Z -> Z -> Z) (c1 c2 : Z).

  Definition g_round (h : Z * Z) (k1 k2 : Z) : Z * Z :=
    let '(h1, h2) := h in
    let h1 := add (mul (add (rotl (xor h1 (mul (rotl (mul k1 c1) 31) c2)) 27) h2) 5) 1390208809 in
    let h2 := add (mul (add (rotl (xor h2 (mul (rotl (mul k2 c2) 33) c1)) 31) h1) 5) 944331445 in
    (h1, h2).

  Fixpoint g_rounds (ws : list Z) (h : Z * Z) : Z * Z :=
    match ws with
    | k1 :: k2 :: r => g_rounds r (g_round h (sext64 k1) (sext64 k2))
    | _ => h
    end.

  Lemma g_rounds_cons2 w1 w2 ws h : g_rounds (w1 :: w2 :: ws) h = g_rounds ws (g_round h (sext64 w1) (sext64 w2)).
  Proof. reflexivity. Qed.

  Fixpoint g_tail (idx : list nat) (bs : list Z) (k : Z) : Z :=
    match idx with
    | [] => k
    | i :: r => g_tail r bs (xor k (shl (sext8 (nth i bs 0)) (8 * Z.of_nat i)))
    end.

  (* fm stands for the implementation's fmix, kept folded *)
  Variable fm : Z -> Z.

  Definition g_murmur3 (key : list Z) : Z :=
    let len := length key in
    let nb := (len / 16)%nat in
    let '(h1, h2) := g_rounds (words (2 * nb) key) (0, 0) in
    let t := skipn (16 * nb) key in
    let tl := length t in
    let h2 := if (8 <? tl)%nat then xor h2 (mul (rotl (mul (g_tail (down (tl - 8)) (skipn 8 t) 0) c2) 33) c1) else h2 in
    let h1 := if (0 <? tl)%nat then xor h1 (mul (rotl (mul (g_tail (down (Nat.min 8 tl)) t 0) c1) 31) c2) else h1 in
    let h1 := xor h1 (Z.of_nat len) in
    let h2 := xor h2 (Z.of_nat len) in
    let h1 := add h1 h2 in
    let h2 := add h2 h1 in
    add (fm h1) (fm h2).
End Gen.

Lemma list_ind2 {A} (P : list A -> Prop) :
  P [] -> (forall a, P [a]) -> (forall a b l, P l -> P (a :: b :: l)) -> forall l, P l.
Proof. intros H0 H1 H2. fix IH 1. intros [|a [|b l]]; [exact H0|apply H1|apply H2, IH]. Qed.

Lemma rounds_cons2 w1 w2 ws h : rounds (w1 :: w2 :: ws) h = rounds ws (round h w1 w2).
Proof. reflexivity. Qed.

(* What is asked of an implementation of the 64-bit operations: wrap commutes with them.  Python's unbounded integers
   (py_ops below) and C's int64_t (c_ops in C07_proofs) are the two instances. *)
Set Implicit Arguments.
Record word_ops (mul add xor rotl shl : Z -> Z -> Z) (fstep : Z -> Z) (c1 c2 f1 f2 : Z) : Prop := {
  mul_wrap : forall a b, wrap (mul a b) = mul64 (wrap a) (wrap b);
  add_wrap : forall a b, wrap (add a b) = add64 (wrap a) (wrap b);
  xor_wrap : forall a b, wrap (xor a b) = Z.lxor (wrap a) (wrap b);
  rotl_wrap : forall x r, 0 < r < 64 -> wrap (rotl x r) = rotl64s (wrap x) r;
  shl_wrap : forall a k, 0 <= k -> wrap (shl a k) = wrap (Z.shiftl a k);
  (* fstep is the step k ^ (k >>> 33) of fmix *)
  fstep_wrap : forall k, wrap (fstep k) = Z.lxor (wrap k) (Z.shiftr (wrap k) 33);
  c1_wrap : wrap c1 = C1;
  c2_wrap : wrap c2 = C2;
  f1_wrap : wrap f1 = 18397679294719823053;
  f2_wrap : wrap f2 = 14181476777654086739 }.
Unset Implicit Arguments.

Definition wrap2 (h : Z * Z) : Z * Z := (wrap (fst h), wrap (snd h)).

Section Ops.
  Context {mul add xor rotl shl : Z -> Z -> Z} {fstep : Z -> Z} {c1 c2 f1 f2 : Z}
          (ok : word_ops mul add xor rotl shl fstep c1 c2 f1 f2).

  Lemma g_mix1 k : wrap (mul (rotl (mul k c1) 31) c2) = mix_k1 (wrap k).
  Proof.
    unfold mix_k1. rewrite (mul_wrap ok), (rotl_wrap ok), (mul_wrap ok), (c1_wrap ok), (c2_wrap ok) by lia. reflexivity.
  Qed.

  Lemma g_mix2 k : wrap (mul (rotl (mul k c2) 33) c1) = mix_k2 (wrap k).
  Proof.
    unfold mix_k2. rewrite (mul_wrap ok), (rotl_wrap ok), (mul_wrap ok), (c1_wrap ok), (c2_wrap ok) by lia. reflexivity.
  Qed.

  (* both halves of a round have this shape *)
  Lemma g_half h k r h' c : 0 < r < 64 ->
    wrap (add (mul (add (rotl (xor h k) r) h') 5) c) =
    add64 (mul64 (add64 (rotl64s (Z.lxor (wrap h) (wrap k)) r) (wrap h')) 5) (wrap c).
  Proof.
    intros Hr. rewrite (add_wrap ok), (mul_wrap ok), (add_wrap ok), (rotl_wrap ok), (xor_wrap ok) by exact Hr. reflexivity.
  Qed.

  Lemma g_round_wrap h k1 k2 : wrap2 (g_round mul add xor rotl c1 c2 h k1 k2) = round (wrap2 h) (wrap k1) (wrap k2).
  Proof. destruct h as [h1 h2]. unfold round, wrap2. cbn [g_round fst snd]. rewrite !g_half, g_mix1, g_mix2 by lia. reflexivity. Qed.

  (* rewriting with the two _cons2 equations: after cbn the proof goes through as well, but to check that conversion at Qed
     the kernel first compares h with round h w1 w2, and evaluates a whole round on symbolic words to tell them apart
     (140 Mw) *)
  Lemma g_rounds_wrap ws : forall h, wrap2 (g_rounds mul add xor rotl c1 c2 ws h) = rounds ws (wrap2 h).
  Proof.
    induction ws as [|w|w1 w2 ws IH] using list_ind2; intros h; [reflexivity..|].
    rewrite g_rounds_cons2, rounds_cons2, IH, g_round_wrap, !wrap_sext64, round_wrap. reflexivity.
  Qed.

  Lemma g_tail_wrap : forall L bs k, wrap (g_tail xor shl L bs k) = tail_word L bs (wrap k).
  Proof.
    induction L as [|i L IH]; intros bs k; [reflexivity|]. cbn [g_tail tail_word].
    rewrite IH, (xor_wrap ok), (shl_wrap ok), M64_wrap by lia. reflexivity.
  Qed.

  (* the body of both fmix functions *)
  Lemma g_fmix k : wrap (fstep (mul (fstep (mul (fstep k) f1)) f2)) = fmix64 (wrap k).
  Proof.
    unfold fmix64. cbv zeta.
    rewrite (fstep_wrap ok), (mul_wrap ok), (fstep_wrap ok), (mul_wrap ok), (fstep_wrap ok), (f1_wrap ok), (f2_wrap ok).
    reflexivity.
  Qed.

  Variable fm : Z -> Z.
  Hypothesis fm_wrap : forall k, wrap (fm k) = fmix64 (wrap k).

  Lemma g_murmur3_wrap key : wrap (g_murmur3 mul add xor rotl shl c1 c2 fm key) = murmur3_h1 key.
  Proof.
    unfold g_murmur3, murmur3_h1. cbv zeta. set (ws := words _ key). set (T := skipn _ key).
    pose proof (g_rounds_wrap ws (0, 0)) as E. change (wrap2 (0, 0)) with (0, 0) in E.
    destruct (g_rounds mul add xor rotl c1 c2 ws (0, 0)) as [h1 h2]. rewrite <- E. unfold wrap2. cbn [fst snd].
    rewrite (add_wrap ok), !fm_wrap, !(add_wrap ok), !(xor_wrap ok), !wrap_if, !(xor_wrap ok), g_mix1, g_mix2, !g_tail_wrap.
    reflexivity.
  Qed.
End Ops.

(* Python: the masks of rotl64 and fmix are what shiftr_wrap says the shifted word keeps *)
Lemma wrap_rotl64 x r : 0 < r < 64 -> wrap (rotl64 x r) = rotl64s (wrap x) r.
Proof.
  intros Hr. unfold rotl64, rotl64s. cbv zeta. rewrite M64_wrap.
  replace (2 ^ r - 1) with (Z.ones (64 - (64 - r))) by (replace (64 - (64 - r)) with r by lia; apply Z.ones_equiv).
  rewrite <- shiftr_wrap, !wrap_lor, wrap_shiftl by lia. reflexivity.
Qed.

Definition py_fstep (k : Z) : Z := Z.lxor k (Z.land (Z.shiftr k 33) 2147483647).

Lemma wrap_py_fstep k : wrap (py_fstep k) = Z.lxor (wrap k) (Z.shiftr (wrap k) 33).
Proof.
  unfold py_fstep. change 2147483647 with (Z.ones (64 - 33)).
  rewrite <- shiftr_wrap, wrap_lxor, wrap_shiftr by lia. reflexivity.
Qed.

(* the Python constants: c2 is C2, c1 is C1 - 2^64 *)
Lemma py_ops : word_ops Z.mul Z.add Z.lxor rotl64 Z.shiftl py_fstep (-8663945395140668459) 5545529020109919103
                        18397679294719823053 14181476777654086739.
Proof.
  refine {| mul_wrap := wrap_mul; add_wrap := wrap_add; xor_wrap := wrap_lxor; rotl_wrap := wrap_rotl64;
           shl_wrap := fun _ _ _ => eq_refl; fstep_wrap := wrap_py_fstep; c1_wrap := _; c2_wrap := _; f1_wrap := _; f2_wrap := _ |};
    reflexivity.
Qed.

Lemma wrap_fmix k : wrap (fmix k) = fmix64 (wrap k).
Proof. exact (g_fmix py_ops k). Qed.

Lemma words_length n data : length (words n data) = n.
Proof. revert data. induction n as [|n IH]; intros; [reflexivity|]. cbn. rewrite IH. reflexivity. Qed.

Lemma nth_skipn {A} (l : list A) k i d : nth i (skipn k l) d = nth (k + i) l d.
Proof. revert l. induction k as [|k IH]; intros l; [reflexivity|]. destruct l; [destruct i; reflexivity|]. cbn. apply IH. Qed.

Lemma py_range_up2 n : py_range 0 (Z.of_nat (2 * n)) 2 = map (fun k => Z.of_nat (2 * k)) (seq 0 n).
Proof.
  unfold py_range. cbn [Z.ltb Z.compare].
  replace (Z.to_nat ((Z.of_nat (2 * n) - 0 + 2 - 1) / 2)) with n.
  - apply map_ext. intros k. lia.
  - replace (Z.of_nat (2 * n) - 0 + 2 - 1) with (1 + Z.of_nat n * 2) by lia.
    rewrite Z.div_add by lia. cbn. lia.
Qed.

Lemma py_range_down (n off : nat) hi lo : hi = Z.of_nat (off + n) - 1 -> lo = Z.of_nat off - 1 ->
  py_range hi lo (-1) = map (fun i => Z.of_nat (off + i)) (down n).
Proof.
  intros -> ->. unfold py_range. cbn [Z.ltb Z.compare]. change (- -1) with 1. rewrite Z.div_1_r.
  replace (Z.to_nat _) with n by lia.
  induction n as [|n IH]; [reflexivity|]. cbn [seq down map]. f_equal; [lia|].
  rewrite <- seq_shift, map_map, <- IH. apply map_ext. intros k. lia.
Qed.

(* the body loop from round o on (o grows in the induction); body holds the signed readings of the words ws *)
Lemma loop1_spec : forall c1 c2 (n o : nat) (ws : list Z) data body tail total_len h1 h2,
  length ws = (2 * n)%nat ->
  (forall j, (j < 2 * n)%nat -> nth_error body (2 * o + j) = Some (sext64 (nth j ws 0))) ->
  murmur3_py_loop1 (map (fun k => Z.of_nat (2 * k)) (seq o n)) data c1 c2 body tail total_len h1 h2 =
  Ok (g_rounds Z.mul Z.add Z.lxor rotl64 c1 c2 ws (h1, h2)).
Proof.
  intros c1 c2. induction n as [|n IH]; intros o ws data body tail total_len h1 h2 Hlen Hb.
  - destruct ws; [reflexivity|discriminate].
  - destruct ws as [|w1 [|w2 ws']]; cbn [length] in Hlen; try lia.
    cbn [seq map murmur3_py_loop1].
    pose proof (Hb 0%nat ltac:(lia)) as Hi1. pose proof (Hb 1%nat ltac:(lia)) as Hi2. rewrite Nat.add_0_r in Hi1.
    rewrite (py_index_nth_ok _ _ _ Hi1). cbn [bind].
    replace (Z.of_nat (2 * o) + 1) with (Z.of_nat (2 * o + 1)) by lia. rewrite (py_index_nth_ok _ _ _ Hi2). cbn [bind nth]. cbv zeta.
    rewrite g_rounds_cons2.
    apply IH; [lia|]. intros j Hj. replace (2 * S o + j)%nat with (2 * o + (2 + j))%nat by lia. exact (Hb (2 + j)%nat ltac:(lia)).
Qed.

(* both tail loops: position off + i of the tail is byte i of the word *)
Lemma tail_loop_spec (loop : list Z -> Z -> res Z) (T : list Z) (off : nat) :
  (forall k, loop [] k = Ok k) ->
  (forall i xs k, loop (i :: xs) k =
     bind (py_index (map sext8 T) i) (fun t => loop xs (Z.lxor k (Z.shiftl t ((i - Z.of_nat off) * 8))))) ->
  forall (n : nat) k, (off + n <= length T)%nat ->
  loop (map (fun i => Z.of_nat (off + i)) (down n)) k = Ok (g_tail Z.lxor Z.shiftl (down n) (skipn off T) k).
Proof.
  intros H0 HS. induction n as [|n IH]; intros k Hn; [apply H0|].
  cbn [down map g_tail]. assert (Hi : (off + n < length T)%nat) by lia.
  rewrite HS, (py_index_nth_ok _ _ _ (map_nth_error sext8 _ _ (nth_error_nth' T 0 Hi))). cbn [bind].
  rewrite nth_skipn. replace ((Z.of_nat (off + n) - Z.of_nat off) * 8) with (8 * Z.of_nat n) by lia.
  apply IH. lia.
Qed.

Lemma loop2_spec : forall (n : nat) (T : list Z) data h1 h2 c1 c2 body total_len k1 len_tail k2,
  (8 + n <= length T)%nat ->
  murmur3_py_loop2 (map (fun i => Z.of_nat (8 + i)) (down n)) data h1 h2 c1 c2 body (map sext8 T) total_len k1 len_tail k2 =
  Ok (g_tail Z.lxor Z.shiftl (down n) (skipn 8 T) k2).
Proof.
  intros n T data h1 h2 c1 c2 body total_len k1 len_tail.
  apply (tail_loop_spec (fun xs k => murmur3_py_loop2 xs data h1 h2 c1 c2 body (map sext8 T) total_len k1 len_tail k) T 8); reflexivity.
Qed.

Lemma loop3_spec : forall (n : nat) (T : list Z) data h1 h2 c1 c2 body total_len k2 len_tail k1,
  (n <= length T)%nat ->
  murmur3_py_loop3 (map Z.of_nat (down n)) data h1 h2 c1 c2 body (map sext8 T) total_len k2 len_tail k1 =
  Ok (g_tail Z.lxor Z.shiftl (down n) T k1).
Proof.
  intros n T data h1 h2 c1 c2 body total_len k2 len_tail.
  apply (tail_loop_spec (fun xs k => murmur3_py_loop3 xs data h1 h2 c1 c2 body (map sext8 T) total_len k2 len_tail k) T 0);
    [reflexivity|]. intros i xs k. cbn [murmur3_py_loop3 Z.of_nat]. rewrite Z.sub_0_r. reflexivity.
Qed.

Lemma truncate_signed x : truncate_int64 x = sext64 (wrap x).
Proof.
  unfold truncate_int64. cbv zeta. destruct ((-9223372036854775808 <=? x) && (x <=? 9223372036854775807)) eqn:E.
  - symmetry. apply sext64_wrap_small. lia.
  - apply sext64_wrap_shifted.
Qed.

(* control only: the generated function computes g_murmur3 over Z's operations; the translator repeats the last lines in
   all four branches of the two tests for a tail word, and each copy is the end of g_murmur3 by conversion *)
Lemma murmur3_py_gen data :
  murmur3_py data =
  Ok (truncate_int64 (g_murmur3 Z.mul Z.add Z.lxor rotl64 Z.shiftl (-8663945395140668459) 5545529020109919103 fmix data)).
Proof.
  unfold murmur3_py, g_murmur3, body_and_tail. cbv zeta.
  set (nb := (length data / 16)%nat).
  set (ws := words (2 * nb) data).
  set (T := skipn (16 * nb) data).
  rewrite map_length. unfold ws at 1. rewrite words_length. rewrite py_range_up2.
  assert (Hb : forall j, (j < 2 * nb)%nat -> nth_error (map sext64 ws) (2 * 0 + j) = Some (sext64 (nth j ws 0))).
  { intros j Hj. apply map_nth_error, nth_error_nth'. unfold ws. rewrite words_length. exact Hj. }
  rewrite (loop1_spec _ _ nb 0 ws _ _ _ _ _ _ (words_length _ _) Hb).
  destruct (g_rounds Z.mul Z.add Z.lxor rotl64 _ _ ws (0, 0)) as [h1 h2]. cbn [bind]. rewrite map_length.
  destruct (Z.of_nat (length T) >? 8) eqn:C8.
  - replace (8 <? length T)%nat with true by lia. replace (0 <? length T)%nat with true by lia.
    replace (Z.of_nat (length T) =? 0) with false by lia.
    rewrite (py_range_down (length T - 8) 8), loop2_spec by lia. cbn [bind negb]. rewrite (py_range_down (Nat.min 8 (length T)) 0), loop3_spec by lia. reflexivity.
  - replace (8 <? length T)%nat with false by lia. destruct (Z.of_nat (length T) =? 0) eqn:C0; cbn [negb].
    + replace (0 <? length T)%nat with false by lia. reflexivity.
    + replace (0 <? length T)%nat with true by lia. rewrite (py_range_down (Nat.min 8 (length T)) 0), loop3_spec by lia. reflexivity.
Qed.

Lemma murmur3_py_eq data : murmur3_py data = Ok (murmur3_long data).
Proof.
  rewrite murmur3_py_gen, truncate_signed, (g_murmur3_wrap py_ops fmix wrap_fmix). reflexivity.
Qed.

Lemma add64_range a b : 0 <= add64 a b < W64.
Proof. exact (wrap_range _). Qed.
Lemma murmur3_long_range key : - 2 ^ 63 <= murmur3_long key < 2 ^ 63.
Proof. apply sext64_range. unfold murmur3_h1. cbv zeta. destruct (rounds _ _). apply add64_range. Qed.

Lemma murmur3_token_range key : - 2 ^ 63 < murmur3_token key < 2 ^ 63.
Proof.
  unfold murmur3_token, MIN_LONG, MAX_LONG. pose proof (murmur3_long_range key).
  destruct (murmur3_long key =? - 2 ^ 63) eqn:E; lia.
Qed.

Lemma varint_unpack_be_signed bs : Forall is_byte bs -> varint_unpack_model bs = be_signed bs.
Proof.
  intros H. unfold varint_unpack_model, be_signed. cbv zeta.
  (* PyBase.py_be_acc and the spec's be_u are the same Fixpoint under two names *)
  rewrite <- py_be_acc_fold. change (py_be_acc bs 0) with (be_u bs 0).
  destruct bs as [|b r]; [reflexivity|]. inversion H as [|? ? Hb _]; subst.
  rewrite (land_128 b Hb). rewrite Z.shiftl_1_l. replace (Z.of_nat (length (b :: r)) * 8) with (8 * Z.of_nat (length (b :: r))) by lia.
  destruct (b <? 128); reflexivity.
Qed.

Lemma rotl64s_range a r : 0 <= rotl64s a r < W64.
Proof. exact (wrap_range _). Qed.

Lemma tail_word_range : forall L bs s, 0 <= s < W64 -> 0 <= tail_word L bs s < W64.
Proof.
  induction L as [|i L IH]; intros bs s Hs; [exact Hs|]. cbn [tail_word]. apply IH.
  apply (lxor_range 64); [discriminate|exact Hs|apply wrap_range].
Qed.
