(* C34 model of util.Date: days since 1970-01-01 <-> (year, month, day) in the proleptic Gregorian calendar
   (what datetime / calendar.timegm compute), and the 'yyyy-mm-dd' form.  Integer algorithms after H. Hinnant.
   No proofs here. *)
From Coq Require Import ZArith List Bool.
From Verif Require Import DecDigits.
Import ListNotations.
Local Open Scope Z_scope.

Definition is_leap (y : Z) : bool := ((y mod 4 =? 0) && negb (y mod 100 =? 0)) || (y mod 400 =? 0).
Definition days_in_month (y m : Z) : Z :=
  if m =? 2 then (if is_leap y then 29 else 28)
  else if (m =? 4) || (m =? 6) || (m =? 9) || (m =? 11) then 30 else 31.
Definition valid_date (y m d : Z) : bool := (1 <=? m) && (m <=? 12) && (1 <=? d) && (d <=? days_in_month y m).

(* day of the 400-year era (era starts on March 1st of a year divisible by 400) from (year of era, month, day) *)
Definition doe_of (yoe m d : Z) : Z :=
  yoe * 365 + yoe / 4 - yoe / 100 + (153 * ((m + 9) mod 12) + 2) / 5 + d - 1.

Definition days_from_civil (y m d : Z) : Z :=
  let y' := if m <=? 2 then y - 1 else y in
  (y' / 400) * 146097 + doe_of (y' mod 400) m d - 719468.

(* (year of era, month, day) from the day of era *)
Definition ymd_of_doe (doe : Z) : Z * Z * Z :=
  let yoe := (doe - doe / 1460 + doe / 36524 - doe / 146096) / 365 in
  let doy := doe - (365 * yoe + yoe / 4 - yoe / 100) in
  let mp := (5 * doy + 2) / 153 in
  let d := doy - (153 * mp + 2) / 5 + 1 in
  let m := if mp <? 10 then mp + 3 else mp - 9 in
  (yoe, m, d).

Definition civil_from_days (n : Z) : Z * Z * Z :=
  let z := n + 719468 in
  let '(yoe, m, d) := ymd_of_doe (z mod 146097) in
  (yoe + (z / 146097) * 400 + (if m <=? 2 then 1 else 0), m, d).

(* Date.__str__ for years 1..9999: "%04d-%02d-%02d" *)
Definition print_date (y m d : Z) : list Z :=
  to_digits 4 y ++ [45] ++ to_digits 2 m ++ [45] ++ to_digits 2 d.

(* Date('yyyy-mm-dd'): the canonical 10-character form; strptime rejects month/day out of range and year 0 *)
Definition parse_date (s : list Z) : option (Z * Z * Z) :=
  match take_num 4 0 s with
  | Some (y, r) =>
    match expect 45 r with
    | Some r =>
      match take_num 2 0 r with
      | Some (m, r) =>
        match expect 45 r with
        | Some r =>
          match take_num 2 0 r with
          | Some (d, []) => if (1 <=? y) && valid_date y m d then Some (y, m, d) else None
          | _ => None
          end
        | None => None
        end
      | None => None
      end
    | None => None
    end
  | None => None
  end.

(* what the class does end to end *)
Definition date_str (n : Z) : list Z := let '(y, m, d) := civil_from_days n in print_date y m d.
Definition date_of_str (s : list Z) : option Z :=
  match parse_date s with Some (y, m, d) => Some (days_from_civil y m d) | None => None end.

(* Date(datetime.date / datetime.datetime): _from_timetuple: days_from_epoch = calendar.timegm(t) // 86400, where timegm is the
   number of seconds from the epoch of the (naive) date and time of day.  Floor division: instants before 1970 with a non-zero
   time of day still belong to their own calendar day. *)
Definition timegm (y m d hh mm ss : Z) : Z := days_from_civil y m d * 86400 + hh * 3600 + mm * 60 + ss.
Definition date_from_datetime (y m d hh mm ss : Z) : Z := timegm y m d hh mm ss / 86400.
Definition valid_tod (hh mm ss : Z) : bool := (0 <=? hh) && (hh <=? 23) && (0 <=? mm) && (mm <=? 59) && (0 <=? ss) && (ss <=? 59).

Definition MIN_DAY : Z := -719162.   (* 0001-01-01 *)
Definition MAX_DAY : Z := 2932896.   (* 9999-12-31 *)

(* the two within-era round trips as boolean checks that can be swept over one 400-year era (allb);
   Proofs/C34_proofs.v proves the round trips by arithmetic for every day and every valid date (ymd_of_doe_spec, date_unique)
   and does not use them *)
Fixpoint allb (f : Z -> bool) (p : positive) (base : Z) : bool :=
  match p with
  | xH => f base
  | xO q => allb f q base && allb f q (base + Zpos q)
  | xI q => f base && allb f q (base + 1) && allb f q (base + 1 + Zpos q)
  end.

Definition era_check1 (doe : Z) : bool :=
  let '(yoe, m, d) := ymd_of_doe doe in
  (0 <=? yoe) && (yoe <? 400) && valid_date (yoe + (if m <=? 2 then 1 else 0)) m d && (doe_of yoe m d =? doe)
  && ((doe <? 306) || (1 <=? yoe + (if m <=? 2 then 1 else 0)))
  && ((146036 <? doe) || (yoe + (if m <=? 2 then 1 else 0) <=? 399)).

Definition era_check2 (yoe m d : Z) : bool :=
  negb (valid_date (yoe + (if m <=? 2 then 1 else 0)) m d) ||
  ((0 <=? doe_of yoe m d) && (doe_of yoe m d <? 146097) &&
   (let '(yoe', m', d') := ymd_of_doe (doe_of yoe m d) in (yoe' =? yoe) && (m' =? m) && (d' =? d))).
