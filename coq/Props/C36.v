(* C36 -- cqlengine column values are stored as the core driver would store them.
   Model: Model/Columns.v (hand-written from cassandra/cqlengine/columns.py, tied by correspondence on every run).
   DateTime.to_database is the REPAIRED code (integer timedelta arithmetic, utcoffset of the value itself); the code
   before the repair is kept as datetime_to_db_legacy (bit-exact floats) with its two refutations. *)
From Coq Require Import ZArith List Bool.
From Verif Require Import DyFloat Columns C36_proofs.
Import ListNotations.
Local Open Scope Z_scope.

(* For every column class (containers nested to any depth) and every valid Python value: to_database succeeds; the
   database-ready value denotes, under the column's CQL type, exactly the CQL value that cassandra.cqltypes serialisation
   encodes for the original Python value; and so does the CQL LITERAL the Encoder renders for it (what is actually sent),
   read as a literal of the column's type.  (VSet/VMap lists are read as sets; equal lists = equal sets.) *)
Theorem C36_same_value : forall (c : col) (v : pyval), valid c v = true ->
  exists x a l, to_database c v = Some x /\ denote (cql_type c) x = Some a /\ prepared_value (cql_type c) v = Some a /\
                encode_literal x = Some l /\ lit_value (cql_type c) l = Some a.
Proof. exact same_value_all. Qed.
Print Assumptions C36_same_value.

(* Sending the same Python object any number of times.  That to_database never writes its argument (UserDefinedType converts
   the fields of a deep copy) is taken from the source into the model (`arg_after` is the identity; checks/C36.py resends);
   given that, every send of the history denotes the value the core driver encodes. *)
Theorem C36_resend : forall (c : col) (v : pyval) (n : nat) (x : option pyval), valid c v = true ->
  In x (send_history c v n) ->
  exists y a l, x = Some y /\ denote (cql_type c) y = Some a /\ prepared_value (cql_type c) v = Some a /\
                encode_literal y = Some l /\ lit_value (cql_type c) l = Some a.
Proof.
  intros c v n x Hv Hin. rewrite send_history_repeat in Hin. apply repeat_spec in Hin. subst x.
  exact (C36_same_value c v Hv).
Qed.
Print Assumptions C36_resend.

(* the literal of a Duration carries ONE sign: a days-only negative duration keeps it *)
Example C36_duration_literal :
  encode_literal (PDuration 0 (-3) 0) = Some (LDuration true 0 3 0) /\
  lit_value TDuration (LDuration true 0 3 0) = Some (VDuration 0 (-3) 0).
Proof. split; reflexivity. Qed.

(* A datetime is stored as its exact millisecond instant: naive = UTC wall clock, aware = wall clock minus the zone's
   offset AT THAT VALUE (any offset function: DST included).  Digits below one millisecond are dropped toward zero. *)
Theorem C36_datetime_exact_ms : forall (wall : Z) (tz : option (Z -> Z)),
  exists ms, to_database CDateTime (PDatetime wall tz) = Some (PInt ms) /\
             (forall k, wall - tz_off tz wall = 1000 * k -> ms = k) /\
             (0 <= wall - tz_off tz wall -> 1000 * ms <= wall - tz_off tz wall < 1000 * ms + 1000) /\
             (wall - tz_off tz wall <= 0 -> 1000 * ms - 1000 < wall - tz_off tz wall <= 1000 * ms).
Proof.
  intros wall tz. exists (datetime_to_db wall tz). split; [reflexivity|]. split.
  - exact (datetime_exact wall tz).
  - exact (quot1000_bracket (wall - tz_off tz wall)).
Qed.
Print Assumptions C36_datetime_exact_ms.

Theorem C36_datetime_naive_is_utc : forall wall k, wall = 1000 * k ->
  to_database CDateTime (PDatetime wall None) = Some (PInt k).
Proof. intros wall k H. cbn [to_database]. rewrite (datetime_exact wall None k); [reflexivity|]. rewrite H. apply Z.sub_0_r. Qed.
Print Assumptions C36_datetime_naive_is_utc.

(* OPEN finding C36-5 (core driver, cassandra/cqltypes.py DateType.serialize): the full statement "the core float
   expression sends the instant truncated toward zero, as cqlengine does, for EVERY datetime" is false far from the epoch;
   C36_same_value is the partial theorem (`valid` admits sub-millisecond datetimes only within 2^44 ms of the epoch). *)
Definition C36_full_statement : Prop := forall (wall : Z) (tz : option (Z -> Z)),
  core_datetime_ms_float wall tz = datetime_to_db wall tz.

(* 9000-01-01T00:00:00.000999 (naive): cqlengine sends 221845392000000, the core float path 221845392000001 *)
Theorem C36_core_float_refuted : ~ C36_full_statement.
Proof. intros H. specialize (H 221845392000000999 None). vm_compute in H. discriminate H. Qed.
Print Assumptions C36_core_float_refuted.

(* The statement the code BEFORE the repair had to meet, and its refutations (the witnesses are replayed on the real
   column by checks/C36.py from corpus/C36): float truncation, and the UTC offset taken at the 1970 epoch. *)
Definition C36_legacy_full_statement : Prop := forall (wall : Z) (tz : option (Z -> Z)) (k : Z),
  wall - tz_off tz wall = 1000 * k -> datetime_to_db_legacy wall tz = k.

Theorem C36_legacy_float_refuted : ~ C36_legacy_full_statement.
Proof. intros H. specialize (H 1001000 None 1001 eq_refl). vm_compute in H. discriminate H. Qed.
Print Assumptions C36_legacy_float_refuted.

(* 2020-07-01T12:00 in a zone that is +01:00 at the epoch and +02:00 (DST) at the value: one hour off *)
Theorem C36_legacy_dst_refuted :
  datetime_to_db_legacy 1593604800000000 (Some zone_dst) = 1593601200000 /\
  datetime_to_db 1593604800000000 (Some zone_dst) = 1593597600000 /\
  1593604800000000 - zone_dst 1593604800000000 = 1000 * 1593597600000.
Proof. vm_compute. repeat split; reflexivity. Qed.
Print Assumptions C36_legacy_dst_refuted.

Example C36_nonvacuous :
  let c := CMap CText (CList (CTuple [CDateTime; CDate; CBlob; CFloat])) in
  let v := PDict [(PStr [97; 98], PList [PTuple [PDatetime 1593604800123000 (Some zone_dst); PDatetime 86400000001 None;
                                                   PBytes [0; 255]; PInt 16777217]])] in
  valid c v = true /\ same_value c v = true /\
  to_database c v = Some (PDict [(PStr [97; 98], PList [PTuple [PInt 1593597600123; PInt 2147483649; PBytes [0; 255];
                                                                PFloat 4503599895805952 (-28)]])]).
Proof. vm_compute. repeat split; reflexivity. Qed.
