(* C24 -- reconnection schedules respect their delay bounds and attempt limits.
   Model/Reconnect.v mirrors cassandra/policies.py (tied by exact correspondence with Fraction parameters). *)
From Coq Require Import QArith Qminmax ZArith List Bool.
From Verif Require Import Reconnect C24_proofs.
Local Open Scope Q_scope.

(* constant schedule: every delay it yields is the fixed delay *)
Theorem C24_constant : forall delay ma i d, constant_schedule delay ma i = Some d -> d = delay.
Proof. intros delay ma i d. apply (limited_item ma (fun _ => delay)). Qed.
Print Assumptions C24_constant.

(* attempt limit: with max_attempts = n BOTH schedules yield exactly n delays (n = 0: none); without a limit they never end;
   this holds at every index, so no attempt index "overflows" *)
Theorem C24_limit : forall delay base max jit n i,
  (constant_schedule delay (Some n) i = None <-> (n <= i)%nat) /\
  (exp_schedule base max (Some n) jit i = None <-> (n <= i)%nat).
Proof. intros. split; apply limited_length. Qed.
Print Assumptions C24_limit.

Theorem C24_unbounded : forall delay base max jit i,
  constant_schedule delay None i = Some delay /\ exp_schedule base max None jit i = Some (exp_item base max jit i).
Proof. intros. split; reflexivity. Qed.
Print Assumptions C24_unbounded.

(* exponential schedule: every delay lies between the base and the maximum delay ... *)
Theorem C24_exp_bounds : forall base max ma jit i d, 0 <= base -> base <= max ->
  exp_schedule base max ma jit i = Some d -> base <= d /\ d <= max.
Proof.
  intros base max ma jit i d Hb Hbm ->%limited_item. apply add_jitter_bounds. assumption.
Qed.
Print Assumptions C24_exp_bounds.

(* ... and follows the doubling curve c_i = min(base * 2^i, max) within the jitter band:
   d_i = clamp_[base,max] (j_i * c_i / 100) with 0.85 c_i <= j_i c_i / 100 <= 1.15 c_i, for every index i *)
Theorem C24_exp_curve : forall base max jit i, 0 <= base -> base <= max -> (85 <= jit i <= 115)%Z ->
  let c := curve base max i in
  let x := (inject_Z (jit i) * c) / (100 # 1) in
  exp_item base max jit i == Qmin (Qmax base x) max /\
  (85 # 100) * c <= x /\ x <= (115 # 100) * c /\ base <= c /\ c <= max.
Proof.
  intros base max jit i Hb Hbm Hj c x.
  destruct (curve_bounds base max i Hb Hbm) as [Hc1 Hc2].
  assert (Hc0 : 0 <= c) by (unfold c; apply Qle_trans with base; assumption).
  destruct (jitter_band (jit i) c Hj Hc0) as [J1 J2].
  split; [apply exp_item_spec; assumption|]. repeat split; assumption.
Qed.
Print Assumptions C24_exp_curve.

(* the reconnection handler makes exactly as many attempts as the schedule has delays (while attempts keep failing),
   waiting exactly the scheduled delays in order -- a zero delay is a delay, not the end of the schedule *)
Theorem C24_handler_uses_whole_schedule : forall d0 r k,
  handler (d0 :: r) (repeat AFail k) = Some (firstn (S k) (d0 :: r)) /\
  (length r <= k -> handler (d0 :: r) (repeat AFail k) = Some (d0 :: r))%nat.
Proof.
  intros d0 r k. split; [apply handler_all_fail|]. intros H. rewrite handler_all_fail.
  f_equal. apply firstn_all2. cbn [length]. apply le_n_S. exact H.
Qed.
Print Assumptions C24_handler_uses_whole_schedule.

Example C24_nonvacuous :
  exp_schedule (1 # 2) (10 # 1) (Some 3%nat) (fun _ => 100%Z) 2%nat = Some (exp_item (1#2) (10#1) (fun _ => 100%Z) 2%nat) /\
  Qeq_bool (exp_item (1 # 2) (10 # 1) (fun _ => 100%Z) 2%nat) (2 # 1) = true /\
  exp_schedule (1 # 2) (10 # 1) (Some 3%nat) (fun _ => 100%Z) 3%nat = None /\
  constant_schedule (5 # 1) (Some 0%nat) 0%nat = None.
Proof. repeat split; reflexivity. Qed.
