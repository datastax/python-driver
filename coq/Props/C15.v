(* C15 -- requests with a timeout finish in bounded time (cassandra/cluster.py, ResponseFuture: _start_timer, _cancel_timer,
   _on_timeout incl. its 3 x 10 ms reschedule, _on_speculative_execute, start_fetching_next_page).
   Model: Model/FutureOnce.v with a virtual clock (ms); tied to the source by correspondence (checks/C15.py).
   pf = true is the code in which start_fetching_next_page cancels/clears the old timer and resets _start_time. *)
From Coq Require Import ZArith List Bool Lia.
From Verif Require Import FutureState FutureOnce C15_proofs.
Import ListNotations.
Local Open Scope Z_scope.

(* Fairness hypothesis, explicit: `punctual` histories never move the clock past the due time of a live (not cancelled, not
   fired) timer -- i.e. the reactor fires every due timer before time goes on.  Everything else is unconstrained: servers may
   stay silent, answer late, answer with any error, pools may fail, retries/speculative executions/page fetches may happen
   in any order.  Query plans are finite lists by construction.

   Statement: execute_async = __init__ ; send_request().  At every moment of every punctual history, if the current page
   fetch (the first or any later one, started at `pstart`) has no outcome yet, the clock is at most timeout + 3 x 10 ms past
   its start.  Hence an outcome (result or OperationTimedOut) exists by pstart + T + 30 at the latest. *)
Definition C15_statement (pf : bool) : Prop :=
  forall (c : config) (T : Z) (h : list op),
    c_timeout c = Some T -> 0 <= T ->
    let s0 := step true pf (init c) Send in
    punctual true pf s0 h ->
    let s := run true pf s0 h in
    final_set s = false -> now s <= pstart s + T + 30.

Theorem C15_bounded : C15_statement true.
Proof.
  intros c T h Hc HT s0 Hp s Hf. apply (CInv_bound T); [|exact Hf].
  apply CInv_run; [exact HT|apply CInv_start; assumption|exact Hp].
Qed.
Print Assumptions C15_bounded.

(* Without speculative executions nothing needs to be assumed about send_request(): it may come late (after the timeout
   timer already fired: the PYTHON-853 path, _on_timeout re-arming itself 3 x 10 ms while no connection is known) or never. *)
Theorem C15_bounded_without_speculation : forall (c : config) (T : Z) (h : list op),
  c_timeout c = Some T -> 0 <= T -> c_specs c = [] ->
  punctual true true (init c) h ->
  let s := run true true (init c) h in
  final_set s = false -> now s <= pstart s + T + 30.
Proof.
  intros c T h Hc HT Hs Hp s Hf. apply (CInv_bound T); [|exact Hf].
  apply CInv_run; [exact HT|apply CInv_init_nospec; assumption|exact Hp].
Qed.
Print Assumptions C15_bounded_without_speculation.

(* the hypothesis only orders events, it never stops the clock for good: whenever a tick of d is refused, some live timer is
   due strictly within d, and it can fire now or after an admissible shorter tick to its due time *)
Theorem C15_fairness_satisfiable : forall (s : state) (d : Z), 0 <= d ->
  punctual_tick s d
  \/ exists k t, nth_error (timers s) k = Some t /\ live t = true /\ due t < now s + d
                 /\ (due t <= now s \/ punctual_tick s (due t - now s)).
Proof. intros s d _. apply tick_or_fire. Qed.
Print Assumptions C15_fairness_satisfiable.

(* without the per-page timer reset (pf = false) later pages have no timeout at all *)
Definition w15_cfg := mkConfig [1; 2] (Some 500) [] [(1, POk); (2, POk)] 0.
Definition w15 := [AddCb; Resp 0 (RRows true); NextPage [1; 2]; Tick 5000].

Theorem C15_without_page_reset_refuted : ~ C15_statement false.
Proof.
  intros H. specialize (H w15_cfg 500 w15 eq_refl ltac:(lia)).
  assert (Hp : punctual true false (step true false (init w15_cfg) Send) w15) by (apply punctualb_sound; vm_compute; reflexivity).
  specialize (H Hp). vm_compute in H. specialize (H eq_refl). apply H. reflexivity.
Qed.
Print Assumptions C15_without_page_reset_refuted.

(* non-vacuity: silent servers over two pages; the second page times out exactly `timeout` after its own start *)
Example C15_nonvacuous :
  let s0 := step true true (init w15_cfg) Send in
  let h := [AddCb; Resp 0 (RRows true); Tick 2000; NextPage [1; 2]; Tick 500; Fire 1; Result] in
  let s := run true true s0 h in
  punctual true true s0 h /\ pstart s = 2000 /\ now s = 2500 /\ fexc s = Some 1 /\ pairs s = [mkPair [] [1]] /\ results s = [(1, 1)].
Proof. split; [apply punctualb_sound|]; vm_compute; repeat split. Qed.

(* the bound T + 30 is attained: no host can be reached before the timeout, the handler re-arms itself three times *)
Example C15_bound_tight :
  let c := mkConfig [1] (Some 5) [] [(1, PNoConn)] 0 in
  let h := [Tick 5; Fire 0; Tick 10; Fire 1; Tick 10; Fire 2; Tick 9] in
  final_set (run true true (init c) h) = false /\ now (run true true (init c) h) = 34
  /\ fexc (run true true (init c) (h ++ [Tick 1; Fire 3])) = Some 1.
Proof. vm_compute. repeat split. Qed.
