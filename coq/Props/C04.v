(* C04 -- response frames decode to exactly what the server sent.  Spec side: Model/ResponseSpec.v, transcribed from the
   protocol specification; driver side: Model/Response.v, tied to cassandra/protocol.py by correspondence (checks/C04.py). *)
From Coq Require Import ZArith List Bool String Ascii.
From Verif Require Import Response ResponseSpec C04_proofs C04_cache_proofs.
Import ListNotations.
Local Open Scope Z_scope.

(* The statement at full strength: every response that is well-formed under the protocol specification, at every
   protocol version, with any tracing id / warnings / custom payload, decodes to exactly its contents. *)
Definition C04_full_statement : Prop :=
  forall pv rm stream r, wf_spec pv rm r = true ->
    decode_message pv rm stream (spec_flags r) (spec_opcode r) (spec_body pv r) = Some (exact pv rm stream r).

(* It fails on this driver, in three ways (witnesses are replayed on the implementation by checks/C04.py). *)
Definition gap_auth_success : response := mkresp None None None (RAuthSuccess (Some [255])).
Definition gap_cas_write_unknown : response := mkresp None None None (RError (ErrCasWriteUnknown 8 1 2) (zs "cas")).
Definition gap_contentions : response := mkresp None None None (RError (ErrWriteTimeout 8 1 2 5 (Some 3)) (zs "to")).

(* (1) an AUTH_SUCCESS token that is not UTF-8 text is not delivered at all (UnicodeDecodeError) *)
Theorem C04_auth_success_binary_refuted :
  wf_spec 4 None gap_auth_success = true /\
  decode_message 4 None 0 (spec_flags gap_auth_success) (spec_opcode gap_auth_success) (spec_body 4 gap_auth_success) = None.
Proof. split; vm_compute; reflexivity. Qed.
Print Assumptions C04_auth_success_binary_refuted.

(* (2) CAS_WRITE_UNKNOWN (0x1700, v5) loses <cl><received><blockfor> *)
Theorem C04_cas_write_unknown_refuted :
  wf_spec 5 None gap_cas_write_unknown = true /\
  decode_message 5 None 0 (spec_flags gap_cas_write_unknown) (spec_opcode gap_cas_write_unknown) (spec_body 5 gap_cas_write_unknown)
  = Some (mkmsg 0 None None None (BError CErrorMessage 5888 (zs "cas") EiNone)) /\
  exact 5 None 0 gap_cas_write_unknown = mkmsg 0 None None None (BError CErrorMessage 5888 (zs "cas") (EiCasWriteUnknown 8 1 2)).
Proof. repeat split; vm_compute; reflexivity. Qed.
Print Assumptions C04_cas_write_unknown_refuted.

(* (3) the <contentions> count of a v5 CAS Write_timeout is dropped *)
Theorem C04_contentions_refuted :
  wf_spec 5 None gap_contentions = true /\
  decode_message 5 None 0 (spec_flags gap_contentions) (spec_opcode gap_contentions) (spec_body 5 gap_contentions)
  = Some (mkmsg 0 None None None (BError CWriteTimeout 4352 (zs "to") (EiWriteTimeout 8 1 2 5 None))) /\
  exact 5 None 0 gap_contentions = mkmsg 0 None None None (BError CWriteTimeout 4352 (zs "to") (EiWriteTimeout 8 1 2 5 (Some 3))).
Proof. repeat split; vm_compute; reflexivity. Qed.
Print Assumptions C04_contentions_refuted.

Theorem C04_full_refuted : ~ C04_full_statement.
Proof.
  intros H. specialize (H 4 None 0 gap_auth_success (proj1 C04_auth_success_binary_refuted)).
  rewrite (proj2 C04_auth_success_binary_refuted) in H. discriminate H.
Qed.
Print Assumptions C04_full_refuted.

(* The partial statement: outside exactly those three classes (driver_gap r = false, part of wf_response) every
   well-formed response -- RESULT void / rows / set_keyspace / prepared / schema_change with every metadata flag
   combination, every ERROR code, EVENT, SUPPORTED, READY, AUTHENTICATE, AUTH_CHALLENGE, AUTH_SUCCESS, with or without
   tracing id, warnings, custom payload, at every protocol version, of any size -- decodes to exactly its contents. *)
Theorem C04_decode : forall pv rm stream r,
  wf_response pv rm r = true ->
  decode_message pv rm stream (spec_flags r) (spec_opcode r) (spec_body pv r) = Some (exact pv rm stream r).
Proof.
  intros pv rm stream r W. unfold wf_response in W. apply andb_prop in W. destruct W as [W G].
  apply negb_true_iff, (delivered_exact pv rm) in G. rewrite (decode_delivers _ _ _ _ W), G. reflexivity.
Qed.
Print Assumptions C04_decode.

Theorem C04_partial : forall pv rm stream r,
  wf_spec pv rm r = true -> driver_gap r = false ->
  decode_message pv rm stream (spec_flags r) (spec_opcode r) (spec_body pv r) = Some (exact pv rm stream r).
Proof. intros pv rm stream r W G. apply C04_decode. unfold wf_response. rewrite W, G. reflexivity. Qed.
Print Assumptions C04_partial.

(* the hypothesis of C04_partial excludes exactly the failing class: a spec-well-formed response decodes to its exact
   contents if and only if it is outside driver_gap *)
Theorem C04_gap_exact : forall pv rm stream r,
  wf_spec pv rm r = true ->
  (decode_message pv rm stream (spec_flags r) (spec_opcode r) (spec_body pv r) = Some (exact pv rm stream r)
   <-> driver_gap r = false).
Proof.
  intros pv rm stream r W. rewrite (decode_delivers _ _ _ _ W), <- (delivered_exact pv rm). unfold exact.
  destruct (delivered pv rm (rs_body r)); cbn [option_map]; split; intros E; try discriminate E; injection E as ->; reflexivity.
Qed.
Print Assumptions C04_gap_exact.

(* server errors surface as the documented exception types with their fields intact *)
Theorem C04_exceptions : forall pv rm stream r e m,
  wf_response pv rm r = true -> rs_body r = RError e m ->
  exists d, decode_message pv rm stream (spec_flags r) (spec_opcode r) (spec_body pv r) = Some d
            /\ to_exception (m_body d) = Some (documented_exception e m).
Proof.
  intros pv rm stream r e m W B. exists (exact pv rm stream r). split; [apply C04_decode; exact W|].
  unfold wf_response in W. apply andb_prop in W. exact (response_exception pv rm r e m (proj1 W) B).
Qed.
Print Assumptions C04_exceptions.

(* State that outlives a frame: the process-global UDT class cache (UserType._cache) behind read_type.
   decode_message_st is one decode_message call in a process whose cache is c; decode_history a sequence of them. *)

(* whatever earlier frames left in the cache, a well-formed frame decodes to exactly its own contents *)
Theorem C04_cache_independent : forall c pv rm stream r,
  wf_response pv rm r = true ->
  fst (decode_message_st true c pv rm stream (spec_flags r) (spec_opcode r) (spec_body pv r)) = Some (exact pv rm stream r).
Proof. intros c pv rm stream r W. rewrite decode_st_any. exact (C04_decode pv rm stream r W). Qed.
Print Assumptions C04_cache_independent.

(* every history (any length, any initial cache) of well-formed frames: each one decodes to exactly what it carries *)
Theorem C04_history : forall (h : list (Z * option (list colspec) * Z * response)) c,
  Forall (fun x => let '(pv, rm, stream, r) := x in wf_response pv rm r = true) h ->
  decode_history true c (map (fun x => let '(pv, rm, stream, r) := x in frame_of pv rm stream r) h)
  = map (fun x => let '(pv, rm, stream, r) := x in Some (exact pv rm stream r)) h.
Proof.
  intros h c F. rewrite history_any, map_map. apply map_ext_in. intros [[[pv rm] stream] r] Hin.
  rewrite Forall_forall in F. exact (C04_decode pv rm stream r (F _ Hin)).
Qed.
Print Assumptions C04_history.

(* the `instance.subtypes != field_types` test of make_udt_class is necessary: without it (check_subtypes = false) a
   type re-created with the same field names and other field types is decoded with the stale class *)
Definition udt_rows (ft : Z) : response :=
  mkresp None None None
    (RResult (ResRows (mkrmeta None None (McSome (ColsGlobal (zs "ks") (zs "t") [(zs "c", TUdt (zs "ks") (zs "u") [(zs "f", TPrim ft)])])))
                      [[Some [0;0;0;4;0;0;0;1]]])).
Theorem C04_stale_udt_class_refuted :
  wf_response 4 None (udt_rows 9) = true /\ wf_response 4 None (udt_rows 13) = true /\
  nth_error (decode_history false [] [frame_of 4 None 0 (udt_rows 9); frame_of 4 None 1 (udt_rows 13)]) 1%nat
  <> Some (Some (exact 4 None 1 (udt_rows 13))) /\
  nth_error (decode_history true [] [frame_of 4 None 0 (udt_rows 9); frame_of 4 None 1 (udt_rows 13)]) 1%nat
  = Some (Some (exact 4 None 1 (udt_rows 13))).
Proof. split; [vm_compute; reflexivity|]. split; [vm_compute; reflexivity|]. split; [vm_compute; discriminate|vm_compute; reflexivity]. Qed.
Print Assumptions C04_stale_udt_class_refuted.

(* a non-trivial response satisfies the hypotheses: traced, with a warning and a payload (one null value), paged rows
   under a global table spec with nested map / tuple / UDT / list column types, a null cell and an empty cell *)
Definition sample : response :=
  mkresp (Some [1;2;3;4;5;6;7;8;9;10;11;12;13;14;15;16]) (Some [zs "warn"]) (Some [(zs "k", Some [1;2]); (zs "j", None)])
    (RResult (ResRows (mkrmeta (Some [9;9]) None
                (McSome (ColsGlobal (zs "ks") (zs "t")
                   [(zs "a", TPrim 9);
                    (zs "b", TMap (TPrim 13) (TTuple [TPrim 3; TUdt (zs "ks") (zs "u") [(zs "f", TList (TPrim 2))]]))])))
              [[Some [0;0;0;1]; None]; [Some []; Some [7]]])).

Example C04_nonvacuous :
  wf_response 4 None sample = true /\ spec_flags sample = 14 /\
  exists d, decode_message 4 None 7 (spec_flags sample) (spec_opcode sample) (spec_body 4 sample) = Some d
            /\ m_warnings d = Some [zs "warn"]
            /\ match m_body d with BResult r => r_rows r = Some [[Some [0;0;0;1]; None]; [Some []; Some [7]]] | _ => False end.
Proof. split; [vm_compute; reflexivity|]. split; [reflexivity|]. eexists. split; [vm_compute; reflexivity|]. split; reflexivity. Qed.

Example C04_nonvacuous_error :
  wf_response 5 None (mkresp None None None (RError (ErrReadFailure 6 1 2 (FMap [([10;0;0;1], 3)]) 1) (zs "boom"))) = true.
Proof. vm_compute. reflexivity. Qed.
