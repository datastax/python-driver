(* C35 -- cqlengine persists exactly the model state (PARTIAL).
   Proved here: the mathematical core -- the diffs statements.py computes for container columns and counters are correct under
   Cassandra's semantics (CqlSem.v), for ALL lists / sets / integers.  The lifting over operation sequences (C35_persist) and the
   map diff are NOT proved; they are checked on bounded histories by executing the emitted CQL with CqlSem (checks/C35.py). *)
From Coq Require Import ZArith List Bool.
From Verif Require Import Clauses CqlSem Mapper C35_proofs.
Import ListNotations.
Local Open Scope Z_scope.

(* ListUpdateClause._analyze (sub-list search for prepend/append): applying the emitted operations to the previous list gives the new one *)
Theorem C35_list_diff : forall f vl prev,
  apply_assigns (clause_assigns (CListUpd f (Some vl) None prev)) (norm (olistv prev)) = norm (VList vl).
Proof. exact list_clause_ok. Qed.
Print Assumptions C35_list_diff.

(* SetUpdateClause._analyze: additions then removals applied to the previous set give exactly the new set (as sets) *)
Theorem C35_set_diff : forall f vl prev x,
  In x (as_set (apply_assigns (clause_assigns (CSetUpd f (Some vl) None prev)) (norm (osetv prev)))) <-> In x vl.
Proof. exact set_clause_ok. Qed.
Print Assumptions C35_set_diff.

(* CounterUpdateClause: previous + signed |delta| = value *)
Theorem C35_counter : forall f v prev,
  apply_assigns (clause_assigns (CCounter f v prev)) (VInt (counter_prev prev)) = VInt v.
Proof. exact counter_clause_ok. Qed.
Print Assumptions C35_counter.

(* Model._set_persisted snapshots by VALUE (deepcopy; values of the model are immutable terms): right after persisting no column
   counts as changed *)
Theorem C35_persisted_unchanged : forall cols c, In c (set_persisted cols) -> vm_changed c = false.
Proof.
  intros cols c H. unfold set_persisted in H. apply in_map_iff in H. destruct H as (c0 & <- & _).
  destruct (vm_changed c0) eqn:E; [apply vm_changed_same; reflexivity|].
  destruct (vm_deleted c0); [apply vm_changed_same; reflexivity|exact E].
Qed.
Print Assumptions C35_persisted_unchanged.

(* DMLQuery.update drops the clustering key from WHERE only if EVERY assigned column is static (not: the last one) *)
Theorem C35_update_key_choice : forall cols sets key,
  In (CUpdate sets key) (dml_update cols) ->
  let upd := filter (fun c => negb (c_pkey c) && negb (val_eqb (c_val c) VNone) &&
                              (vm_changed c || match c_kind c with KCounterC => true | _ => false end)) cols in
  key = key_kvs cols (forallb c_static upd) /\
  ((exists c, In c upd /\ c_static c = false) -> key = key_kvs cols false).
Proof.
  intros cols sets key H upd. assert (E : key = key_kvs cols (forallb c_static upd)).
  { unfold dml_update in H. fold upd in H. apply in_app_or in H. destruct H as [H|H].
    - destruct (flat_map _ upd); [destruct H|]. destruct H as [[= _ <-]|[]]. reflexivity.
    - exfalso. unfold delete_null_columns in H. destruct (existsb _ cols); [destruct H as [H|[]]; discriminate|destruct H]. }
  split; [exact E|].
  intros (c & Hc & Hs). rewrite E. f_equal. apply not_true_is_false. intro F.
  rewrite forallb_forall in F. rewrite (F c Hc) in Hs. discriminate.
Qed.
Print Assumptions C35_update_key_choice.

(* the sub-list window test of ListUpdateClause._analyze (two endpoint shortcuts + full comparison) accepts exactly the windows equal to
   the stored list: a window that only agrees at its first and last element is never taken for the stored list *)
Theorem C35_list_window : forall pl sub, pl <> [] -> window_match pl sub = zlist_eqb pl sub.
Proof.
  intros pl sub Hne. unfold window_match. destruct (zlist_eqb pl sub) eqn:E; [|apply andb_false_r].
  apply zlist_eqb_eq in E. subst sub. rewrite oz_eq_refl_hd by auto. rewrite oz_eq_refl_hd; auto.
  intro R. apply Hne. rewrite <- (rev_involutive pl). rewrite R. auto.
Qed.
Print Assumptions C35_list_window.

(* BatchQuery: over ANY sequence of add_query / execute (explicit, repeated, or via the context manager), the batches sent plus what is
   still queued are exactly the statements added, in order, each once -- a batch object executed twice re-sends nothing *)
Theorem C35_batch_once : forall ops, concat (snd (bq_run ops)) ++ fst (bq_run ops) = bq_added ops.
Proof. intros ops. unfold bq_run. rewrite bq_fold. reflexivity. Qed.
Print Assumptions C35_batch_once.

Definition kcol (f : name) (part : bool) (v : Z) : colst :=
  {| c_name := f; c_kind := KScalar; c_part := part; c_clust := negb part; c_static := false; c_val := VInt v; c_prev := VInt v; c_expl := false |}.
Definition xcol (v p : val) (e : bool) : colst :=
  {| c_name := 3; c_kind := KScalar; c_part := false; c_clust := false; c_static := false; c_val := v; c_prev := p; c_expl := e |}.
Definition sc35 : schema := {| pk_col := 0; ck_col := Some 1; static_cols := [2] |}.

(* the statement one would like: after  x = 5 persisted; del x; update(); x = 5; update()  the row stores x = 5 *)
Definition C35_full_statement : Prop :=
  let s0 := [kcol 0 true 1; kcol 1 false 2; xcol (VInt 5) VNone true] in
  let st1 := dml_insert s0 in let s1 := set_persisted (insert_mark s0) in
  let s2 := [kcol 0 true 1; kcol 1 false 2; xcol VNone (VInt 5) false] in          (* del inst.x *)
  let st2 := dml_update s2 in let s3 := set_persisted s2 in
  let s4 := [kcol 0 true 1; kcol 1 false 2; xcol (VInt 5) VNone true] in            (* inst.x = 5 *)
  let st3 := dml_update s4 in
  s1 = [kcol 0 true 1; kcol 1 false 2; xcol (VInt 5) (VInt 5) false] /\ s3 = [kcol 0 true 1; kcol 1 false 2; xcol VNone VNone false] /\
  read_row sc35 (exec_all sc35 [] (st1 ++ st2 ++ st3)) 1 (Some 2) [3] = [(3, VInt 5)].

(* C35-3 (fixed in the driver): Model._set_persisted also resets the manager of a column it has just deleted, so that assigning the
   deleted value again is written; with the stale previous_value 5 (s3 = s2) the row would keep null. *)
Theorem C35_persist_del_then_set : C35_full_statement.
Proof. vm_compute. repeat split. Qed.
Print Assumptions C35_persist_del_then_set.

(* C35-4: blind removal of no keys / blind update with no entries is rendered as an assignment of the empty map *)
Theorem C35_blind_map_empty_refuted :
  apply_assigns (clause_assigns (CMapUpd 7 [] (Some MRemove) None)) (VMap [(1, 2)]) = VNone /\
  apply_assigns (clause_assigns (CMapUpd 7 [] (Some MUpdate) None)) (VMap [(1, 2)]) = VNone.
Proof. vm_compute. split; reflexivity. Qed.
Print Assumptions C35_blind_map_empty_refuted.

(* the same step with a non-empty operation does what the documentation says (the failing class is exactly the empty operation) *)
Theorem C35_blind_map_partial :
  apply_assigns (clause_assigns (CMapUpd 7 [(1, 0)] (Some MRemove) None)) (VMap [(1, 2); (3, 4)]) = VMap [(3, 4)] /\
  apply_assigns (clause_assigns (CMapUpd 7 [(5, 6)] (Some MUpdate) None)) (VMap [(1, 2)]) = VMap [(1, 2); (5, 6)].
Proof. vm_compute. split; reflexivity. Qed.
Print Assumptions C35_blind_map_partial.

Example C35_nonvacuous :
  clause_assigns (CListUpd 6 (Some [7; 1; 2; 9]) None (Some [1; 2])) = [APrepend 6 (VList [7]); APlus 6 (VList [9])] /\
  apply_assigns (clause_assigns (CListUpd 6 (Some [7; 1; 2; 9]) None (Some [1; 2]))) (VList [1; 2]) = VList [7; 1; 2; 9] /\
  clause_assigns (CSetUpd 5 (Some [2; 3]) None (Some [1; 2])) = [APlus 5 (VSet [3]); AMinus 5 (VSet [1])].
Proof. vm_compute. repeat split. Qed.
