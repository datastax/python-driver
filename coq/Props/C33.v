(* C33 -- SortedSet and OrderedMap behave as their mathematical models.
   Models: Model/SortedSet.v (generic over the element order), Model/OrderedMap.v (generic over the key
   serializer); both are tied to cassandra/util.py by correspondence on every run (checks/C33.py). *)
From Coq Require Import ZArith List Bool Arith Lia Sorted.
From Verif Require Import SortedSet OrderedMap C33_set_proofs C33_inst_proofs C33_map_proofs.
Import ListNotations.

(* Python's `<` / `==` on "a single comparable type": strict total order, == is equality of values *)
Definition total_order {A} (ltb eqb : A -> A -> bool) : Prop :=
  (forall x, ltb x x = false) /\
  (forall x y z, ltb x y = true -> ltb y z = true -> ltb x z = true) /\
  (forall x y, ltb x y = false -> ltb y x = false -> x = y) /\
  (forall x y, eqb x y = true <-> x = y).
(* what Python itself guarantees for a type that merely defines `<` without raising (e.g. nested sets) *)
Definition partial_order {A} (ltb eqb : A -> A -> bool) : Prop :=
  (forall x, ltb x x = false) /\
  (forall x y z, ltb x y = true -> ltb y z = true -> ltb x z = true) /\
  (forall x y, eqb x y = true <-> x = y).

(* the binary search loop always terminates within its fuel, on ANY list and ANY comparison *)
Theorem C33_find_insertion_terminates : forall A (ltb : A -> A -> bool) a x,
  exists i, find_insertion A ltb a x = Some i /\ i <= length a.
Proof.
  intros A ltb a x. destruct (find_loop_spec A ltb (S (length a)) a x 0 (length a)) as (i & Hi & Hb & _); try lia.
  exists i. split; [exact Hi|lia].
Qed.
Print Assumptions C33_find_insertion_terminates.

(* on sorted input it returns the first index i with not (a[i] < x) *)
Theorem C33_find_insertion_first : forall A (ltb eqb : A -> A -> bool), total_order ltb eqb ->
  forall a x, Inv A ltb a ->
  exists i, find_insertion A ltb a x = Some i /\ i <= length a /\
    (forall j v, j < i -> nth_error a j = Some v -> ltb v x = true) /\
    (forall j v, i <= j -> nth_error a j = Some v -> ltb v x = false).
Proof. intros A ltb eqb (Hirrefl & Htrans & Htotal & Heqb) a x HI. apply (find_insertion_spec A ltb Htrans); assumption. Qed.
Print Assumptions C33_find_insertion_first.

(* THE refinement theorem: from the empty set (or any sorted state), after ANY sequence of operations, every
   intermediate state is strictly sorted and every state change / result is the one of a mathematical set
   (spec, stated with membership only) *)
Theorem C33_sortedset_partial : forall A (ltb eqb : A -> A -> bool), total_order ltb eqb ->
  forall ops s, Inv A ltb s -> Forall (op_ok A) ops -> run_ok A ltb eqb s ops.
Proof. intros A ltb eqb (Hirrefl & Htrans & Htotal & Heqb) ops s HI Hok. apply run_ok_all; assumption. Qed.
Print Assumptions C33_sortedset_partial.

(* the set and a copy of it (copy(), or intersection()/difference()/union() without arguments): after ANY sequence of
   operations on either of them both stay strictly sorted, the operated one follows `spec`, and the OTHER ONE IS UNCHANGED
   (a copy is an independent set with the same members) *)
Theorem C33_sortedset_copy_independent : forall A (ltb eqb : A -> A -> bool), total_order ltb eqb ->
  forall ops st, Inv A ltb (fst st) -> Inv A ltb (snd st) -> Forall (op2_ok A) ops -> run2_ok A ltb eqb st ops.
Proof. intros A ltb eqb (Hirrefl & Htrans & Htotal & Heqb) ops st Hs Hc Hok. apply run2_ok_all; assumption. Qed.
Print Assumptions C33_sortedset_copy_independent.

Theorem C33_sortedset_ne_is_not_eq : forall A (ltb eqb : A -> A -> bool) s o,
  set_ne A ltb eqb s o = negb (set_eq A ltb eqb s o).
Proof. intros. apply set_ne_negb. Qed.
Print Assumptions C33_sortedset_ne_is_not_eq.

Theorem C33_sortedset_invariant : forall A (ltb eqb : A -> A -> bool), total_order ltb eqb ->
  forall ops, Forall (op_ok A) ops ->
  StronglySorted (fun x y => ltb x y = true) (SortedSet.final A ltb eqb [] ops) /\ NoDup (SortedSet.final A ltb eqb [] ops).
Proof.
  intros A ltb eqb (Hirrefl & Htrans & Htotal & Heqb) ops Hok.
  assert (Inv A ltb (SortedSet.final A ltb eqb [] ops)) as HI by (apply final_inv; try assumption; constructor).
  split; [exact HI|]. apply (Inv_NoDup A ltb Hirrefl). exact HI.
Qed.
Print Assumptions C33_sortedset_invariant.

(* the abstraction (the set of members) determines the representation: two sorted states with the same members
   are the same list, so `spec` pins down every state exactly *)
Theorem C33_sortedset_canonical : forall A (ltb eqb : A -> A -> bool), total_order ltb eqb ->
  forall s t, Inv A ltb s -> Inv A ltb t -> (forall y, In y s <-> In y t) -> s = t.
Proof. intros A ltb eqb (Hirrefl & Htrans & Htotal & Heqb). apply (sorted_ext A ltb Hirrefl Htrans). Qed.
Print Assumptions C33_sortedset_canonical.

Theorem C33_iteration_ascending : forall A (ltb eqb : A -> A -> bool), total_order ltb eqb ->
  forall ops, Forall (op_ok A) ops -> forall i j u v, i < j ->
  nth_error (SortedSet.final A ltb eqb [] ops) i = Some u -> nth_error (SortedSet.final A ltb eqb [] ops) j = Some v -> ltb u v = true.
Proof.
  intros A ltb eqb (Hirrefl & Htrans & Htotal & Heqb) ops Hok. apply iteration_ascending. apply final_inv; try assumption. constructor.
Qed.
Print Assumptions C33_iteration_ascending.

(* ints and tuples/lists of ints (the instances the correspondence runs) are total orders *)
Theorem C33_sortedset_ints : forall ops, Forall (op_ok Z) ops -> run_ok Z z_ltb z_eqb [] ops.
Proof.
  intros ops H. apply C33_sortedset_partial; [|constructor|exact H].
  repeat split; [apply z_ltb_irrefl|apply z_ltb_trans|apply z_ltb_total|apply z_eqb_spec|apply z_eqb_spec].
Qed.
Print Assumptions C33_sortedset_ints.

Theorem C33_sortedset_tuples : forall ops, Forall (op_ok (list Z)) ops -> run_ok (list Z) lz_ltb lz_eqb [] ops.
Proof.
  intros ops H. apply C33_sortedset_partial; [|constructor|exact H].
  repeat split; [apply lz_ltb_irrefl|apply lz_ltb_trans|apply lz_ltb_total|apply lz_eqb_spec|apply lz_eqb_spec].
Qed.
Print Assumptions C33_sortedset_tuples.

(* FULL statement: the same for every element type whose `<` merely is a strict (partial) order -- which is all a
   Python type with `<` provides; nested sets (frozenset, SortedSet itself: `<` is proper subset) are such types *)
Definition C33_full_statement : Prop :=
  forall A (ltb eqb : A -> A -> bool), partial_order ltb eqb ->
  forall ops, Forall (op_ok A) ops -> run_ok A ltb eqb [] ops.

Theorem C33_sortedset_refuted : ~ C33_full_statement.
Proof.
  intro H. apply bm_run_not_ok. apply H.
  - repeat split; [apply bm_ltb_irrefl|apply bm_ltb_trans|apply bm_eqb_spec|apply bm_eqb_spec].
  - repeat constructor.
Qed.
Print Assumptions C33_sortedset_refuted.

(* for ANY key serializer and ANY operation sequence (each _insert_unchecked used as the deserializers use it:
   with the key's own serialization, key not present): the index/items invariant holds after every step and
   items + every result equal those of the insertion-ordered association list keyed by `serialize k` *)
Theorem C33_orderedmap_refines : forall K V (serialize : K -> list Z) key_eqb val_eqb ops,
  run_refines K V serialize key_eqb val_eqb (empty K V) ops.
Proof. intros. apply run_refines_all. apply wf_empty. Qed.
Print Assumptions C33_orderedmap_refines.

(* the association list is a mapping on serialized keys: lookup after insert *)
Theorem C33_orderedmap_lookup_insert : forall K V (serialize : K -> list Z) l k v fk,
  NoDup (keys_of K V serialize l) ->
  a_lookup K V serialize (a_insert K V serialize l k v) fk =
  if bytes_eqb (serialize k) fk then Some v else a_lookup K V serialize l fk.
Proof. intros. apply lookup_insert. Qed.
Print Assumptions C33_orderedmap_lookup_insert.

(* insertion order: a new key goes to the end, an existing key keeps its position *)
Theorem C33_orderedmap_insertion_order : forall K V (serialize : K -> list Z) l k v,
  (find_pos (serialize k) (keys_of K V serialize l) = None -> a_insert K V serialize l k v = l ++ [(k, v)]) /\
  (forall i, find_pos (serialize k) (keys_of K V serialize l) = Some i ->
     keys_of K V serialize (a_insert K V serialize l k v) = keys_of K V serialize l /\
     nth_error (a_insert K V serialize l k v) i = Some (k, v)).
Proof. intros. split; [apply a_insert_new|apply a_insert_keys_present]. Qed.
Print Assumptions C33_orderedmap_insertion_order.

Local Open Scope Z_scope.
Example C33_nonvacuous_set :
  map snd (SortedSet.run Z z_ltb z_eqb [] [OAdd 5; OAdd 2; OAdd 9; OAdd 5; OContains 2; ORemove 5; OPop; OIter;
                                  OUnion [SSet [7; 1]; PSet [2; 3]]; OIsSubset (PSet [2; 4])]) =
  [RNone; RNone; RNone; RNone; RBool true; RNone; RElem 9; RItems [2]; RItems [1; 2; 3; 7]; RBool true].
Proof. reflexivity. Qed.

Example C33_nonvacuous_copy :
  map (fun x => fst x) (run2 Z z_ltb z_eqb ([], []) [OMain (OUpdate [3; 1]); OCopy ByCopy; OOnCopy (OAdd 2); OMain (ORemove 3);
                                                      OMain (ONe (PSet [1; 2]))]) =
  [([1; 3], []); ([1; 3], [1; 3]); ([1; 3], [1; 2; 3]); ([1], [1; 2; 3]); ([1], [1; 2; 3])].
Proof. reflexivity. Qed.

Example C33_nonvacuous_map :
  map snd (OrderedMap.run (Z * list Z) Z kz_serialize kz_eqb Z.eqb (empty _ _)
             [MInsert (1, [1]) 10; MInsert (2, [0]) 20; MInsert (3, [1]) 30; MKeys; MGet (1, [1]); MDel (2, [0]); MItems; MPopItem; MLen]) =
  [XNone; XNone; XNone; XKeys [(3, [1]); (2, [0])]; XVal 30; XNone; XItems [((3, [1]), 30)]; XItem ((3, [1]), 30); XLen 0%nat].
Proof. reflexivity. Qed.
