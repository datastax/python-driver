(* C05 -- incoming frames are reassembled exactly under any TCP chunking (model: Model/Stream.v). *)
From Coq Require Import ZArith List Bool.
From Verif Require Import Stream C05_proofs.
Import ListNotations.
Local Open Scope Z_scope.

(* However the byte stream is split into reads, the deliveries and the final state are those of one read of the whole stream. *)
Theorem C05_chunking : forall chunks : list (list Z), run_feed init chunks = feed init (concat chunks).
Proof. intros. apply chunking. exact init_stable. Qed.
Print Assumptions C05_chunking.

(* ... from every state the connection can be in between two reads. *)
Theorem C05_chunking_from : forall st c0 chunks, run_feed (fst (feed st c0)) chunks = feed (fst (feed st c0)) (concat chunks).
Proof. intros. apply chunking. apply feed_stable. Qed.
Print Assumptions C05_chunking_from.

(* Any list of well-formed frames (v1-v2 8-byte / v3+ 9-byte headers, any stream ids, empty bodies allowed) followed by an
   incomplete tail, split into reads in any way: exactly those frames, in order, with their exact bodies; the tail stays buffered. *)
Theorem C05_exact : forall (frames : list frame) (tail : list Z) (chunks : list (list Z)),
  Forall wf frames -> parse1 tail = NeedMore ->
  concat chunks = concat (map enc frames) ++ tail ->
  run_feed init chunks = (Live tail, map deliver frames).
Proof.
  intros frames tail chunks Hwf Ht Hc. rewrite C05_chunking, Hc. simpl. apply parse_all_frames; assumption.
Qed.
Print Assumptions C05_exact.

(* Never a partial frame: every delivered body has exactly the length announced in its header ... *)
Theorem C05_no_partial : forall st chunk st' evs h body,
  feed st chunk = (st', evs) -> In (Deliver h body) evs -> blen body = h_len h /\ 0 <= h_len h.
Proof.
  intros st chunk st' evs h body H Hin. apply (feed_whole_bodies st chunk). rewrite H. exact Hin.
Qed.
Print Assumptions C05_no_partial.

(* ... and what was delivered for a prefix of the stream is a prefix of what is delivered for the whole stream. *)
Theorem C05_prefix_monotone : forall st p q, exists evs', snd (feed st (p ++ q)) = snd (feed st p) ++ evs'.
Proof.
  intros. rewrite feed_app. eexists. reflexivity.
Qed.
Print Assumptions C05_prefix_monotone.

(* Routing: a handler only ever gets a frame carrying its own (non-negative) stream id; watchers only negative ids. *)
Theorem C05_routing_sound : forall evs reqs,
  (forall id h b, In (ToHandler id h b) (route reqs evs) -> id = h_stream h /\ 0 <= id /\ In (Deliver h b) evs) /\
  (forall h b, In (ToWatchers h b) (route reqs evs) -> h_stream h < 0 /\ In (Deliver h b) evs).
Proof. intros evs reqs. split; intros *; exact (route_sound evs reqs _). Qed.
Print Assumptions C05_routing_sound.

(* End to end: frames whose non-negative stream ids are distinct and registered, under any chunking: every frame reaches
   the handler registered for its stream id exactly once, in order, and pushed events (negative ids) reach the watchers. *)
Theorem C05_routing : forall (frames : list frame) (tail : list Z) (chunks : list (list Z)) (reqs : list Z),
  Forall wf frames -> parse1 tail = NeedMore ->
  concat chunks = concat (map enc frames) ++ tail ->
  NoDup (nonneg_ids frames) -> (forall i, In i (nonneg_ids frames) -> In i reqs) ->
  route reqs (snd (run_feed init chunks)) = map routed_as frames.
Proof.
  intros. rewrite (C05_exact frames tail chunks) by assumption. simpl. apply route_frames; assumption.
Qed.
Print Assumptions C05_routing.

(* Pushed events reach EVERY watcher registered for the event type, exactly once each, whichever of them raise; nothing escapes. *)
Theorem C05_watchers_all_called : forall ws : list watcher, handle_pushed ws = (map fst ws, Returned).
Proof.
  induction ws as [|w ws IH]; [reflexivity|]. simpl. rewrite IH. destruct (call_watcher w); reflexivity.
Qed.
Print Assumptions C05_watchers_all_called.

(* The hypotheses are satisfiable by a non-trivial input: a v2 frame (8-byte header, stream -1, pushed event), a v4 frame
   (9-byte header, stream 300, empty body), a v3 request frame (stream 5), then a partial header; fed one byte at a time. *)
Definition ex_frames : list frame :=
  [(128, mkH 2 0 (-1) 12 3, [7; 8; 9]); (128, mkH 4 1 300 8 0, []); (0, mkH 3 0 5 8 2, [1; 2])].
Definition ex_tail : list Z := [132; 0; 0].
Example C05_nonvacuous :
  Forall wf ex_frames /\ parse1 ex_tail = NeedMore /\
  let stream := concat (map enc ex_frames) ++ ex_tail in
  run_feed init (map (fun b => [b]) stream) = (Live ex_tail, map deliver ex_frames) /\
  route [300; 5] (snd (run_feed init (map (fun b => [b]) stream))) = map routed_as ex_frames /\
  snd (feed init [135; 0; 0]) = [Defunct R_VERSION] /\
  fst (handle_pushed [(1, true); (2, false); (3, true)]) = [1; 2; 3].
Proof.
  split; [|split; [reflexivity|vm_compute; repeat split; reflexivity]].
  repeat constructor; vm_compute; intuition discriminate.
Qed.
