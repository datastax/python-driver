(* C09 -- multiplexed requests never receive another request's response.
   Model: Model/Conn.v (one op per lock region / unlocked statement group; granularity audited on the source by
   lib/vf/conn_audit.py).  `reach n m t ops` = the state after ANY op sequence `ops` of ANY length from the initial
   connection (n ids pre-allocated, max_request_id = m, orphan threshold t).
   `raced` is the model's flag for "a response overtook ResponseFuture._on_timeout between its unlocked pop and its
   locked orphan region (or the other way round)": that interleaving really breaks the statement (C09_full_refuted,
   finding C09-1) and is excluded by hypothesis in the partial theorems. *)
From Coq Require Import ZArith List Bool Lia.
From Verif Require Import Conn Conn_inv C09_proofs.
Import ListNotations.
Local Open Scope Z_scope.

(* free ids, outstanding requests, orphaned ids, paging-session streams and ids held by callers (borrowed, unsent /
   between two regions) are pairwise disjoint, without repetition, and all within 0..highest <= max_request_id *)
Theorem C09_unique_ids : forall n m t ops, 0 <= n -> n - 1 <= m ->
  let s := reach n m t ops in raced s = false ->
  NoDup (free s ++ keys (reqs s) ++ orphans s ++ keys (cps s) ++ keys (ghost s))
  /\ (forall x, In x (free s ++ keys (reqs s) ++ orphans s ++ keys (cps s) ++ keys (ghost s)) -> 0 <= x <= highest s)
  /\ highest s <= max_id s.
Proof.
  intros n m t ops A B s R. pose proof (reach_good n m t ops A B R) as G. destruct (good_enum s G) as [N M].
  exact (conj N (conj (fun x => proj1 (M x)) (proj2 (g_hi _ G)))).
Qed.
Print Assumptions C09_unique_ids.

(* every id 0..highest is somewhere: nothing is lost *)
Theorem C09_no_id_lost : forall n m t ops x, 0 <= n -> n - 1 <= m ->
  let s := reach n m t ops in raced s = false -> 0 <= x <= highest s ->
  In x (free s ++ keys (reqs s) ++ orphans s ++ keys (cps s) ++ keys (ghost s)).
Proof. intros n m t ops x A B s R. apply (good_enum s (reach_good n m t ops A B R)). Qed.
Print Assumptions C09_no_id_lost.

(* in_flight is exactly the number of ids in use that still carry a unit, plus the explicitly counted units *)
Theorem C09_in_flight_accounting : forall n m t ops, 0 <= n -> n - 1 <= m ->
  let s := reach n m t ops in raced s = false -> in_flight s = units s.
Proof. intros n m t ops A B s R. exact (g_units _ (reach_good n m t ops A B R)). Qed.
Print Assumptions C09_in_flight_accounting.

(* an id handed out by get_request_id is never beyond max_request_id, and is not in use by anybody else *)
Theorem C09_bound : forall n m t ops i s', 0 <= n -> n - 1 <= m ->
  let s := reach n m t ops in raced s = false -> get_id s = (Some i, s') ->
  0 <= i <= max_id s /\ ~ In i (keys (reqs s) ++ orphans s ++ keys (cps s) ++ keys (ghost s)).
Proof.
  intros n m t ops i s' A B s R. exact (good_get_id_some s i s' (reach_good n m t ops A B R)). Qed.
Print Assumptions C09_bound.

(* `assert new_request_id <= self.max_request_id` can only fire when all max_request_id+1 ids are in use *)
Theorem C09_assert_only_when_all_ids_in_use : forall n m t ops s', 0 <= n -> n - 1 <= m ->
  let s := reach n m t ops in raced s = false -> get_id s = (None, s') ->
  free s = [] /\ highest s = max_id s
  /\ (forall x, 0 <= x <= max_id s -> In x (keys (reqs s) ++ orphans s ++ keys (cps s) ++ keys (ghost s))).
Proof.
  intros n m t ops s' A B s R. exact (good_get_id_none s s' (reach_good n m t ops A B R)). Qed.
Print Assumptions C09_assert_only_when_all_ids_in_use.

(* once every sent request has been answered (nothing outstanding, orphaned, held, in delivery, no unit owed or leaked):
   in_flight = 0 and exactly the ids 0..highest are free again *)
Theorem C09_quiescent : forall n m t ops, 0 <= n -> n - 1 <= m ->
  let s := reach n m t ops in raced s = false ->
  reqs s = [] -> orphans s = [] -> ghost s = [] -> cps s = [] -> erroring s = [] -> cur s = None ->
  owed s = 0 -> ks_pending s = 0 -> leaked s = 0 -> spurious s = 0 ->
  in_flight s = 0 /\ NoDup (free s) /\ (forall x, In x (free s) <-> 0 <= x <= highest s).
Proof.
  intros n m t ops A B s R. exact (good_quiescent s (reach_good n m t ops A B R)). Qed.
Print Assumptions C09_quiescent.

(* the full statement (no exclusion of the timeout/response race) is false in the faithful model *)
Definition C09_full_statement : Prop := forall n m t ops, 0 <= n -> n - 1 <= m ->
  let s := reach n m t ops in NoDup (free s ++ keys (reqs s) ++ orphans s ++ keys (cps s) ++ keys (ghost s)).

(* Borrow, send on stream 0; _on_timeout pops the callback (no lock); the response arrives: not an orphan, not in
   _requests -> request_ids.append(0); _on_timeout now orphans 0: stream 0 is free AND orphaned, in_flight stays 1 *)
Definition C09_race_witness : list op :=
  [Borrow; SendCheck 0; SendReg 0 7; TimeoutPop 0 true; RecvBegin 0; RecvPop 0 DOk; TimeoutOrphan 0].

Theorem C09_full_refuted : ~ C09_full_statement.
Proof.
  intros F. specialize (F 1 3 2 C09_race_witness ltac:(lia) ltac:(lia)). vm_compute in F.
  inversion F as [|x l N _]. apply N. left. reflexivity.
Qed.
Print Assumptions C09_full_refuted.

Theorem C09_race_leaks_in_flight :
  let s := reach 1 3 2 C09_race_witness in reqs s = [] /\ wire s = [] /\ in_flight s = 1 /\ free s = [0] /\ orphans s = [0].
Proof. vm_compute. repeat split. Qed.
Print Assumptions C09_race_leaks_in_flight.

(* with paging sessions alive (their streams are in use but not counted by in_flight) the assert CAN fire *)
Theorem C09_assert_can_fire_with_paging_sessions :
  assert_failed (reach 2 2 2 [Borrow; SendCheck 0; SendReg 0 7; Borrow; SendCheck 1; SendReg 1 8;
                              RecvBegin 0; RecvPop 0 DOk; CpNew 9; ReturnConn; RecvEnd;
                              RecvBegin 1; RecvPop 1 DOk; CpNew 10; ReturnConn; RecvEnd; Borrow; Borrow]) = true.
Proof. vm_compute. reflexivity. Qed.
Print Assumptions C09_assert_can_fire_with_paging_sessions.

Example C09_nonvacuous :
  let s := reach 2 3 2 [Borrow; SendCheck 0; SendReg 0 7; Borrow; SendCheck 1; SendReg 1 8; Borrow; TimeoutPop 0 true;
                        TimeoutOrphan 0; RecvBegin 1; RecvPop 1 DOk; ReturnConn; RecvEnd] in
  raced s = false /\ free s = [1] /\ orphans s = [0] /\ keys (ghost s) = [2] /\ in_flight s = 2 /\ highest s = 2.
Proof. vm_compute. repeat split. Qed.
