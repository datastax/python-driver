(* C14 -- every request completes exactly once (cassandra/cluster.py, class ResponseFuture).
   Model: Model/FutureOnce.v (one op = one call into the real class; tied to the source by correspondence, checks/C14.py).
   `run g pf (init c) h` is the state after history h; g = true is the code WITH the first-wins guard in
   _set_final_result/_set_final_exception, g = false the code without it. *)
From Coq Require Import ZArith List Bool Lia.
From Verif Require Import FutureState FutureOnce C14_proofs FutureCbLock C14_own_proofs.
Import ListNotations.
Local Open Scope Z_scope.

(* The statement, for every configuration (plan, timeout, speculative delays, pools) and every history of
   sends, responses of every kind on any attempt, retry decisions, timer fires, executor runs, page fetches, callback
   registrations, pool changes and clock ticks, in any order and of any length:
   - every registered (callback, errback) pair was invoked at most once in total for the current page fetch -- so never
     twice and never both --, and result() reports exactly the value it was invoked with;
   - once every request sent has been answered or has failed (no retry is waiting in the executor, no pool still owes the
     report of its internal USE after a SET_KEYSPACE answer), or the timeout handler has run, the outcome exists and every registered pair has been invoked exactly once. *)
Definition C14_statement (g pf : bool) : Prop :=
  forall (c : config) (h : list op),
    let s := run g pf (init c) h in
    (forall p, In p (pairs s) ->
       (length (cbs p) + length (ebs p) <= 1)%nat
       /\ (forall v, In v (cbs p) -> result_call s = Some (0, v))
       /\ (forall e, In e (ebs p) -> result_call s = Some (1, e)))
    /\ (all_answered s = true \/ tfired s = true ->
        event s = true /\ final_set s = true
        /\ forall p, In p (pairs s) -> (length (cbs p) + length (ebs p) = 1)%nat).

(* with the guard the statement holds in full, whichever way start_fetching_next_page treats its timer *)
Theorem C14_exactly_once : forall pf, C14_statement true pf.
Proof. exact C14_guarded. Qed.
Print Assumptions C14_exactly_once.

(* the executable twin of the statement (c14_ok, Model/FutureOnce.v) holds wherever the statement does (c14_ok_complete):
   a state on which the twin is false violates the statement *)
Theorem C14_check_sound : forall pf c h, c14_ok (run true pf (init c) h) = true.
Proof. intros. apply c14_ok_complete, C14_guarded. Qed.
Print Assumptions C14_check_sound.

(* without the guard the statement fails: two witnesses, each replayed on the real class by checks/C14.py *)
Definition w_cfg := mkConfig [1; 2; 3] (Some 1000) [100] [(1, POk); (2, POk); (3, POk)] 0.
(* two speculative executions both answer: callbacks run twice *)
Definition w_spec := [AddCb; Send; Tick 100; Fire 0; Resp 0 (RRows false); Resp 1 (RRows false)].
(* the client timeout fires, then the first attempt answers: errback and callback both run *)
Definition w_late := [AddCb; Send; Tick 100; Fire 0; Tick 900; Fire 1; Resp 0 (RRows false)].
(* a configuration without speculative executions *)
Definition w_cfg1 := mkConfig [1; 2; 3] (Some 1000) [] [(1, POk); (2, POk); (3, POk)] 0.

Theorem C14_without_guard_refuted : forall pf, ~ C14_statement false pf.
Proof.
  intros pf H. destruct (H w_cfg w_spec) as (H1 & _).
  assert (Hin : In (mkPair [10; 11] []) (pairs (run false pf (init w_cfg) w_spec))) by (destruct pf; vm_compute; left; reflexivity).
  destruct (H1 _ Hin) as (Hle & _). cbn in Hle. lia.
Qed.
Print Assumptions C14_without_guard_refuted.

Example C14_witness_spec : pairs (run false true (init w_cfg) w_spec) = [mkPair [10; 11] []]
                           /\ pairs (run true true (init w_cfg) w_spec) = [mkPair [10] []].
Proof. split; vm_compute; reflexivity. Qed.
Example C14_witness_late : pairs (run false true (init w_cfg) w_late) = [mkPair [10] [1]]
                           /\ pairs (run true true (init w_cfg) w_late) = [mkPair [] [1]].
Proof. split; vm_compute; reflexivity. Qed.
(* non-vacuity: a history with two attempts in flight and a registered pair reaches "everything answered",
   with the outcome delivered exactly once and reported by result() *)
Example C14_nonvacuous :
  let s := run true true (init w_cfg) (w_spec ++ [Result]) in
  all_answered s = true /\ pairs s = [mkPair [10] []] /\ results s = [(0, 10)] /\ length (attempts s) = 2%nat.
Proof. vm_compute. repeat split. Qed.

(* USE statement: the SET_KEYSPACE answer starts Session._set_keyspace_for_all_pools; the outcome is delivered by the LAST pool
   report, also when that report carries the error *)
Example C14_use_statement :
  let h := [AddCb; Send; Resp 0 RSetKs; KsReport 0 2 false; KsReport 0 3 false] in
  all_answered (run true true (init w_cfg1) h) = false
  /\ pairs (run true true (init w_cfg1) (h ++ [KsReport 0 1 true])) = [mkPair [] [4]]
  /\ all_answered (run true true (init w_cfg1) (h ++ [KsReport 0 1 true])) = true
  /\ pairs (run true true (init w_cfg1) (h ++ [KsReport 0 1 false])) = [mkPair [1] []].
Proof. vm_compute. repeat split. Qed.

(* two threads inside the calls: the _callback_lock protocol (Model/FutureCbLock.v, one op = one lock region of
   _set_final_result / add_callback; any number of completing threads, any interleaving, any length) *)
Theorem C14_lock_protocol : forall h : list lop,
  let s := lrun true h in
  (lruns s <= 1)%nat                                                     (* the callback never runs twice *)
  /\ (lfinal s = true -> lpc s = ADone -> lpend s = 0%nat -> lruns s = 1%nat) (* registered, completed, all threads done: exactly once *)
  /\ (lfinal s = false -> lruns s = 0%nat).                               (* never before the outcome exists *)
Proof. intros h. apply LkInv_reads, LkInv_run, LkInv_init. Qed.
Print Assumptions C14_lock_protocol.

(* deciding run_now after the lock was released: the completion may take its snapshot and run it in between *)
Theorem C14_check_outside_lock_refuted : exists h, lruns (lrun false h) = 2%nat.
Proof. exists [AddLocked; Claim; RunSnap; AddFinish]. reflexivity. Qed.
Print Assumptions C14_check_outside_lock_refuted.

(* the session is shut down before the answer is processed: the executor refuses the retry / the schema refresh; the outcome is
   delivered all the same (ConnectionShutdown, resp. the result of the schema-changing statement) *)
Example C14_shutdown_before_answer :
  pairs (run true true (init w_cfg1) [AddCb; Send; Shutdown; Resp 0 (RRetry DRetryNext)]) = [mkPair [] [5]]
  /\ all_answered (run true true (init w_cfg1) [AddCb; Send; Shutdown; Resp 0 (RRetry DRetryNext)]) = true
  /\ pairs (run true true (init w_cfg1) [AddCb; Send; Shutdown; Resp 0 RSchema]) = [mkPair [1] []]
  /\ all_answered (run true true (init w_cfg1) [AddCb; Send; Resp 0 RSchema]) = false
  /\ pairs (run true true (init w_cfg1) [AddCb; Send; Resp 0 RSchema; RunRefresh 0]) = [mkPair [1] []].
Proof. vm_compute. repeat split. Qed.

(* other statements on the same connection (stream ids are recycled): whatever (_connection, _req_id) name is a request this
   future sent itself on that connection, and it stops naming it once the answer is processed (clear_req) or the send was refused
   (query_gen, PSendFail).  So _on_timeout, which unregisters and orphans that stream, never touches another statement's request. *)
Theorem C14_points_at_own_request : forall g pf c h r,
  cur_req (run g pf (init c) h) = Some r ->
  exists host, nth_error (map ahost (attempts (run g pf (init c) h))) r = Some host /\ cur_conn (run g pf (init c) h) = Some host.
Proof. intros g pf c h. apply Own_run, Own_init. Qed.
Print Assumptions C14_points_at_own_request.

(* re-prepare: UNPREPARED -> _reprepare on the executor -> PREPARE -> its answer -> _execute_after_prepare -> re-execute;
   a session shut down while the PREPARE is in flight fails the future instead of dropping the hand-off *)
Example C14_reprepare :
  let h := [AddCb; Send; Resp 0 RUnprepared; Run 0] in
  all_answered (run true true (init w_cfg1) h) = false
  /\ pairs (run true true (init w_cfg1) (h ++ [PResp 1 PPrepared; Run 0; Resp 2 (RRows false)])) = [mkPair [12] []]
  /\ pairs (run true true (init w_cfg1) (h ++ [Shutdown; PResp 1 PPrepared])) = [mkPair [] [5]]
  /\ pairs (run true true (init w_cfg1) (h ++ [PResp 1 PMismatch; Run 0])) = [mkPair [] [6]].
Proof. vm_compute. repeat split. Qed.
