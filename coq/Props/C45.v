(* C45 -- shutdown releases every connection and stops accepting work (partial).
   Model: Model/Shutdown.v, tied to Cluster/Session/ControlConnection/HostConnection by per-step correspondence (checks/C45.py).
   Proved here for every number of hosts and every operation history of any length: after Cluster.shutdown everything
   is shut down, no task/timer is accepted and no timer fires; after Session.shutdown requests and internal submissions are
   refused; and C45_all_closed:
   every connection ever opened is closed in every state after Cluster.shutdown (invariant KK in Proofs/C45_proofs.v). *)
From Coq Require Import ZArith List Bool Arith Lia.
From Verif Require Import LegacyPool C45_legacy_proofs Shutdown C45_proofs.
Import ListNotations.

Theorem C45_shutdown_is_total : forall n os, let s := run (init n) os in
  cl_down s = true -> sess_down s = true /\ cc_down s = true /\ sched_down s = true.
Proof. exact D_reachable. Qed.
Print Assumptions C45_shutdown_is_total.

(* once the cluster is shut down, every further operation leaves the executor queue without new tasks, the scheduler
   without new timers (none fires either) and is never "Accepted" *)
Theorem C45_no_new_connections : forall n os o, let s := run (init n) os in
  cl_down s = true ->
  let s' := fst (step s o) in
  (forall t, In t (queue s') -> In t (queue s)) /\ timers s' = timers s /\ snd (step s o) <> Accepted.
Proof.
  intros n os o s Hc. destruct (after_shutdown s o (D_AD s (D_reachable n os) Hc)) as ((Q & T & _ & _) & R). auto.
Qed.
Print Assumptions C45_no_new_connections.

(* ... and a step after the shutdown starts at most one connection attempt per task that was already queued (one, or two
   when two queued pool creations overlap): a walk over the query plan never goes on to further hosts, Session.shutdown
   itself starts none *)
Theorem C45_no_late_attempts : forall n os o, let s := run (init n) os in
  cl_down s = true -> attempts (fst (step s o)) <= attempts s + match o with ORunNested _ _ => 2 | _ => 1 end.
Proof.
  intros n os o s Hc. destruct (after_shutdown s o (D_AD s (D_reachable n os) Hc)) as ((_ & _ & L & _) & _). exact L.
Qed.
Print Assumptions C45_no_late_attempts.

(* the shutdown calls themselves start no connection attempt (initial pool creations that have not started are cancelled,
   not waited for) *)
Theorem C45_shutdown_starts_nothing : forall s,
  attempts (cluster_shutdown s) = attempts s /\ attempts (session_shutdown s) = attempts s /\
  (forall t, In t (queue (session_shutdown s)) -> In t (queue s)) /\
  (sess_down s = false -> forall h, ~ In (KAddPool h true) (queue (session_shutdown s))).
Proof.
  intros s. rewrite queue_session_shutdown.
  split; [apply quiet_cluster_shutdown | split; [apply quiet_session_shutdown | split]].
  - destruct (sess_down s); [auto | apply incl_filter].
  - intros -> h Hin. apply filter_In in Hin. destruct Hin as [_ Hf]. discriminate.
Qed.
Print Assumptions C45_shutdown_starts_nothing.

Theorem C45_requests_refused : forall s h i b, sess_down s = true ->
  step s ORequest = (s, Refused) /\ step s OSubmit = (s, Refused) /\ step s (OPoolTask h i) = (s, Refused) /\
  snd (step s (OReplace h b)) <> Accepted /\ snd (step s (OConnLost h)) <> Accepted.
Proof.
  intros s h i b Hs. cbn [step]. rewrite Hs. repeat split.
  - destruct (pool s h) as [q|]; [|discriminate]. destruct (pconn q); [|discriminate].
    destruct (prepl q || pshut q); discriminate.
  - destruct (pool s h) as [q|]; [|discriminate]. destruct (pconn q); [|discriminate].
    destruct (pshut q); [discriminate|]. destruct (prepl q); discriminate.
Qed.
Print Assumptions C45_requests_refused.

Definition all_closed (s : st) : bool := forallb (fun c => existsb (Nat.eqb c) (closed s)) (seq 0 (nconn s)).

(* FULL statement: in every state reached after Cluster.shutdown -- whatever was queued, connecting or scheduled when it
   ran, and whether or not the executor has drained yet -- every connection ever opened (pools, replacements, control
   connection, reconnection attempts, connects that finished after or during the shutdown) is closed. *)
Theorem C45_all_closed : forall n os, let s := run (init n) os in
  cl_down s = true -> all_closed s = true /\ forall c, c < nconn s -> In c (closed s).
Proof.
  intros n os s Hc. destruct (D_reachable n os Hc) as (A & B & _).
  pose proof (all_closed_when_down s (KK_reachable n os) A B) as H. exact (conj (all_below_in _ _ H) H).
Qed.
Print Assumptions C45_all_closed.

(* after Session.shutdown alone every connection is closed except, possibly, the live control connection *)
Theorem C45_session_all_closed : forall n os c, let s := run (init n) os in
  sess_down s = true -> c < nconn s -> In c (closed s) \/ cc_conn s = Some c.
Proof.
  intros n os c s Hs. exact (session_closed_when_down s (KK_reachable n os) Hs c).
Qed.
Print Assumptions C45_session_all_closed.

(* at ANY time (no shutdown needed): an open connection is owned by the control connection or by a pool registered in the
   session, as its current connection or in its trash.  Nothing is orphaned (two overlapping pool creations for one host, a
   replacement, a lost connection ...), so the shutdown that comes later reaches every connection. *)
Theorem C45_open_has_owner : forall n os c, let s := run (init n) os in
  c < nconn s -> In c (closed s) \/ cc_conn s = Some c \/ exists h, In c (opl_conns (pool s h)).
Proof.
  intros n os c. exact (proj1 (KK_reachable n os) c).
Qed.
Print Assumptions C45_open_has_owner.

(* native protocol v1/v2, the legacy HostConnectionPool (Model/LegacyPool.v):
   every history of pool operations (connection creations, trashing, lost connections, replacements), with the shutdown at
   any point -- also while a creation is connecting, right before its locked install, or with a creation completing in the
   window just before shutdown() takes the pool lock: once the pool is shut down every connection it ever opened is closed,
   and from then on it opens none. *)
Theorem C45_legacy_all_closed : forall os, let s := lrun linit os in
  lshut s = true -> forall c, c < lnconn s -> In c (lclosed s).
Proof. intros os s Hs. exact (legacy_all_closed s (LI_run os _ LI_init) Hs). Qed.
Print Assumptions C45_legacy_all_closed.

Theorem C45_legacy_no_new_connections : forall os o, let s := lrun linit os in
  lshut s = true -> lnconn (lstep s o) = lnconn s /\ lshut (lstep s o) = true.
Proof. intros os o s Hs. exact (shut_step s o Hs). Qed.
Print Assumptions C45_legacy_no_new_connections.

Example C45_nonvacuous_legacy : let s := lrun linit [LSpawn; LRun 0 true 0; LTrash 0 true; LLost 0; LSpawn; LShutdownRacing 1; LRun 0 false 0] in
  lshut s = true /\ lnconn s = 4 /\ lconns s = [2; 3] /\ ltrash s = [0] /\ lqueue s = [].
Proof. vm_compute. repeat split. Qed.

(* concrete non-trivial runs: shutdown with queued pool creation, control reconnect and timers: everything ends closed *)
Example C45_nonvacuous : let s := run (init 2) [OPoolTask 0 false; OCCReconnect; OStartRecon 1; OFire 0 Err false; OClusterShutdown;
                                               ORun 0 Ok false; ORun 0 Ok false] in
  cl_down s = true /\ queue s = [] /\ nconn s = 5 /\ all_closed s = true.
Proof. vm_compute. repeat split. Qed.
Example C45_nonvacuous_during : let s := run (init 1) [OPoolTask 0 false; OReplace 0 false; ORun 1 Ok true; ORun 0 Ok false] in
  cl_down s = true /\ nconn s = 4 /\ all_closed s = true.
Proof. vm_compute. auto. Qed.
(* a trashed connection with a live request, the replacement lost, then the shutdown: the trash is closed too *)
Example C45_nonvacuous_trash : let s0 := run (init 1) [OReplace 0 true; ORun 0 Ok false; OConnLost 0] in
  let s := run s0 [OClusterShutdown] in
  opl_conns (pool s0 0) = [1] /\ all_closed s = true /\ nconn s = 3.
Proof. vm_compute. auto. Qed.
(* two pool creations for one host overlapping: the pool that loses its place is shut down, nothing is orphaned *)
Example C45_nonvacuous_nested : let s := run (init 1) [OPoolTask 0 false; OPoolTask 0 false; ORunNested 0 0] in
  nconn s = 4 /\ opl_conns (pool s 0) = [2] /\ closed s = [3; 1].
Proof. vm_compute. auto. Qed.
