(* C21 -- load-balancing plans reflect the live cluster membership.
   Model: Model/LBP.v (hand-written; tied to cassandra/policies.py by the step-by-step correspondence run of checks/C21.py).
   Quantification: EVERY history `evs` in which populate never forgets a host the policy already knows (`delivered`, defined
   with pop_ok / ok_from at the head of Proofs/C21_proofs.v: populate hands over all hosts of the cluster; it is the first
   call -- Cluster.connect, add_execution_profile -- and Cluster.connect repeats it with the same list for the legacy policy;
   see C21_delivered_populate_first), every initial host location table `e`, every policy parameter (white list, local_dc
   given or inferred late from any contact-point list, used_hosts_per_remote_dc any integer), every set-iteration order `ord`
   and every rotation position (it is part of the state: histories contain MakePlan steps and any randint value).
   `members evs` is the abstract membership of DESIGN 4.0: populated / added / up minus down / removed. *)
From Coq Require Import ZArith List Bool.
From Verif Require Import LBP ListFacts LBP_base_proofs C21_proofs.
Import ListNotations.
Local Open Scope Z_scope.

(* the hypothesis `delivered` covers every history whose only populate is its first event, of any length *)
Theorem C21_delivered_populate_first : forall evs : list event,
  forallb (fun e => negb (is_populate e)) (tl evs) = true -> delivered evs.
Proof.
  intros [|e evs] H; [exact I|].
  split; [destruct e; try exact I; discriminate | apply no_populate_ok; exact H].
Qed.
Print Assumptions C21_delivered_populate_first.

(* no host twice, for RoundRobin, WhiteList and DCAware alike *)
Theorem C21_nodup : forall (b : base) (e : env) (evs : list event) (ord : list Z),
  delivered evs -> NoDup (b_plan (b_run b e evs) ord).
Proof. intros b e evs ord Hd. exact (proj1 (b_run_enum b e evs ord Hd)). Qed.
Print Assumptions C21_nodup.

(* exactly the live hosts the policy does not call IGNORED *)
Theorem C21_exact : forall (b : base) (e : env) (evs : list event) (ord : list Z) (h : Z),
  delivered evs ->
  (In h (b_plan (b_run b e evs) ord) <-> members evs h = true /\ b_distance b (b_run b e evs) h <> IGNORED).
Proof. intros b e evs ord h Hd. exact (proj2 (b_run_enum b e evs ord Hd) h). Qed.
Print Assumptions C21_exact.

(* DC-aware: the plan is the local part then the remote part; the local part is exactly the live hosts at distance LOCAL,
   the remote part exactly the hosts at distance REMOTE (all of them live), and when the configured number is not
   negative no remote datacenter contributes more than used_hosts_per_remote_dc hosts *)
Theorem C21_dc_order : forall (local used : Z) (contact : list Z) (e : env) (evs : list event),
  delivered evs ->
  let s := fold_left dca_step evs (dca_init local used contact e) in
  dca_plan s = dca_local_part s ++ dca_remote_part s /\
  (forall h, In h (dca_local_part s) <-> members evs h = true /\ dca_distance s h = LOCAL) /\
  (forall h, In h (dca_remote_part s) <-> dca_distance s h = REMOTE) /\
  (forall h, dca_distance s h = REMOTE -> members evs h = true) /\
  (0 <= d_used s -> forall d, Nat.le (length (filter (fun h => dca_dc s h =? d) (dca_remote_part s))) (Z.to_nat (d_used s))).
Proof.
  intros local used contact e evs Hd s.
  pose proof (dca_inv_delivered local used contact e evs Hd) as HI.
  split; [reflexivity|]. split; [exact (proj2 (dca_local_part_enum s _ HI))|]. split; [exact (proj2 (dca_remote_part_enum s _ HI))|].
  split; [exact (dca_remote_live s _ HI)|exact (dca_remote_part_bound s _ HI)].
Qed.
Print Assumptions C21_dc_order.

(* used_hosts_per_remote_dc is the constructor argument throughout *)
Theorem C21_used_constant : forall (local used : Z) (contact : list Z) (e : env) (evs : list event),
  d_used (fold_left dca_step evs (dca_init local used contact e)) = used.
Proof. intros local used contact e evs. apply (fold_left_const dca_step d_used d_used_step). Qed.
Print Assumptions C21_used_constant.

(* the white-list policy never yields a host whose address is not among the RESOLVED addresses of the list as written
   (names, non-canonical spellings, several hosts per address) -- for every history whatsoever *)
Theorem C21_whitelist : forall (names : list Z) (resolve : Z -> list Z) (addr : Z -> Z)
                               (e : env) (evs : list event) (ord : list Z) (h : Z),
  In h (b_plan (b_run (BWL names resolve addr) e evs) ord) -> In (addr h) (flat_map resolve names).
Proof.
  intros names resolve addr e evs ord h H. apply mem_In, (rr_run_enum (BWL names resolve addr) e evs ord eq_refl), H.
Qed.
Print Assumptions C21_whitelist.

(* HostFilterPolicy over any built-in policy, for an arbitrary predicate: no duplicates, never an excluded host,
   and exactly the live hosts it does not call IGNORED *)
Theorem C21_filter : forall (pred : Z -> bool) (b : base) (e : env) (evs : list event) (ord : list Z),
  delivered evs ->
  let s := b_run b e evs in
  let p := hf_plan pred (b_plan s ord) in
  NoDup p /\
  (forall h, In h p -> pred h = true) /\
  (forall h, In h p <-> members evs h = true /\ hf_distance pred (b_distance b s) h <> IGNORED).
Proof.
  intros pred b e evs ord Hd s p. subst p s.
  destruct (enum_filter pred (b_run_enum b e evs ord Hd)) as [HN HM].
  split; [exact HN|]. split; intros h; [|rewrite hf_distance_IGNORED]; rewrite (HM h); tauto.
Qed.
Print Assumptions C21_filter.

(* DefaultLoadBalancingPolicy over any built-in policy: without a usable target the child's plan unchanged; with one,
   the target first and then the child's plan without it, in the child's order; no duplicates; nothing of the child lost *)
Theorem C21_default : forall (target : option Z) (b : base) (e : env) (evs : list event) (ord : list Z),
  delivered evs ->
  let child := b_plan (b_run b e evs) ord in
  let p := df_plan target child in
  NoDup p /\
  (forall h, In h p <-> target = Some h \/ In h child) /\
  (forall t, target = Some t -> p = t :: remove_host t child) /\
  (target = None -> p = child).
Proof.
  intros target b e evs ord Hd child p. destruct (df_enum target child _ (enum_self (proj1 (b_run_enum b e evs ord Hd)))) as [HN HM].
  split; [exact HN|]. split; [exact HM|]. split; [intros t ->|intros ->]; reflexivity.
Qed.
Print Assumptions C21_default.

(* TokenAwarePolicy over any built-in policy is itself a load-balancing policy: for routed and unrouted statements, any
   duplicate-free replica list in any order, any up flags that are only true for hosts the policy was told about (the cluster
   calls on_up/on_add before host.set_up() and set_down() before on_down/on_remove): no duplicates and exactly the live hosts
   that are not IGNORED -- in particular replicas that were NOT promoted (REMOTE, or not marked up yet) stay in the plan *)
Theorem C21_token_aware : forall (routed : bool) (up : Z -> bool) (order : list Z)
                                 (b : base) (e : env) (evs : list event) (ord : list Z),
  delivered evs -> NoDup order ->
  (forall h, In h order -> up h = true -> members evs h = true) ->
  let s := b_run b e evs in
  let p := ta_plan routed up (b_distance b s) order (b_plan s ord) in
  NoDup p /\ (forall h, In h p <-> members evs h = true /\ b_distance b s h <> IGNORED).
Proof.
  intros routed up order b e evs ord Hd Hn Hup s p.
  apply (ta_enum routed up _ order _ _ Hn); [|exact (b_run_enum b e evs ord Hd)].
  intros h H1 H2 H3. split; [exact (Hup h H1 H2) | congruence].
Qed.
Print Assumptions C21_token_aware.

(* one on_up = one atomic step is an assumption about the code (the bucket is read, tested and written back inside one
   `with self._hosts_lock`; checks/C21.py audits that on the source).  With the lock held the two halves are on_up: *)
Theorem C21_locked_is_atomic : forall (s : dca_state) (h : Z),
  dca_on_up s h = dca_up_write (dca_infer s h) h (dca_up_read (dca_infer s h) h).
Proof. reflexivity. Qed.
Print Assumptions C21_locked_is_atomic.

(* ... and it is necessary: if another on_up runs between the read and the write-back, a host that was announced up and
   is LOCAL is in no plan (hosts 1 and 2 of the local DC come up together) *)
Theorem C21_unlocked_refuted : exists (s : dca_state) (h1 h2 : Z),
  let s' := dca_up_write (dca_on_up s h2) h1 (dca_up_read s h1) in
  dca_distance s' h2 = LOCAL /\ ~ In h2 (dca_plan s') /\ In h1 (dca_plan s').
Proof.
  exists (dca_init 1 0 [] {| e_dc := [(1, 1); (2, 1)]; e_rack := [] |}), 1, 2.
  vm_compute. split; [reflexivity|]. split; [|auto]. intros [H|[]]. discriminate.
Qed.
Print Assumptions C21_unlocked_refuted.

(* A plan drained while other threads deliver events: the local hosts are those of the state in which the plan was started
   (after history evs0), the remote DC names are copied after evs1 more events, the remote buckets are read after evs2 more.
   Every yielded host was live and LOCAL when the plan started or is live when the remote buckets are read; every host that was
   live and LOCAL at the start is yielded, and so is every host that is REMOTE at the end and whose DC already had a live
   host when the names were copied (local_dc not being re-inferred meanwhile).  No step can fail: the names come from a copy. *)
Theorem C21_plan_during_events : forall (local used : Z) (contact : list Z) (e : env) (evs0 evs1 evs2 : list event) (h : Z),
  delivered (evs0 ++ evs1 ++ evs2) ->
  let run := fun evs => fold_left dca_step evs (dca_init local used contact e) in
  let s0 := run evs0 in let s1 := run (evs0 ++ evs1) in let s2 := run (evs0 ++ evs1 ++ evs2) in
  (In h (dca_plan3 s0 s1 s2) ->
     (members evs0 h = true /\ dca_distance s0 h = LOCAL) \/ members (evs0 ++ evs1 ++ evs2) h = true) /\
  (d_local s1 = d_local s2 ->
     (members evs0 h = true /\ dca_distance s0 h = LOCAL) \/
     (dca_distance s2 h = REMOTE /\ bget (d_live s1) (dca_dc s2 h) <> []) ->
     In h (dca_plan3 s0 s1 s2)).
Proof.
  intros local used contact e evs0 evs1 evs2 h Hd run s0 s1 s2.
  apply plan3_facts; apply dca_inv_delivered; [exact (ok_from_app_l _ _ _ Hd) | exact Hd].
Qed.
Print Assumptions C21_plan_during_events.

(* without the copy a whole DC entry appearing meanwhile (first host of DC 2 comes up) makes the plan fail after its local part *)
Theorem C21_nocopy_refuted : exists (s1 : dca_state) (ev : event),
  dca_plan3_nocopy s1 s1 (dca_step s1 ev) (dca_step s1 ev) = None /\ dca_plan3 s1 s1 (dca_step s1 ev) = [1].
Proof.
  exists (dca_step (dca_init 1 1 [] {| e_dc := [(1, 1); (2, 2)]; e_rack := [] |}) (Up 1)), (Up 2). vm_compute. split; reflexivity.
Qed.
Print Assumptions C21_nocopy_refuted.

(* the hypotheses are satisfiable by a non-trivial history: three DCs interleaved in the initial list, a host without a
   datacenter, local_dc inferred late from contact point 1, a location change, a removal *)
Example C21_nonvacuous :
  let e := {| e_dc := [(0, 1); (1, 2); (2, 1); (3, 0); (4, 3)]; e_rack := [] |} in
  let evs := [Populate [0; 1; 2; 3; 4] [2; 0; 1; 3; 4] 1; MakePlan; Up 1; SetLocation 3 2 1; Down 0; Add 0; Remove 4] in
  delivered evs /\
  b_plan (b_run (BDCA 0 1 [1]) e evs) [] = [1; 3; 2] /\
  map (fun h => dist_code (b_distance (BDCA 0 1 [1]) (b_run (BDCA 0 1 [1]) e evs) h)) [0; 1; 2; 3; 4] = [-1; 0; 1; 0; -1].
Proof. intros e evs. split; [apply C21_delivered_populate_first; reflexivity|]. split; vm_compute; reflexivity. Qed.

(* Cluster.connect in legacy mode: the same policy object is populated twice with the same host list *)
Example C21_nonvacuous_double_populate :
  let evs := [Populate [0; 1; 2] [0; 1; 2] 1; Populate [0; 1; 2] [2; 1; 0] 0; Down 1; MakePlan] in
  delivered evs /\ b_plan (b_run (BDCA 1 1 []) {| e_dc := [(0, 1); (1, 2); (2, 1)]; e_rack := [] |} evs) [] = [0; 2].
Proof.
  intros evs; split; [|vm_compute; reflexivity].
  split; [intros h H; discriminate|]. split; [intros h H; exact H|]. split; [exact I|]. split; exact I.
Qed.
