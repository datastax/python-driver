(* C17 -- Hosts are tried in query-plan order and exhaustion is reported.
   Model: Model/FutB.v (ResponseFuture.send_request/_query over a plan and per-host pool states, _errors, explicit
   host target), tied to cassandra/cluster.py by per-step correspondence on the real class (checks/C17.py).
   All theorems hold for every configuration, every retry-policy oracle and every history of responses, executor
   task runs, speculative timer firings and pool-state changes (any length, any order). *)
From Coq Require Import ZArith List Bool.
From Verif Require Import PyBase FutbProto FutB FutB_lemmas FutB_steps FutB_origin C17_proofs C17_cover.
Import ListNotations.
Local Open Scope Z_scope.

(* one send_request: skips a prefix of the remaining plan whose pools are unusable, recording each reason in _errors, and
   sends to the first usable host (`walked`, FutB_lemmas.v); the reason stored is the one for that pool state *)
Theorem C17_order : forall s b s' ev, send_request s b = (s', ev) ->
  walked s (plan s) b s' ev /\ (forall x e, In (ErrSet x e) ev -> lookup (errors s') x = reason (pool_of s x)).
Proof.
  intros s b s' ev H. split; [apply walk_walked; exact H|].
  intros x e Hin. rewrite (walk_listed _ _ _ _ _ _ _ H Hin), (walk_errsets _ _ _ _ _ _ _ H Hin). reflexivity.
Qed.
Print Assumptions C17_order.

(* the client timeout elapsing while unusable hosts are skipped (time passes inside a slow borrow_connection): the walk stops
   right there -- the rest of the plan stays untried and NO NoHostAvailable is reported; the request times out (once a
   connection was ever borrowed) or the timeout handler re-schedules itself *)
Theorem C17_timeout_stops_the_walk : forall s b s' ev rest, send_request s b = (s', ev) ->
  plan s' = rest -> rest <> [] -> fin_exc s' <> Some XNoHost \/ fin_exc s = Some XNoHost.
Proof.
  intros s b s' ev rest H Pr Rn. destruct (fin_exc s') as [[]|] eqn:X; try (left; discriminate).
  destruct (reach_nohost (send_request_walks H) X) as [G|G];
    [right; exact G|congruence].
Qed.
Print Assumptions C17_timeout_stops_the_walk.

(* over a whole history of the first page fetch (`no_page`: no NextPage among the ops; C17_order_every_page is the statement for
   every page fetch): the plan is consumed front to back, and the hosts that got a message because the plan was
   walked (initial send, RETRY_NEXT_HOST, speculative execution, fall-through after an unusable pool) form, in the order
   sent, a subsequence of the load balancer's plan *)
Theorem C17_order_history : forall c lb target pl cl idem hasp maxa ks ops s evs, no_page ops = true ->
  exec c (init lb target pl cl idem hasp maxa ks) ops = (s, evs) ->
  consumed s ++ plan s = make_plan lb target /\ subseq (plan_sends evs) (consumed s)
  /\ subseq (plan_sends evs) (make_plan lb target).
Proof.
  intros c lb target pl cl idem hasp maxa ks ops s evs N H. destruct (exec_plan_move c ops _ s evs N H) as [e C P S].
  destruct (init_untouched lb target pl cl idem hasp maxa ks) as (I1 & I2 & _).
  rewrite I1 in P. rewrite I2 in C. rewrite C, P.
  split; [reflexivity|split; [exact S|apply subseq_app_r; exact S]].
Qed.
Print Assumptions C17_order_history.

(* a host of a duplicate-free plan gets at most one plan-walk message ... *)
Theorem C17_no_repeat : forall c lb target pl cl idem hasp maxa ks ops s evs, no_page ops = true ->
  exec c (init lb target pl cl idem hasp maxa ks) ops = (s, evs) ->
  NoDup (make_plan lb target) -> NoDup (plan_sends evs).
Proof.
  intros c lb target pl cl idem hasp maxa ks ops s evs Np H N.
  destruct (C17_order_history c lb target pl cl idem hasp maxa ks ops s evs Np H) as (_ & _ & S). eapply subseq_nodup; eauto.
Qed.
Print Assumptions C17_no_repeat.

(* ... every other message is the one of the executor task just run: the same-host retry, the PREPARE after UNPREPARED,
   or the re-send after PREPARED (C19) ... *)
Theorem C17_other_sends_are_tasks : forall c s o s' ev h m cz, step c s o = (s', ev) -> In (Sent h m cz) ev ->
  plan_msg m cz \/ (exists k t, o = Run k /\ nth_error (queue s) k = Some t /\ task_sends s t h m cz
                            /\ pool_of s (task_host t) = PHealthy)
  \/ (* executor-first schedule: the retry task ran inside the step that took the decision *)
     (exists i k tag dcl reuse a, o = Resp i (RRetryable k tag) /\ inline_retry c = true /\ nth_error (attempts s) i = Some a /\
        task_sends (bump_counters (tick_consult (set_attempts s (mark_done i (attempts s)))) dcl) (TRetry reuse (a_host a)) h m cz
        /\ pool_of s (a_host a) = PHealthy).
Proof. intros c s o s' ev h m cz H Hin. exact (reach_events (step_reach H) _ Hin). Qed.
Print Assumptions C17_other_sends_are_tasks.

(* ... and a same-host retry task for h exists only because the policy answered RETRY to a failure reported by h *)
Theorem C17_retry_task_needs_decision : forall c s o s' ev t, step c s o = (s', ev) -> In t (queue s') ->
  In t (queue s) \/ exists i r a, o = Resp i r /\ nth_error (attempts s) i = Some a /\ a_done a = false /\
     (if a_prep a then t = TAfterPrepare (a_host a) r else enqueued_by (a_host a) r ev t).
Proof. intros c s o s' ev t H Hin. exact (reach_queue (step_reach H) _ Hin). Qed.
Print Assumptions C17_retry_task_needs_decision.

(* NoHostAvailable is raised only by a send_request that ran off the end of the plan (never by the branch that notices the
   client timeout while walking: that one calls _on_timeout and returns) *)
Theorem C17_exhaustion : forall c s o s' ev, step c s o = (s', ev) -> fin_exc s' = Some XNoHost ->
  fin_exc s = Some XNoHost \/ plan s' = [].
Proof. intros c s o s' ev H. exact (reach_nohost (step_reach H)). Qed.
Print Assumptions C17_exhaustion.

(* "listing every attempted host" (first page fetch): when a request that has no outcome yet fails with NoHostAvailable, every
   host of the plan is a key of the live _errors (= NoHostAvailable.errors) right after that step, or still has something open
   (an unanswered attempt of a speculative execution, a queued executor task) *)
Theorem C17_exhaustion_lists_every_host : forall c lb target pl cl idem hasp maxa ks ops s evs o s' ev,
  no_page ops = true -> is_next_page o = false ->
  exec c (init lb target pl cl idem hasp maxa ks) ops = (s, evs) -> fin_res s = None -> fin_exc s = None ->
  step c s o = (s', ev) -> fin_exc s' = Some XNoHost ->
  forall h, In h (make_plan lb target) -> In h (keys (errors s')) \/ In h (open_hosts s').
Proof.
  intros c lb target pl cl idem hasp maxa ks ops s evs o s' ev Np NP X R E S N.
  destruct (C17_order_history c lb target pl cl idem hasp maxa ks ops s evs Np X) as (<- & _).
  exact (exhaustion_covers c s o s' ev NP (good_exec c ops _ _ _ Np (good_init lb target pl cl idem hasp maxa ks) X) R E S N).
Qed.
Print Assumptions C17_exhaustion_lists_every_host.

(* every host ever mentioned -- message, attempt, executor task, _errors key (hence every NoHostAvailable.errors key) --
   was taken from the plan *)
Theorem C17_errors_only_plan_hosts : forall c lb target pl cl idem hasp maxa ks ops s evs x,
  exec c (init lb target pl cl idem hasp maxa ks) ops = (s, evs) ->
  In x (hosts_of s evs) -> In x (consumed s) /\ (no_page ops = true -> In x (make_plan lb target)).
Proof.
  intros c lb target pl cl idem hasp maxa ks ops s evs x H Hx.
  pose proof (mentioned_consumed c lb target pl cl idem hasp maxa ks ops s evs x H Hx) as Hc. split; [exact Hc|].
  intros N. destruct (C17_order_history c lb target pl cl idem hasp maxa ks ops s evs N H) as (<- & _). apply in_app_iff. left. exact Hc.
Qed.
Print Assumptions C17_errors_only_plan_hosts.

(* paged results: start_fetching_next_page (when a paging state is there) is exactly one send_request over a FRESH plan --
   the explicit target host again, or the load balancer's plan p for this fetch -- from a state whose outcome is cleared *)
Theorem C17_next_page_fresh_plan : forall c s p, paging s = true ->
  step c s (NextPage p) = send_request (page_start c s p) true /\
  plan (page_start c s p) = make_plan p (tgt c) /\ fin_res (page_start c s p) = None /\ fin_exc (page_start c s p) = None /\
  pools (page_start c s p) = pools s /\ errors (page_start c s p) = errors s /\ retries (page_start c s p) = retries s.
Proof.
  intros c s p P. cbn [step]. rewrite P. unfold page_start. edestruct start_timer_eq as (a & l & -> & _). repeat split.
Qed.
Print Assumptions C17_next_page_fresh_plan.

(* every page fetch (any stretch of history without a further NextPage, from ANY state, e.g. the one page_start produced) walks
   its plan front to back: what was consumed is a prefix of that plan, the plan-walk messages follow its order, and no host of a
   duplicate-free plan gets two of them *)
Theorem C17_order_every_page : forall c ops s s' evs, no_page ops = true -> exec c s ops = (s', evs) ->
  plan_move s s' evs /\ (NoDup (plan s) -> NoDup (plan_sends evs)).
Proof.
  intros c ops s s' evs N H. pose proof (exec_plan_move c ops s s' evs N H) as M. split; [exact M|].
  destruct M as [e C P S]. rewrite P. intros D. eapply subseq_nodup; [apply subseq_app_r; exact S|exact D].
Qed.
Print Assumptions C17_order_every_page.

(* DSE graph analytics re-plan (master first): still duplicate-free *)
Theorem C17_replan_master_nodup : forall m p, NoDup p -> NoDup (replan_master m p) /\ (forall x, In x (replan_master m p) <-> x = m \/ In x p).
Proof.
  intros m p D. unfold replan_master. split.
  - constructor; [|apply NoDup_filter, D].
    intros Hin. apply filter_In in Hin. destruct Hin as [_ E]. rewrite Z.eqb_refl in E. discriminate.
  - intros x. cbn. rewrite filter_In. split.
    + intros [E|[Hin _]]; auto.
    + intros [E|Hin]; [left; congruence|]. destruct (Z.eq_dec x m) as [->|Nm]; [left; reflexivity|].
      right. split; [exact Hin|]. apply negb_true_iff, Z.eqb_neq, Nm.
Qed.
Print Assumptions C17_replan_master_nodup.

(* executor-first schedule (the executor runs the retry before _handle_retry_decision records the failure): the failed host
   is recorded AFTER the plan was exhausted, and NoHostAvailable -- whose errors are the live _errors -- still lists it *)
Example C17_executor_first_lists_failed_host :
  let c := {| pol := scripted [(DNextHost, None)]; fut_ps := None; known := []; pv := 4; tgt := None; inline_retry := true |} in
  let s0 := init [0; 1] None [(0, PHealthy); (1, PMissing)] (Some 1) false false 0 None in
  let '(s, evs) := exec c s0 [Start; Resp 0%nat (RRetryable KOverloaded 7)] in
  fin_exc s = Some XNoHost /\ errors s = [(1, EDown); (0, EResp KOverloaded 7)] /\
  evs = [Sent 0 (MOrig (Some 1)) CPlan; Consult 0 0 KOverloaded 7 0 (Some 1) DNextHost None; ErrSet 1 EDown;
         ErrSet 0 (EResp KOverloaded 7)].
Proof. vm_compute. repeat split. Qed.

(* explicit host target: every message of every page fetch goes to that host *)
Theorem C17_target_only : forall c lb pl cl idem hasp maxa ks ops s evs h, tgt c = Some h ->
  exec c (init lb (Some h) pl cl idem hasp maxa ks) ops = (s, evs) ->
  forall h' m cz, In (Sent h' m cz) evs -> h' = h.
Proof.
  intros c lb pl cl idem hasp maxa ks ops s evs h Tg H h' m cz Hin.
  destruct (init_untouched lb (Some h) pl cl idem hasp maxa ks) as (I1 & I2 & I3).
  apply (exec_target c h ops _ s evs H Tg); [rewrite I1, I2; repeat constructor|exact I3|].
  apply hosts_of_in. right; right; right. eapply in_sent_hosts; eauto.
Qed.
Print Assumptions C17_target_only.

(* non-vacuity: plan [2;0;1], host 2 shut down, host 0 healthy; a read timeout from 0 answered RETRY_NEXT_HOST moves on
   to host 1, whose pool is missing: NoHostAvailable lists 2 (skipped), 0 (failed) and 1 (skipped) *)
Example C17_nonvacuous :
  let c := {| pol := scripted [(DNextHost, None)]; fut_ps := None; known := []; pv := 4; tgt := None; inline_retry := false |} in
  let s0 := init [2; 0; 1] None [(0, PHealthy); (1, PMissing); (2, PShutdown)] (Some 1) false false 0 None in
  let '(s, evs) := exec c s0 [Start; Resp 0%nat (RRetryable KReadTimeout 7); Run 0%nat] in
  plan_sends evs = [0] /\
  fin_exc s = Some XNoHost /\ errors s = [(2, EShutdown); (0, EResp KReadTimeout 7); (1, EDown)] /\ consumed s = [2; 0; 1].
Proof. vm_compute. repeat split. Qed.
