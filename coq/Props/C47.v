(* C47 -- a connection is usable only after a successful handshake.
   Model: Model/Handshake.v (one step = one reactor callback into cassandra/connection.py); tie: correspondence
   with the real Connection handlers (checks/C47.py).  Every theorem quantifies over ALL reply sequences (any length),
   all configurations (authenticator kind, compression setting, ANY local / remote algorithm lists, any version).
   `c_guard cfg = true` = the reactor's close() records ConnectionShutdown while the handshake is unfinished
   (asyncore always; asyncio / twisted / eventlet / gevent since fix C47-1). *)
From Coq Require Import ZArith List Bool.
From Verif Require Segment.
From Verif Require Import HsProtoVersion Handshake C47_proofs C47_applied.
Import ListNotations.
Local Open Scope Z_scope.

(* "reported ready" = what Connection.factory tests: connected_event set and no last_error *)
Theorem C47_ready_only_after : forall cfg rs, c_guard cfg = true ->
  reported_ready (fst (run cfg rs)) = true ->
  (exists remote rest, rs = RSupported remote :: rest) /\ (In RReady rs \/ In RAuthSuccess rs).
Proof. intros cfg rs. exact (ready_heard (reached_run cfg rs)). Qed.
Print Assumptions C47_ready_only_after.

(* without that guard in close() the statement fails: SUPPORTED then a disconnect is reported as a ready connection *)
Theorem C47_unguarded_close_refuted :
  exists cfg rs, c_guard cfg = false /\ reported_ready (fst (run cfg rs)) = true /\ ~ (In RReady rs \/ In RAuthSuccess rs).
Proof.
  exists (mkConfig ANone CompAuto [0; 1] 4 false), [RSupported [0; 1]; RDisconnect].
  split; [reflexivity|]. split; [reflexivity|]. intros [H|H]; cbn in H; intuition discriminate.
Qed.
Print Assumptions C47_unguarded_close_refuted.

(* failures: (a) AuthenticationFailed only for authentication reasons; (b) the unambiguous authentication failures are
   AuthenticationFailed; (c) any failure wakes the waiter, is final, and the connection is never reported ready;
   (d) while nothing is reported the handshake has exactly one request outstanding (no silent hang) *)
Theorem C47_error_kinds : forall cfg rs,
  let s := fst (run cfg rs) in
  (last_error s = Some EAuthFailed ->
     In RAuthenticate rs /\ (c_auth cfg = ANone \/ exists k, In (RError k) rs))
  /\ (forall post, c_auth cfg = ANone -> (exists did, pending s = Some (CbStartup did)) ->
        last_error (fst (run cfg (rs ++ RAuthenticate :: post))) = Some EAuthFailed)
  /\ (forall post, pending s = Some CbAuth \/ pending s = Some (CbStartup true) ->
        last_error (fst (run cfg (rs ++ RError EkAuth :: post))) = Some EAuthFailed)
  /\ (forall e, last_error s = Some e ->
        connected s = true /\ reported_ready s = false /\
        forall more, last_error (fst (run cfg (rs ++ more))) = Some e)
  /\ (connected s = false -> last_error s = None /\ exists c, pending s = Some c).
Proof.
  intros cfg rs s. pose proof (reached_run cfg rs) as HR. fold s in HR.
  split; [exact (authfailed_heard HR)|].
  split; [| split; [| split]].
  - intros post Ha [did Hp]. rewrite run_app_state.
    apply (error_after_step _ _ _ HR), (authenticate_without_authenticator did HR); assumption.
  - intros post Hp. rewrite run_app_state. apply (error_after_step _ _ _ HR), (credentials_rejected HR), Hp.
  - intros e He. split; [exact (error_connected e HR He)|].
    split; [unfold reported_ready; rewrite He; apply andb_false_r|].
    intros more. rewrite run_app_state. fold s. rewrite (error_final e more HR He). exact He.
  - exact (waiting HR).
Qed.
Print Assumptions C47_error_kinds.

(* whatever algorithm is staged, installed as (de)compressor, or announced in STARTUP is supported locally AND was
   offered by the server's SUPPORTED reply; an explicit user choice is respected; compression=False negotiates nothing *)
Theorem C47_compression_both_sides : forall cfg rs a,
  let s := fst (run cfg rs) in
  (pcomp s = Some a \/ comp s = Some a \/ decomp s = Some a
   \/ exists f, In f (snd (run cfg rs)) /\ f_kind f = MStartup (Some a)) ->
  In a (c_local cfg)
  /\ (exists remote rest, rs = RSupported remote :: rest /\ In a remote)
  /\ c_comp cfg <> CompOff /\ (forall n, c_comp cfg = CompName n -> a = n)
  /\ ~ (a = snappy /\ has_cs (c_version cfg) = true).
Proof.
  intros cfg rs a s H. destruct (named_negotiated a (reached_run cfg rs) H) as (remote & rest & -> & En).
  destruct (negotiate_some _ _ _ En) as (Hl & Hr & Hoff & Hname & Hsn).
  split; [exact Hl|]. split; [exists remote, rest; auto|]. split; [exact Hoff|]. split; [exact Hname|].
  intros [-> Hv]. rewrite Hv in Hsn. discriminate.
Qed.
Print Assumptions C47_compression_both_sides.

(* before the server has accepted STARTUP (READY) or asked for authentication (AUTHENTICATE) nothing that leaves the
   connection is compressed -- neither the frame body nor the v5 segment -- and no compressor is installed *)
Theorem C47_compress_only_after_accept : forall cfg rs,
  (forall r, In r rs -> r <> RReady /\ r <> RAuthenticate) ->
  comp (fst (run cfg rs)) = None /\
  forall f, In f (snd (run cfg rs)) -> f_compressed f = false /\ f_segcomp f = false /\ f_checksummed f = false.
Proof.
  intros cfg rs Hall. destruct (pre_accept (reached_run cfg rs)) as [Hin|[Hin|[Hc Ho]]]; [destruct (Hall _ Hin); congruence ..|].
  split; [exact Hc | exact (proj1 (Forall_forall _ _) Ho)].
Qed.
Print Assumptions C47_compress_only_after_accept.

(* checksummed (segment) framing: never for a version without checksumming support, always once the connection is
   reported ready on a version with it; has_cs is exactly {v5, v6} among the driver's protocol versions *)
Theorem C47_checksumming_iff_v5 : forall cfg rs, c_guard cfg = true ->
  let s := fst (run cfg rs) in
  (cksum s = true -> has_cs (c_version cfg) = true)
  /\ (reported_ready s = true -> cksum s = has_cs (c_version cfg))
  /\ (forall f, In f (snd (run cfg rs)) -> f_checksummed f = true -> has_cs (c_version cfg) = true)
  /\ (forall v, In v [1; 2; 3; 4; 5; 6; 65; 66] -> (has_cs v = true <-> v = 5 \/ v = 6)).
Proof.
  intros cfg rs Hg s. pose proof (reached_run cfg rs) as HR. destruct (reached_frames HR) as (A2 & Hf).
  split; [exact A2|]. split; [intros Hr; apply (applied_after_accept HR Hg); right; exact Hr|].
  split; [exact (proj1 (Forall_forall _ _) (checksummed_ok _ _ _ Hf))|].
  intros v Hin. split.
  - intros Hv. repeat (destruct Hin as [<-|Hin]; [cbn in Hv; try discriminate; auto|]). destruct Hin.
  - intros [-> | ->]; reflexivity.
Qed.
Print Assumptions C47_checksumming_iff_v5.

(* (T) the model's version predicate IS the driver's: has_checksumming_support is regenerated from cassandra/__init__.py *)
Theorem C47_has_cs_is_source : forall v, has_checksumming_support v = has_cs v.
Proof. reflexivity. Qed.
Print Assumptions C47_has_cs_is_source.

(* once the server has accepted STARTUP (authentication phase, or reported ready) the NEGOTIATED compression is what the
   connection applies: compressor = the algorithm staged by SUPPORTED and announced in STARTUP; checksumming exactly on the
   checksumming versions and then the segment codec compresses iff a compression was negotiated; every AUTH_RESPONSE /
   CREDENTIALS frame is framed accordingly (frame flag below v5, compressing segment codec from v5) *)
Theorem C47_negotiated_compression_applied : forall cfg rs, c_guard cfg = true ->
  let s := fst (run cfg rs) in
  (authphase s \/ reported_ready s = true ->
     comp s = pcomp s /\ cksum s = has_cs (c_version cfg) /\ (cksum s = true -> seglz4 s = is_some (pcomp s)))
  /\ (forall f, In f (snd (run cfg rs)) -> f_kind f = MAuthResponse \/ f_kind f = MCredentials ->
        f_compressed f = is_some (pcomp s) && negb (has_cs (c_version cfg))
        /\ f_checksummed f = has_cs (c_version cfg)
        /\ f_segcomp f = has_cs (c_version cfg) && is_some (pcomp s))
  /\ (forall a, pcomp s = Some a -> announces (snd (run cfg rs)) a).
Proof.
  intros cfg rs Hg s. pose proof (reached_run cfg rs) as HR. destruct (reached_frames HR) as (_ & Hf).
  split; [exact (applied_after_accept HR Hg)|].
  split; [exact (proj1 (Forall_forall _ _) (auth_frames_ok _ _ _ Hf)) | exact (announced _ _ _ Hf)].
Qed.
Print Assumptions C47_negotiated_compression_applied.

(* reuse: the READY / AUTHENTICATE switch of this model (`enable`) IS the switch model of Model/Segment.v (C06's hstate) *)
Definition to_hstate (s : state) : Segment.hstate :=
  Segment.mkHs (is_some (pcomp s)) (is_some (comp s)) (if cksum s then Some (seglz4 s) else None).

Theorem C47_enable_is_segment_switch : forall v s, cksum s = false ->
  to_hstate (enable v s) = Segment.on_reply (has_cs v) Segment.RReady (to_hstate s)
  /\ to_hstate (enable v s) = Segment.on_reply (has_cs v) Segment.RAuthenticate (to_hstate s).
Proof.
  intros v s Hc. unfold to_hstate, enable.
  destruct (has_cs v), (pcomp s), (comp s); cbn; rewrite ?Hc; auto.
Qed.
Print Assumptions C47_enable_is_segment_switch.

(* once the connection is reported, further protocol replies are dropped: the handshake cannot be re-run *)
Theorem C47_handshake_is_final : forall cfg rs r, connected (fst (run cfg rs)) = true ->
  r <> RDisconnect -> r <> RSockErr -> fst (run cfg (rs ++ [r])) = fst (run cfg rs).
Proof.
  intros cfg rs r Hc H1 H2. rewrite run_app_state. cbn [run_from].
  rewrite (connected_replies_dropped r (reached_run cfg rs) Hc H1 H2). reflexivity.
Qed.
Print Assumptions C47_handshake_is_final.

(* non-vacuity: a SASL handshake on v5 with lz4 on both sides reaches `ready`, checksummed, compressed after AUTHENTICATE *)
Example C47_nonvacuous :
  let cfg := mkConfig ASasl CompAuto [0; 1] 5 true in
  let rs := [RSupported [1; 0]; RAuthenticate; RChallenge true; RAuthSuccess] in
  reported_ready (fst (run cfg rs)) = true /\ comp (fst (run cfg rs)) = Some 0 /\ cksum (fst (run cfg rs)) = true
  /\ map f_kind (snd (run cfg rs)) = [MOptions; MStartup (Some 0); MAuthResponse; MAuthResponse]
  /\ map f_segcomp (snd (run cfg rs)) = [false; false; true; true].
Proof. repeat split; reflexivity. Qed.

Example C47_nonvacuous_authfail :
  let cfg := mkConfig ADict (CompName 1) [0; 1] 1 true in
  last_error (fst (run cfg [RSupported [1]; RAuthenticate; RError EkAuth])) = Some EAuthFailed
  /\ last_error (fst (run cfg [RSupported [1]; RError EkAuth])) = Some EConnException.
Proof. split; reflexivity. Qed.
