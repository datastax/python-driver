(* C16 -- Retries do exactly what the retry policy decided.
   Model: Model/FutB.v (error branches of ResponseFuture._set_result, _handle_retry_decision, _retry, _retry_task through the
   executor queue, _query_retries; Session._create_response_future's speculative-plan gating in `init`).
   The retry policy is an ORACLE: `pol c : nat -> ekind -> Z -> Z -> option Z -> decision * option Z`, an arbitrary function of
   the consultation number and of every argument it is given.  Every theorem quantifies over all configurations (hence all
   policies, including any "random" one), all states / all histories. *)
From Coq Require Import ZArith List Bool.
From Verif Require Import PyBase FutbProto FutB FutB_lemmas FutB_steps FutB_origin C16_proofs C19_proofs.
Import ListNotations.
Local Open Scope Z_scope.

(* A retryable failure (read/write timeout, unavailable, overloaded, bootstrapping, truncate error, server error,
   connection error, connection shutdown) answered to an open request attempt at host h: the policy is consulted exactly
   once, about that failure, with retry_num = _query_retries (and, for on_request_error, the message's consistency level);
   the failure is recorded in _errors[h]; and the decision is carried out:
     RETRY cl          -> retry counter + 1; unless the request already failed, the message's consistency level becomes cl
                          (if given) and a same-host retry of h is handed to the executor;
     RETRY_NEXT_HOST cl-> the same with a next-host retry;
     RETHROW           -> the request fails with that server error, nothing is scheduled;
     IGNORE            -> the request completes with an empty result, nothing is scheduled. *)
Theorem C16_consulted_once_and_obeyed : forall c s i h k tag, open_query s i h -> inline_retry c = false ->
  let '(d, dcl) := pol c (nconsult s) k tag (retries s) (clarg s k) in
  exists s1, step c s (Resp i (RRetryable k tag))
             = (s1, [Consult (nconsult s) h k tag (retries s) (clarg s k) d dcl; ErrSet h (EResp k tag)])
  /\ nconsult s1 = S (nconsult s)
  /\ lookup (errors s1) h = Some (EResp k tag)
  /\ attempts s1 = mark_done i (attempts s) /\ plan s1 = plan s /\ pools s1 = pools s
  /\ match d with
     | DRetry => retry_effect s s1 dcl (TRetry true h)       (* see C16_proofs.retry_effect: counter + 1; request not failed and *)
     | DNextHost => retry_effect s s1 dcl (TRetry false h)   (* session open: level set, task queued, outcome untouched; session
                                                                shut down: ConnectionShutdown; request already failed: nothing *)
     | DRethrow => fin_exc s1 = (if completed s then fin_exc s else Some (XResp k tag)) /\ fin_res s1 = fin_res s /\
                   queue s1 = queue s /\ retries s1 = retries s /\ msg_cl s1 = msg_cl s
     | DIgnore => fin_res s1 = (if completed s then fin_res s else Some FNone) /\ fin_exc s1 = fin_exc s /\
                  queue s1 = queue s /\ retries s1 = retries s /\ msg_cl s1 = msg_cl s
     end.
Proof.
  intros c s i h k tag O Inl. destruct (pol c (nconsult s) k tag (retries s) (clarg s k)) as [d dcl] eqn:P.
  eexists. split; [exact (retryable_step c s i h k tag d dcl O Inl P)|].
  destruct (handle_decision_spec (tick_consult (set_attempts s (mark_done i (attempts s)))) h k tag d dcl) as (A & B & C & D & E & F).
  repeat (split; [assumption|]). exact F.
Qed.
Print Assumptions C16_consulted_once_and_obeyed.

(* ... and the policy is consulted nowhere else: every consultation in any step is the one above *)
Theorem C16_consulted_only_on_failure : forall c s o s' ev n h k tag rn cl d dcl, step c s o = (s', ev) ->
  In (Consult n h k tag rn cl d dcl) ev ->
  exists i, o = Resp i (RRetryable k tag) /\ open_query s i h /\ n = nconsult s /\ rn = retries s /\ cl = clarg s k /\
            (d, dcl) = pol c n k tag rn cl.
Proof. intros c s o s' ev n h k tag rn cl d dcl H Hin. exact (reach_events (step_reach H) _ Hin). Qed.
Print Assumptions C16_consulted_only_on_failure.

(* RETRY cl: when the executor runs the retry (the request has not failed meanwhile, h's pool is usable), exactly one
   message is sent: the original request, to the same host h, at the level the policy chose *)
Theorem C16_obeys_retry : forall c s i h k tag dcl s1 ev1 s2 ev2, open_query s i h -> fin_exc s = None ->
  session_shut s = false -> inline_retry c = false ->
  pol c (nconsult s) k tag (retries s) (clarg s k) = (DRetry, dcl) ->
  step c s (Resp i (RRetryable k tag)) = (s1, ev1) -> pool_of s h = PHealthy ->
  step c s1 (Run (length (queue s))) = (s2, ev2) ->
  ev2 = [Sent h (MOrig (match dcl with Some x => Some x | None => msg_cl s end)) CRetrySame] /\ plan s2 = plan s.
Proof.
  intros c s i h k tag dcl s1 ev1 s2 ev2 O Ex Sh Inl Pol S1 Hp S2.
  destruct (retry_queued c s i h k tag true dcl s1 ev1 O Ex Sh Inl Pol S1) as (Qu & Re & Rp & Rpo & C).
  rewrite (followup_sends c s1 _ _ h _ _ Qu (conj eq_refl (conj eq_refl eq_refl))
             (Re : live c s1 (TRetry true h))) in S2
    by (rewrite <- Hp; apply pool_of_ext, Rpo).
  injection S2 as <- <-. rewrite C. split; [reflexivity|exact Rp].
Qed.
Print Assumptions C16_obeys_retry.

(* RETRY_NEXT_HOST cl: the executor task is exactly one send_request over the plan as it was, at the chosen level: by
   C17_order it goes to the first usable host of the remaining plan, or reports NoHostAvailable *)
Theorem C16_obeys_next_host : forall c s i h k tag dcl s1 ev1 s2 ev2, open_query s i h -> fin_exc s = None ->
  session_shut s = false -> inline_retry c = false ->
  pol c (nconsult s) k tag (retries s) (clarg s k) = (DNextHost, dcl) ->
  step c s (Resp i (RRetryable k tag)) = (s1, ev1) ->
  step c s1 (Run (length (queue s))) = (s2, ev2) ->
  exists s1', plan s1' = plan s /\ pools s1' = pools s /\ queue s1' = queue s /\
              msg_cl s1' = match dcl with Some x => Some x | None => msg_cl s end /\
              send_request s1' true = (s2, ev2) /\ walked s1' (plan s) true s2 ev2.
Proof.
  intros c s i h k tag dcl s1 ev1 s2 ev2 O Ex Sh Inl Pol S1 S2.
  destruct (retry_queued c s i h k tag false dcl s1 ev1 O Ex Sh Inl Pol S1) as (Qu & Re & Rp & Rpo & C).
  rewrite (run_last c s1 _ _ Qu) in S2. cbn [run_task fin_exc set_queue] in S2. rewrite Re in S2.
  exists (set_queue s1 (queue s)). repeat split; try assumption.
  apply walk_walked in S2. cbn [plan set_queue] in S2. rewrite Rp in S2. exact S2.
Qed.
Print Assumptions C16_obeys_next_host.

(* a retry whose request has failed in the meantime sends nothing *)
Theorem C16_no_retry_after_failure : forall c s k reuse h, nth_error (queue s) k = Some (TRetry reuse h) ->
  fin_exc s <> None -> step c s (Run k) = (set_queue s (remove_nth k (queue s)), []).
Proof. intros c s k reuse h N E. rewrite (step_run c s k _ N). apply run_task_failed; [exact E|discriminate]. Qed.
Print Assumptions C16_no_retry_after_failure.

(* the retry count passed to the policy is the number of retry decisions taken so far in this execution, and the number
   of consultations is the number of consult events: over every history from the initial state *)
Theorem C16_retry_num : forall c lb target pl cl idem hasp maxa ks ops s evs,
  exec c (init lb target pl cl idem hasp maxa ks) ops = (s, evs) ->
  retries s = retry_count evs /\ nconsult s = length (consults evs).
Proof.
  intros c lb target pl cl idem hasp maxa ks ops s evs H. destruct (reach_counted (exec_moves H)) as [R N].
  destruct (init_counters lb target pl cl idem hasp maxa ks) as [I1 I2]. rewrite I1 in R. rewrite I2 in N. split; [rewrite R; apply Z.add_0_l|exact N].
Qed.
Print Assumptions C16_retry_num.

(* statements not marked idempotent are never executed speculatively: whatever speculative policy the profile carries,
   at every reachable state the speculative timer is not armed and firing it does nothing *)
Theorem C16_non_idempotent_never_speculative : forall c lb target pl cl hasp maxa ks ops s evs,
  exec c (init lb target pl cl false hasp maxa ks) ops = (s, evs) ->
  spec_armed s = false /\ step c s Spec = (s, []).
Proof.
  intros c lb target pl cl hasp maxa ks ops s evs H.
  assert (N : never_spec s) by exact (reach_never_spec (exec_moves H) (init_never_spec _ _ _ _ _ _ _)).
  destruct N as [A L]. split; [exact A|]. cbn [step]. unfold spec_fire. rewrite A. reflexivity.
Qed.
Print Assumptions C16_non_idempotent_never_speculative.

(* non-vacuity: read timeout from host 0 answered RETRY at consistency 5, then an overloaded error answered
   RETRY_NEXT_HOST, then unavailable answered RETHROW; retry_num goes 0, 1, 2 *)
Example C16_nonvacuous :
  let c := {| pol := scripted [(DRetry, Some 5); (DNextHost, None); (DRethrow, None)]; fut_ps := None; known := []; pv := 4; tgt := None; inline_retry := false |} in
  let s0 := init [0; 1] None [(0, PHealthy); (1, PHealthy)] (Some 1) false true 2 None in
  let '(s, evs) := exec c s0 [Start; Resp 0%nat (RRetryable KReadTimeout 10); Run 0%nat;
                              Resp 1%nat (RRetryable KOverloaded 11); Run 0%nat; Resp 2%nat (RRetryable KUnavailable 12)] in
  evs = [Sent 0 (MOrig (Some 1)) CPlan;
         Consult 0 0 KReadTimeout 10 0 None DRetry (Some 5); ErrSet 0 (EResp KReadTimeout 10);
         Sent 0 (MOrig (Some 5)) CRetrySame;
         Consult 1 0 KOverloaded 11 1 (Some 5) DNextHost None; ErrSet 0 (EResp KOverloaded 11);
         Sent 1 (MOrig (Some 5)) CPlan;
         Consult 2 1 KUnavailable 12 2 None DRethrow None; ErrSet 1 (EResp KUnavailable 12)]
  /\ fin_exc s = Some (XResp KUnavailable 12) /\ retries s = 2.
Proof. vm_compute. repeat split. Qed.
