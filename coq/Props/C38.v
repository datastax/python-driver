(* C38 -- cqlengine routing keys equal the partition key Cassandra hashes.
   Model/CompositeMapper.v: the metaclass loop (the repaired one: an overriding column does not consume a partition-key
   index), partition_key_values, _execute_statement, Statement._set_routing_key; composite_spec from CompositeSpec.v.
   T = column types, V = values, ser = cql_type.to_binary: all abstract. *)
From Coq Require Import ZArith List Bool.
From Verif Require Import CompositeSpec CompositeMapper C38_proofs.
Import ListNotations.
Local Open Scope Z_scope.

(* For EVERY list of column definitions (inherited first, then the class's own; overriding and db_field renames included):
   the partition-key indexes are 0,1,2,.. in partition-key order -- the order CREATE TABLE uses. *)
Theorem C38_index_dense : forall T (defs : list (cdef T)),
  let pks := partition_keys T (run_meta_with T (process_def T) defs) in
  map (p_pidx T) pks = seq 0 (length pks).
Proof. exact index_dense. Qed.
Print Assumptions C38_index_dense.

(* Whole partition key fixed by equality clauses / assignments with non-null values (the LAST one per column counts)
   ==> the routing key handed to the session is Cassandra's encoding of the serialized key values in table order. *)
Theorem C38_routing : forall T V (ser : T -> V -> option (list Z)) defs wheres assigns vs bs,
  let s := run_meta_with T (process_def T) defs in
  let pks := partition_keys T s in
  let cs := filter (c_eq V) wheres ++ assigns in
  pks <> [] -> NoDup (map (p_dbf T) pks) ->
  Forall2 (fun c v => bound_value V cs (p_dbf T c) = Some v) pks vs ->
  Forall2 (fun tv b => ser (fst tv) (snd tv) = Some b) (combine (map (p_type T) pks) vs) bs ->
  forallb component_ok bs = true \/ length pks = 1%nat ->
  execute T V ser s wheres assigns = RBytes (composite_spec bs).
Proof. exact routing. Qed.
Print Assumptions C38_routing.

(* the loop as it was before the fix: a subclass that overrides an inherited partition key column and then adds a
   partition key column gets indexes {0,1,3} for three columns, and every statement on the model raises IndexError *)
Theorem C38_gap_refuted :
  let defs := [c38_def 1 1 true false; c38_def 2 2 true false; c38_def 1 1 true false; c38_def 3 3 true false] in
  let s := run_meta_with unit (process_def_gap unit) defs in
  map (p_pidx unit) (partition_keys unit s) = [0; 1; 3]%nat /\
  execute unit (list Z) c38_ser s [mkclause 1 true (Some [1]); mkclause 2 true (Some [2]); mkclause 3 true (Some [3])] [] = RErr.
Proof. vm_compute. split; reflexivity. Qed.
Print Assumptions C38_gap_refuted.

(* non-vacuity: inherited (a, b) + own override of a + new partition key c renamed in the database; an INSERT *)
Example C38_nonvacuous :
  c38_run [c38_def 1 1 true false; c38_def 2 2 true false; c38_def 1 1 true false; c38_def 3 30 true false; c38_def 4 4 false false]
          [] [mkclause 1 true (Some [0; 0; 0; 1]); mkclause 2 true (Some [120]); mkclause 30 true (Some [9; 9]); mkclause 4 true (Some [5])]
  = ([(1, 0%nat); (2, 1%nat); (30, 2%nat)], RBytes (composite_spec [[0; 0; 0; 1]; [120]; [9; 9]])).
Proof. vm_compute. reflexivity. Qed.
