(* C13 -- replacing an overloaded connection never abandons live requests (HostConnection).
   Same model and invariant as C12 (Model/Pool.v, Proofs/C12_proofs.v). *)
From Coq Require Import ZArith List Bool Lia.
From Verif Require Import Pool Pool_base C12_proofs.
Import ListNotations.
Local Open Scope Z_scope.

(* once _replace has finished for connection c, every borrow that starts afterwards gets a strictly newer
   connection (the replacement or a later one), never c again *)
Theorem C13_new_requests_move : forall (w : bool) (mx th : Z) (ops : list op) (c c' : nat),
  0 <= mx -> c_replaced (getc (run (init w mx th) ops) c) = true ->
  In (OConn c') (snd (step (run (init w mx th) ops) GetConn)) -> (c < c')%nat.
Proof. intros w mx th ops c c' H. apply inv_new_requests_move, Inv_reach, H. Qed.
Print Assumptions C13_new_requests_move.

(* whenever the replacement machinery (the else-branch of _replace, or the trash branch of return_connection)
   calls close() on a connection, no non-orphaned request is outstanding on it -- in every reachable state.
   (closes by shutdown() and by the connection's own defunct() carry other reasons and are excluded, as in the statement) *)
Theorem C13_no_close_while_live : forall (w : bool) (mx th : Z) (ops : list op) (o : op) (c : nat) (why : Z),
  0 <= mx -> In (OClose c why) (snd (step (run (init w mx th) ops) o)) ->
  why = BY_TRASH \/ why = BY_REPLACE -> c_live (getc (run (init w mx th) ops) c) = 0.
Proof. intros w mx th ops o c why H. apply close_only_idle, InvA_run, InvA_init, H. Qed.
Print Assumptions C13_no_close_while_live.

(* a replaced connection is closed as soon as only orphaned streams remain on it and the return_connection
   calls that brought the count down have run to their end *)
Theorem C13_eventually_closed : forall (w : bool) (mx th : Z) (ops : list op) (c : nat),
  0 <= mx ->
  let k := getc (run (init w mx th) ops) c in
  c_replaced k = true -> c_live k = 0 -> c_retp k = 0 -> c_trp k = 0 -> c_closed k = true.
Proof. intros w mx th ops c H k. apply inv_eventually_closed, Inv_reach, H. Qed.
Print Assumptions C13_eventually_closed.

(* a scheduled replacement is never lost: while _is_replacing is set on an open pool, exactly one _replace task is queued or
   running -- whatever made connection attempts fail (ReplaceConnect false stands for ANY exception of the connect) *)
Theorem C13_replacement_not_abandoned : forall (w : bool) (mx th : Z) (ops : list op),
  0 <= mx ->
  let s := run (init w mx th) ops in
  replacing s = true -> shut s = false ->
  (length (queue s) + length (connecting s) + length (assigning s) + length (finishing s) = 1)%nat.
Proof. intros w mx th ops H s. apply task_kept, Inv_reach, H. Qed.
Print Assumptions C13_replacement_not_abandoned.

(* non-vacuous: connection 0 crosses the threshold with one live request left, is replaced (trashed, still open),
   a new borrow gets connection 1, and the last return closes connection 0 *)
Definition C13_hist : list op :=
  [GetConn; BorrowTry 0; BorrowTry 0; BorrowTry 0; Orphan 0; ReturnRead 0; Orphan 0; ReturnRead 0;
   GetConn; BorrowReadThr 0; BorrowCheckReplace 0; ReplaceCheck; ReplaceConnect true; ReplaceAssign; ReplaceFinish].
Example C13_nonvacuous :
  let s := run (init true 3 2) C13_hist in
  c_replaced (getc s 0) = true /\ c_closed (getc s 0) = false /\ c_live (getc s 0) = 1 /\ trash s = [0%nat] /\
  snd (step s GetConn) = [OConn 1%nat] /\
  let s' := run s [ReturnDec 0; Notify; ReturnRead 0; ReturnTrash 0] in
  c_live (getc s' 0) = 0 /\ c_closed (getc s' 0) = true /\ events s [ReturnDec 0; Notify; ReturnRead 0; ReturnTrash 0] <> [].
Proof. vm_compute. repeat split; discriminate. Qed.
