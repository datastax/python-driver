(* C11 -- messages pushed concurrently reach the socket whole and in order (PARTIAL: see docs/C11.md).
   Model: Model/Push.v.  A schedule is ANY list of ops: thread t calls push() with its next message (application threads
   hand off through a threadsafe callback that creates the task, the loop thread / every twisted thread schedules the
   step directly, all in ONE ready FIFO) / the loop runs its oldest ready entry / the socket accepts up to k bytes of the
   chunk being written.  Any number of threads, any message contents and sizes, any partial-send pattern.
   What the model assumes and cannot exhibit: the ready queue is FIFO, a coroutine without an await between put_nowait
   calls is one loop step, the writer resumes the unsent rest of a chunk (sock_sendall / twisted transport buffer). *)
From Coq Require Import ZArith List Bool Arith.
From Verif Require Import Push C11_proofs.
Import ListNotations.

(* chunking loses nothing, reorders nothing, respects the buffer size, for every message and every positive size *)
Theorem C11_chunks : forall n m, (0 < n)%nat ->
  exists cs, chunks n m = Some cs /\ concat cs = m /\ Forall (fun c => (length c <= n)%nat) cs /\ cs <> [].
Proof. exact chunks_ok. Qed.
Print Assumptions C11_chunks.

(* at every point of every interleaving: the bytes accepted by the socket, then the unsent rest of the current chunk,
   then the write queue are exactly the messages whose task step has run, concatenated whole in that order (no message
   truncated, duplicated or interleaved, however the socket splits the sends); that order restricted to a thread,
   followed by the thread's messages still in the ready queue (scheduled steps first, then handoffs) and by what it has
   not pushed yet, is the thread's program; when everything is drained the wire IS the concatenation and each thread's
   part of it is exactly what the thread pushed *)
Theorem C11_order : forall c prog ops, mode_ok (p_mode c) -> p_keep_rest c = true ->
  let s := run c prog ops in
  wire s ++ cur s ++ concat (queue s) = concat (map snd (order s))
  /\ (forall t, thread_part t (order s) ++ steps_of t (ready s) ++ handoffs_of t (ready s) ++ todo s t = prog t)
  /\ (drained s -> wire s = concat (map snd (order s)) /\ forall t, thread_part t (order s) ++ todo s t = prog t).
Proof.
  intros c prog ops Hmd Hk s. pose proof (inv_run c prog ops Hmd Hk) as I.
  split; [apply I|split; [apply I|apply (inv_drained c), I]].
Qed.
Print Assumptions C11_order.

(* a writer that treats a partial send as complete (drops the unsent rest of the chunk) truncates messages *)
Theorem C11_partial_send_must_resume :
  exists c prog ops, mode_ok (p_mode c) /\ p_keep_rest c = false /\
    drained (run c prog ops) /\ wire (run c prog ops) <> concat (map snd (order (run c prog ops))).
Proof.
  exists (mkCfg (Chunked 4) (fun _ => false) false), (prog_of [[(7%Z, 6%nat)]]),
         [Push 0; RunReady; RunReady; SendPart 3; SendPart 4].
  split; [cbn; auto with arith|]. split; [reflexivity|]. split; [cbv; auto|]. cbv. discriminate.
Qed.
Print Assumptions C11_partial_send_must_resume.

(* protocol v5 send path: send_msg hands the whole run of segments of a frame to push() in ONE call, so for any segment
   encoder, any MAX_PAYLOAD_LENGTH and any interleaving the drained wire is a concatenation of complete segment runs, and
   each thread's part of it is the encoding of a prefix of the frames it sent, in its order *)
Theorem C11_send_v5_segments_contiguous : forall enc maxp c frames ops, mode_ok (p_mode c) -> p_keep_rest c = true ->
  let s := run c (send_prog enc maxp frames) ops in
  drained s ->
  wire s = concat (map snd (order s))
  /\ forall t, exists k, thread_part t (order s) = map (encode_v5_or_nil enc maxp) (firstn k (frames t)).
Proof.
  intros enc maxp c frames ops Hmd Hk s Hd.
  destruct (inv_drained _ _ _ (inv_run c _ ops Hmd Hk) Hd) as [Hw Ht]. split; [exact Hw|].
  intro t. exists (length (thread_part t (order s))). eapply prefix_of_map. apply Ht.
Qed.
Print Assumptions C11_send_v5_segments_contiguous.

(* ... whereas pushing every segment on its own lets another thread's request land between the segments of a large one *)
Theorem C11_segment_per_push_refuted :
  let enc := fun (sc : bool) (p : msg) => (if sc then 1%Z else 0%Z) :: p in
  let frames := fun t : nat => match t with O => [[7; 7; 7]%Z] | S O => [[9]%Z] | _ => [] end in
  exists ops, let s := run (mkCfg Whole (fun _ => true) true) (send_prog_per_segment enc 2 frames) ops in
    drained s /\ wire s = enc false [7; 7]%Z ++ encode_v5_or_nil enc 2 [9]%Z ++ enc false [7]%Z.
Proof.
  exists [Push 0; Push 1; Push 0; RunReady; RunReady; RunReady; SendPart 9; SendPart 9; SendPart 9].
  cbv. auto.
Qed.
Print Assumptions C11_segment_per_push_refuted.

(* out_buffer_size = 0 is not a usable configuration: push() raises for every non-empty message *)
Theorem C11_zero_buffer_raises : forall m, (0 < length m)%nat -> chunks 0 m = None.
Proof. intros m H. unfold chunks. destruct m; [inversion H|reflexivity]. Qed.
Print Assumptions C11_zero_buffer_raises.

Example C11_nonvacuous :
  let prog := prog_of [[(1%Z, 5%nat); (2%Z, 2%nat)]; [(3%Z, 4%nat)]] in
  (* thread 0 = application thread (handoff, then task step), thread 1 = the loop thread (step scheduled directly) *)
  let c := mkCfg (Chunked 3) (fun t => Nat.eqb t 1) true in
  let s := run c prog [Push 0; Push 1; RunReady; RunReady; SendPart 2; RunReady; Push 0; SendPart 9; SendPart 1; SendPart 9;
                       RunReady; RunReady; SendPart 9; SendPart 9; SendPart 9] in
  wire s = [3;3;3;3;1;1;1;1;1;2;2]%Z /\ drained s
  /\ chunks 3 [1;1;1;1;1]%Z = Some [[1;1;1]; [1;1]]%Z.
Proof. cbv. repeat split; reflexivity. Qed.
