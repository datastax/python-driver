(* C40 -- GraphSON values survive serialization and deserialization.
   Model: Model/GraphSON.v (hand-written from cassandra/datastax/graph/graphson.py, tied by correspondence on every run):
   the REPAIRED code (datetime registered before date; Duration in integer arithmetic with a leading sign); the code before
   the repairs is kept as registry1_legacy / duration_serialize_legacy with its refutations.
   Python's own leaf formatters/parsers are universally quantified functions constrained by `leaf_laws` (ASSUMED). *)
From Coq Require Import ZArith List Bool Lia.
From Verif Require Import DyFloat GraphSON C40_proofs.
Import ListNotations.
Local Open Scope Z_scope.

(* GraphSON 2 and 3: for every supported value tree (any depth, any width), the reader applied to what the serializer
   wrote gives back the equal value (norm: a blob comes back as bytearray, a datetime-subclass instance as datetime). *)
Theorem C40_roundtrip_23 :
  forall (D Dt Tm Dtm U : Type) (dec_str : D -> list Z) (dec_parse : list Z -> option D) (uuid_str : U -> list Z)
         (uuid_parse : list Z -> option U) (date_iso : Dt -> list Z) (strptime_date : list Z -> option Dt)
         (time_fmt : Tm -> list Z) (strptime_hm strptime_hms strptime_hmsf : list Z -> option Tm) (dtm_iso : Dtm -> list Z)
         (strptime_frac strptime_nofrac : list Z -> option Dtm) (geqb : gval D Dt Tm Dtm U -> gval D Dt Tm Dtm U -> bool),
    leaf_laws D Dt Tm Dtm U dec_str dec_parse uuid_str uuid_parse date_iso strptime_date time_fmt strptime_hm strptime_hms
              strptime_hmsf dtm_iso strptime_frac strptime_nofrac ->
    forall (ver : version) (v : gval D Dt Tm Dtm U), ver <> V1 ->
    supported D Dt Tm Dtm U geqb ver v ->
    exists j, serialize23 D Dt Tm Dtm U dec_str uuid_str date_iso time_fmt dtm_iso ver v = Some j /\
              deserialize23 D Dt Tm Dtm U dec_parse uuid_parse strptime_date strptime_hm strptime_hms strptime_hmsf
                            strptime_frac strptime_nofrac geqb ver j = Some (norm D Dt Tm Dtm U v).
Proof. exact roundtrip23. Qed.
Print Assumptions C40_roundtrip_23.

(* GraphSON 1 (untyped on the wire: the caller names the type, here the serializer chosen for the value): scalars *)
Theorem C40_roundtrip_1 :
  forall (D Dt Tm Dtm U : Type) (dec_str : D -> list Z) (dec_parse : list Z -> option D) (uuid_str : U -> list Z)
         (uuid_parse : list Z -> option U) (date_iso : Dt -> list Z) (strptime_date : list Z -> option Dt)
         (time_fmt : Tm -> list Z) (strptime_hm strptime_hms strptime_hmsf : list Z -> option Tm) (dtm_iso : Dtm -> list Z)
         (strptime_frac strptime_nofrac : list Z -> option Dtm),
    leaf_laws D Dt Tm Dtm U dec_str dec_parse uuid_str uuid_parse date_iso strptime_date time_fmt strptime_hm strptime_hms
              strptime_hmsf dtm_iso strptime_frac strptime_nofrac ->
    forall v : gval D Dt Tm Dtm U, supported1 D Dt Tm Dtm U v ->
    exists j, serialize1 D Dt Tm Dtm U dec_str uuid_str date_iso time_fmt dtm_iso v = Some j /\
              deserialize1 D Dt Tm Dtm U dec_parse uuid_parse strptime_date strptime_hm strptime_hms strptime_hmsf strptime_frac
                           strptime_nofrac (serializer_of D Dt Tm Dtm U V1 v) j = Some (norm D Dt Tm Dtm U v).
Proof. exact roundtrip1. Qed.
Print Assumptions C40_roundtrip_1.

(* every timedelta (negative, sub-second, 1 microsecond, arbitrarily long) survives the gx:Duration text *)
Theorem C40_duration_roundtrip : forall us : Z, duration_deserialize (duration_serialize us) = Some us.
Proof. exact duration_roundtrip. Qed.
Print Assumptions C40_duration_roundtrip.

(* every byte string survives base64 (dse:Blob / gx:ByteBuffer) *)
Theorem C40_base64_roundtrip : forall bs : list Z, Forall (fun b => 0 <= b < 256) bs -> b64_decode (b64_encode bs) = Some bs.
Proof. exact b64_roundtrip. Qed.
Print Assumptions C40_base64_roundtrip.

(* every Point / LineString / Polygon (any number of interior rings) survives its WKT text; a polygon that prints as
   POLYGON EMPTY must not carry interior rings *)
Theorem C40_geometry_roundtrip : forall g : geom, geom_ok g -> from_wkt (geom_kind g) (geom_wkt g) = Some g.
Proof. exact geom_roundtrip. Qed.
Print Assumptions C40_geometry_roundtrip.

(* dispatch: an instance of a datetime subclass is written by the Instant serializer in every version; ints are Int32
   inside [MIN_INT32, MAX_INT32] (the driver's own bounds) and Int64 outside *)
Theorem C40_dispatch : forall ver,
  get_serializer ver KDatetime false None = Some TInstant /\
  (forall z, ver <> V1 -> get_serializer ver KInt true (Some z) =
                          if (MAX_INT32 <? z) || (z <? MIN_INT32) then Some TInt64 else Some TInt32).
Proof. intros ver. split; [destruct ver; reflexivity | intros z H; destruct ver; [congruence | reflexivity | reflexivity]]. Qed.
Print Assumptions C40_dispatch.

(* the code before the repairs: the statement it had to meet, and its refutations (replayed from corpus/C40) *)
Definition C40_legacy_duration_statement : Prop :=
  forall us, duration_deserialize (duration_serialize_legacy us) = Some us.

(* -1.5 s was written P-1DT23H59M59.5S, which the driver's own regex rejects *)
Theorem C40_legacy_duration_refuted : ~ C40_legacy_duration_statement.
Proof. intros H. specialize (H (-1500000)). vm_compute in H. discriminate H. Qed.
Print Assumptions C40_legacy_duration_refuted.

(* 1 us was written 1e-06S (rejected); -0.5 s came back as +0.5 s; 2^36 s - 1 us came back one second longer *)
Theorem C40_legacy_duration_witnesses :
  duration_deserialize (duration_serialize_legacy 1) = None /\
  duration_deserialize (duration_serialize_legacy (-500000)) = Some 500000 /\
  duration_deserialize (duration_serialize_legacy (68719476736000000 - 1)) = Some (68719476736000000 - 1 + 1000000).
Proof. vm_compute. repeat split; reflexivity. Qed.
Print Assumptions C40_legacy_duration_witnesses.

(* date was registered before datetime: a datetime-subclass instance got the LocalDate serializer and came back as text *)
Theorem C40_legacy_dispatch_refuted :
  first_isinstance KDatetime registry1_legacy = Some TLocalDate /\ first_isinstance KDatetime registry1 = Some TInstant.
Proof. split; reflexivity. Qed.
Print Assumptions C40_legacy_dispatch_refuted.

(* non-vacuity: the laws are satisfiable and a nested GraphSON3 value (negative duration, blob, subclass) round-trips *)
Definition nv_str (z : Z) : list Z := [z].
Definition nv_parse (s : list Z) : option Z := match s with [z] => Some z | _ => None end.
Definition nv_parse_z (s : list Z) : option Z := match s with [z; 90] => Some z | _ => None end.
Definition nv_none (s : list Z) : option Z := None.
Definition nv_geqb (a b : gval Z Z Z Z Z) : bool := false.

Example C40_nonvacuous_laws :
  leaf_laws Z Z Z Z Z nv_str nv_parse nv_str nv_parse nv_str nv_parse nv_str nv_none nv_none nv_parse nv_str nv_parse_z nv_none.
Proof. repeat split; try reflexivity. left. reflexivity. Qed.

Example C40_nonvacuous :
  let v := GList Z Z Z Z Z
             [GTuple Z Z Z Z Z [GInt Z Z Z Z Z 5; GTimedelta Z Z Z Z Z (-1500000); GBlob Z Z Z Z Z BBytes [1; 2; 255]];
              GSet Z Z Z Z Z [GInt Z Z Z Z Z 1099511627776; GStr Z Z Z Z Z [97]];
              GDict Z Z Z Z Z [(GStr Z Z Z Z Z [107], GDatetime Z Z Z Z Z 7 true); (GStr Z Z Z Z Z [108], GDatetimeAware Z Z Z Z Z 9 8)];
              GGeom Z Z Z Z Z (GeoPoly [((0, 0), (0, 0)); ((1, 2), (0, 0)); ((0, 0), (1, 2)); ((0, 0), (0, 0))]
                                       [[((1, 0), (1, 0)); ((3, -1), (1, 0)); ((1, 0), (3, -1)); ((1, 0), (1, 0))]])] in
  supported Z Z Z Z Z nv_geqb V3 v /\
  match serialize23 Z Z Z Z Z nv_str nv_str nv_str nv_str nv_str V3 v with
  | Some j => deserialize23 Z Z Z Z Z nv_parse nv_parse nv_parse nv_none nv_none nv_parse nv_parse_z nv_none nv_geqb V3 j
              = Some (norm Z Z Z Z Z v)
  | None => False
  end.
Proof.
  split.
  - repeat split; try reflexivity. repeat constructor; lia.
  - vm_compute. reflexivity.
Qed.
(* open finding C40-3: the statement without hashability side condition, at one-blob sets, and its refutation;
   C40_roundtrip_23 is the partial theorem: its `supported` demands set_build / dict_build = Some ..., which fails exactly
   when a deserialised member / key is unhashable (bytearray) *)
Definition C40_full_statement : Prop :=
  forall bs : list Z, Forall (fun b => 0 <= b < 256) bs ->
  let v := GSet Z Z Z Z Z [GBlob Z Z Z Z Z BBytes bs] in
  exists j, serialize23 Z Z Z Z Z nv_str nv_str nv_str nv_str nv_str V3 v = Some j /\
            deserialize23 Z Z Z Z Z nv_parse nv_parse nv_parse nv_none nv_none nv_parse nv_parse_z nv_none nv_geqb V3 j
            = Some (norm Z Z Z Z Z v).

(* {b'\x00'}: written as g:Set [gx:ByteBuffer "AA=="], the reader raises TypeError (unhashable bytearray) *)
Theorem C40_set_of_blobs_refuted : ~ C40_full_statement.
Proof.
  intros H. destruct (H [0]) as (j & E1 & E2); [repeat constructor; lia|].
  vm_compute in E1. injection E1 as <-. vm_compute in E2. discriminate E2.
Qed.
Print Assumptions C40_set_of_blobs_refuted.
