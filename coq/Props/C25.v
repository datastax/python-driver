(* C25 -- host state changes keep a single reconnector and notify listeners once.
   Model: Model/HostState.v (tied to cassandra/cluster.py + pool.py by per-step correspondence, checks/C25.py).
   All theorems quantify over every initial configuration (any number of hosts and sessions, finite or infinite
   reconnection schedule) and every event history of any length. *)
From Coq Require Import ZArith List Bool Arith.
From Verif Require Import HostState C25_proofs C25_notify_proofs.
Import ListNotations.

Definition note_eqb (a b : note) : bool :=
  match a, b with
  | NL k h, NL k' h' => (k =? k') && (h =? h') | NP k h, NP k' h' => (k =? k') && (h =? h')
  | NAttempt h, NAttempt h' => h =? h' | _, _ => false end.
Fixpoint notes_eqb (a b : list note) : bool :=
  match a, b with [], [] => true | x :: a', y :: b' => note_eqb x y && notes_eqb a' b' | _, _ => false end.
Definition step_out_is (r : st * list note) (l : list note) : bool := notes_eqb (snd r) l.

(* A live reconnector = not cancelled and pending (timer scheduled, or its connection attempt in flight).  At all times
   a host has at most one, and it is the one registered on the host (Host._reconnection_handler). *)
Theorem C25_single_reconnector : forall kinds ns sc es r1 r2,
  let s := run (init kinds ns sc) es in
  live s r1 -> live s r2 -> rhost (recs s r1) = rhost (recs s r2) ->
  r1 = r2 /\ reg (hosts s (rhost (recs s r1))) = Some r1.
Proof.
  intros kinds ns sc es r1 r2 s L1 L2 Hh. pose proof (J_reachable kinds ns sc es) as HJ.
  split; [eapply at_most_one_live; eauto | apply live_is_registered; auto].
Qed.
Print Assumptions C25_single_reconnector.

(* A removed host has no registered and no live reconnector, _start_reconnector is a no-op for it (so it never gets one
   again), a stale timer of one of its old reconnectors does nothing when it fires (no connection attempt), and a
   connection attempt that was in flight when the host was removed does nothing when it succeeds (no on_up / on_add). *)
Theorem C25_removed_never_reconnected : forall kinds ns sc es h,
  let s := run (init kinds ns sc) es in
  present (hosts s h) = 2 ->
  reg (hosts s h) = None /\
  (forall r, live s r -> rhost (recs s r) <> h) /\
  (forall a, start_reconnector s h a = s) /\
  (forall k r o, nth_error (timers s) k = Some r -> rhost (recs s r) = h ->
                 step s (EReconnect k o) = (set_timers (set_out s []) (remove_nth k (timers s)), [])) /\
  (forall j r, nth_error (probes s) j = Some r -> rhost (recs s r) = h ->
               step s (EProbeFinish j OOk) = (set_probes (set_out s []) (remove_nth j (probes s)), [])).
Proof.
  intros kinds ns sc es h s Hp. pose proof (J_reachable kinds ns sc es) as HJ.
  destruct (removed_no_reconnector s h HJ Hp) as [H1 H2].
  split; [exact H1 | split; [exact H2 | split; [|split]]].
  - intros a. apply removed_start_noop; auto.
  - (* J does not read `out`: HJ is also J (set_out s []) *)
    intros k r o Hk Hh. unfold step.
    rewrite (removed_fire_noop (set_out s []) k r o HJ Hk); [reflexivity | simpl; rewrite Hh; exact Hp].
  - intros j r Hj Hh. unfold step.
    rewrite (removed_probe_finish_noop (set_out s []) j r HJ Hj); [reflexivity | simpl; rewrite Hh; exact Hp].
Qed.
Print Assumptions C25_removed_never_reconnected.

(* Any step, from ANY state (reachable or not), that takes a host from "not up" (down or unknown) to "up" -- a successful
   reconnection with no pool to create, the completion of the pool futures of on_up, or of on_add -- emits exactly one
   listener notification (on_up or on_add) for that host.  lc h = number of NL 0 h / NL 2 h notes. *)
Theorem C25_up_once_per_transition : forall s e h,
  up (hosts s h) <> 1 -> up (hosts (fst (step s e)) h) = 1 -> lc h (snd (step s e)) = 1.
Proof.
  intros s e h Hn Hu. unfold step in *; simpl in *. rewrite lc_rev. apply (G_step_ (set_out s []) e h); auto.
Qed.
Print Assumptions C25_up_once_per_transition.

Example C25_nonvacuous_up : let s := run (init [1] 0 None) [EFail 0; ERun 0 OOk] in
  up (hosts s 0) = 0 /\ step_out_is (step s (EReconnect 0 OOk)) [NAttempt 0; NP 0 0; NL 0 0] = true
  /\ up (hosts (fst (step s (EReconnect 0 OOk))) 0) = 1.
Proof. vm_compute. repeat split; auto. Qed.

(* "exactly one while the host is down" and "a host marked up has pools": full statements, refuted by witnesses that
   replay on the driver (open findings C25-3 / C25-4, see docs/C25.md) *)
Definition quiescent (s : st) : bool := match queue s with [] => true | _ => false end.
Definition noauth (es : list ev) : bool := forallb (fun e => match e with ERun _ OAuth => false | _ => true end) es.
Definition down_ok (s : st) (h : nat) : bool :=
  let x := hosts s h in
  if (present x =? 1) && (up x =? 0) && negb (ignd s h) then
    match reg x with
    | Some r => negb (rcanc (recs s r)) && (existsb (Nat.eqb r) (timers s) || rstop (recs s r))
    | None => false
    end
  else true.
Definition up_ok (s : st) (h : nat) : bool :=
  let x := hosts s h in
  if (present x =? 1) && (up x =? 1) && negb (ignd s h) then forallb (fun sid => negb (poolsd s h sid =? 0)) (sessions s) else true.

Definition C25_down_has_reconnector_full : Prop := forall kinds ns sc es h,
  let s := run (init kinds ns sc) es in noauth es = true -> quiescent s = true -> down_ok s h = true.
Definition C25_up_has_pools_full : Prop := forall kinds ns sc es h,
  let s := run (init kinds ns sc) es in quiescent s = true -> up_ok s h = true.

(* new host, two sessions: one pool is created, the other fails; the resulting on_down is ignored because a pool is open
   (_discount_down_events) and the host stays "unknown"; a later real failure marks it down without any reconnector *)
Definition w_down : list ev :=
  [EAdd 0; ERun 1 OOk; ERun 0 OFail; ERun 0 OOk; EStatusDown 0; EFail 0; ERun 1 OOk; ERun 0 OOk].
Theorem C25_down_has_reconnector_refuted : ~ C25_down_has_reconnector_full.
Proof. intros H. specialize (H [0] 2 None w_down 0 eq_refl eq_refl). vm_compute in H. discriminate. Qed.
Print Assumptions C25_down_has_reconnector_refuted.

(* on_up handling (status event) overlapping on_add handling of the same new host: on_add marks the host up, then the
   failed on_up handling removes every pool; the host stays up without pools *)
Definition w_up : list ev :=
  [EAdd 0; EStatusUp 0; ERun 0 OOk; ERun 0 OOk; ERun 0 OFail; ERun 1 OOk; ERun 0 OOk; ERun 0 OOk; ERun 0 OOk].
Theorem C25_up_has_pools_refuted : ~ C25_up_has_pools_full.
Proof. intros H. specialize (H [0] 2 None w_up 0 eq_refl). vm_compute in H. discriminate. Qed.
Print Assumptions C25_up_has_pools_refuted.

(* "... until it is marked up": whenever on_up goes ahead for a host -- whatever the policy says about its distance at that
   moment (the distance may have changed since the host went down) -- the host's reconnector is detached and cancelled *)
Theorem C25_up_clears_reconnector : forall s h, handling (hosts s h) = false -> up (hosts s h) <> 1 ->
  reg (hosts (on_up s h) h) = None /\ (forall r, reg (hosts s h) = Some r -> rcanc (recs (on_up s h) r) = true).
Proof.
  intros s h Hh Hu. pose proof (on_up_core s h Hh Hu) as Hc. split.
  - rewrite (same_core_reg _ _ Hc). apply rebind_reg.
  - intros r E. rewrite (same_core_recs _ _ Hc). apply rebind_cancels, E.
Qed.
Print Assumptions C25_up_clears_reconnector.

(* the global form "a host marked up has no live reconnector" is refuted by the same overlapping on_add / on_up history
   (open finding C25-4): there the host is marked up by on_add while the failed on_up handling starts a reconnector *)
Definition no_reconnector_when_up (s : st) (h : nat) : bool :=
  let x := hosts s h in
  if (present x =? 1) && (up x =? 1) then
    match reg x with Some r => rcanc (recs s r) || negb (existsb (Nat.eqb r) (timers s ++ probes s)) | None => true end
  else true.
Definition C25_up_no_reconnector_full : Prop := forall kinds ns sc es h,
  let s := run (init kinds ns sc) es in no_reconnector_when_up s h = true.
Theorem C25_up_no_reconnector_refuted : ~ C25_up_no_reconnector_full.
Proof. intros H. specialize (H [0] 2 None w_up 0). vm_compute in H. discriminate. Qed.
Print Assumptions C25_up_no_reconnector_refuted.

(* hypotheses are satisfiable: a failed host with its single live reconnector; a removed host *)
Example C25_nonvacuous_live : let s := run (init [1; 1] 2 None) [EFail 0; ERun 0 OOk] in
  live s 0 /\ rhost (recs s 0) = 0 /\ up (hosts s 0) = 0 /\ down_ok s 0 = true.
Proof. vm_compute. repeat split; auto. Qed.
Example C25_nonvacuous_inflight : let s := run (init [1] 1 None) [EFail 0; ERun 0 OOk; EProbeStart 0; ERemove 0] in
  present (hosts s 0) = 2 /\ probes s = [0] /\ up (hosts (fst (step s (EProbeFinish 0 OOk))) 0) = 0.
Proof. vm_compute. repeat split; auto. Qed.
Example C25_nonvacuous_removed : let s := run (init [1; 1] 1 (Some 2)) [EFail 1; ERun 0 OOk; ERemove 1] in
  present (hosts s 1) = 2 /\ timers s = [0] /\ rcanc (recs s 0) = true.
Proof. vm_compute. repeat split; auto. Qed.
(* a replacement node under the address of a removed one is a different object: late work for the removed object starts no
   reconnector (object 0 removed, object 1 = same endpoint added, the old object's pool creation fails afterwards) *)
Example C25_nonvacuous_replacement :
  let s := run (init [1] 1 None) [EFail 0; ERun 0 OOk; EStatusUp 0; ERemove 0; EAdd 1; ERun 1 OFail; ERun 2 OOk] in
  present (hosts s 0) = 2 /\ present (hosts s 1) = 1 /\ reg (hosts s 0) = None /\ ep s 1 = ep s 0.
Proof. vm_compute. repeat split; auto. Qed.
(* the host became IGNORED while it was down: a status-up event still cancels its reconnector *)
Example C25_nonvacuous_ignored_later :
  let s := run (init [1] 1 None) [EFail 0; ERun 0 OOk; ESetIgn 0 true; EStatusUp 0] in
  up (hosts s 0) = 1 /\ reg (hosts s 0) = None /\ rcanc (recs s 0) = true /\ timers s = [0].
Proof. vm_compute. repeat split; auto. Qed.
