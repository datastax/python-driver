(* C42 -- node-list refreshes make cluster metadata mirror the system tables.
   Model: Model/NodeList.v (hand-written; tied to cassandra/cluster.py + metadata.py by the correspondence in checks/C42.py).
   `refresh c f st sn` = ControlConnection._refresh_node_list_and_token_map(force_token_rebuild=f) on metadata state st with
   snapshot sn (system.local row option + ANY list of peers rows).  `Inv c st`: the control node is known, endpoints distinct.
   "Any sequence of snapshots": Inv holds after every sequence (C42_inv_seq), and every per-refresh theorem below needs only Inv,
   so it holds for the refresh that follows any sequence (C42_exact_seq spells this out for exactness). *)
From Coq Require Import ZArith List Bool Lia.
From Verif Require Import NodeList C42_proofs.
Import ListNotations.
Local Open Scope Z_scope.

(* hosts after a refresh = the control node + every valid row's endpoint (rows that fail _is_valid_peer contribute nothing;
   duplicates contribute one host); each endpoint once *)
Theorem C42_exact : forall c f st sn, Inv c st ->
  NoDup (keys (st_hosts (fst (refresh c f st sn)))) /\
  forall e, In e (keys (st_hosts (fst (refresh c f st sn)))) <-> e = control c \/ row_for c (sn_peers sn) e.
Proof.
  intros c f st sn [Hn Hc]. rewrite refresh_hosts. split; [apply after_NoDup; exact Hn|apply exact_hosts; exact Hc].
Qed.
Print Assumptions C42_exact.

Theorem C42_inv_seq : forall c st steps, Inv c st -> Inv c (final c st steps).
Proof.
  intros c st steps. revert st. induction steps as [|[f sn] rest IH]; intros st H; [exact H|].
  apply IH. apply Inv_refresh. exact H.
Qed.
Print Assumptions C42_inv_seq.

Theorem C42_exact_seq : forall c st steps f sn, Inv c st ->
  forall e, In e (keys (st_hosts (fst (refresh c f (final c st steps) sn)))) <-> e = control c \/ row_for c (sn_peers sn) e.
Proof. intros c st steps f sn H. apply C42_exact. apply C42_inv_seq. exact H. Qed.
Print Assumptions C42_exact_seq.

(* validity is exactly: an address (native/rpc address, else peer), host id, datacenter, rack, and tokens when fetched *)
Theorem C42_valid_spec : forall c r, valid c r = true <->
  rpc_address r <> None /\ r_host_id r <> None /\ r_dc r <> None /\ r_rack r <> None /\
  (token_meta c = true -> exists t ts, r_tokens r = Some (t :: ts)).
Proof.
  intros c r. unfold valid. rewrite !andb_true_iff, orb_true_iff, negb_true_iff, !is_some_true, nonempty_true.
  destruct (token_meta c); intuition congruence.
Qed.
Print Assumptions C42_valid_spec.

(* newly seen hosts are announced exactly once to listeners and to the policy; nobody else is *)
Theorem C42_added_once : forall c f st sn,
  listener_adds (snd (refresh c f st sn)) = policy_adds (snd (refresh c f st sn)) /\
  NoDup (listener_adds (snd (refresh c f st sn))) /\
  forall e, In e (listener_adds (snd (refresh c f st sn))) <->
            ~ In e (keys (st_hosts st)) /\ In e (keys (st_hosts (fst (refresh c f st sn)))).
Proof.
  intros c f st sn. pose proof (refresh_tells c f st sn) as T.
  rewrite (told_listener_adds _ _ _ T), (told_policy_adds _ _ _ T), refresh_hosts. split; [reflexivity|]. split; [apply NoDup_filter, accept_NoDup|apply In_new_iff].
Qed.
Print Assumptions C42_added_once.

(* vanished hosts are removed exactly once *)
Theorem C42_removed_once : forall c f st sn, Inv c st ->
  listener_removes (snd (refresh c f st sn)) = policy_removes (snd (refresh c f st sn)) /\
  NoDup (listener_removes (snd (refresh c f st sn))) /\
  forall e, In e (listener_removes (snd (refresh c f st sn))) <->
            In e (keys (st_hosts st)) /\ ~ In e (keys (st_hosts (fst (refresh c f st sn)))).
Proof.
  intros c f st sn [Hn _]. pose proof (refresh_tells c f st sn) as T.
  rewrite (told_listener_removes _ _ _ T), (told_policy_removes _ _ _ T), refresh_hosts. split; [reflexivity|]. split; [apply NoDup_filter, Hn|apply In_gone_iff].
Qed.
Print Assumptions C42_removed_once.

(* a host known before and after whose datacenter / rack differ: the policy saw on_down at the old place immediately
   followed by on_up at the new place *)
Theorem C42_location_reaches_lbp : forall c f st sn e h h',
  find e (st_hosts st) = Some h -> find e (st_hosts (fst (refresh c f st sn))) = Some h' ->
  same_location h (h_dc h') (h_rack h') = false ->
  exists a b, snd (refresh c f st sn) = a ++ [ELbpDown e (h_dc h) (h_rack h); ELbpUp e (h_dc h') (h_rack h')] ++ b.
Proof. exact location_reaches_policy. Qed.
Print Assumptions C42_location_reaches_lbp.

(* rebuild_token_map is called (last, with the snapshot's assignment) exactly when system.local names a partitioner and:
   forced, or never built, or a new host / a moved known peer among the accepted rows, or a host vanished *)
Theorem C42_token_rebuild_iff_changed : forall c f st sn,
  snd (refresh c f st sn) = notifications c st sn ++ (if rebuilt c f st sn then [ERebuild (snapshot_tokens c st sn)] else []) /\
  (rebuilt c f st sn = true <->
   lr_part (local_part c st sn) = true /\
   (f = true \/ st_partitioner st = false \/
    (exists er, In er (accepted c st sn) /\ row_triggers (lr_hosts (local_part c st sn)) er) \/
    (exists e, In e (keys (st_hosts st)) /\ ~ In e (keys (hosts_after c st sn))))).
Proof. intros c f st sn. split; [apply refresh_events|apply rebuilt_iff]. Qed.
Print Assumptions C42_token_rebuild_iff_changed.

(* membership changed -> rebuilt, and the new token map is the snapshot's *)
Theorem C42_membership_change_rebuilds : forall c f st sn e, lr_part (local_part c st sn) = true ->
  (In e (keys (st_hosts st)) /\ ~ In e (keys (st_hosts (fst (refresh c f st sn))))) \/
  (~ In e (keys (st_hosts st)) /\ In e (keys (st_hosts (fst (refresh c f st sn))))) ->
  rebuilt c f st sn = true /\ st_tokens (fst (refresh c f st sn)) = Some (snapshot_tokens c st sn).
Proof.
  intros c f st sn e Hp H. rewrite refresh_hosts in H.
  pose proof (membership_change_rebuilds c f st sn e Hp H) as Hr. split; [exact Hr|]. rewrite refresh_tokens, Hr. reflexivity.
Qed.
Print Assumptions C42_membership_change_rebuilds.

(* ---- the same refresh on a LIVE control connection: removing a host makes ControlConnection.on_remove run a nested, forced
   refresh inside the removal loop (refresh_live; recursion budget live_fuel is proved sufficient: no EOutOfFuel).
   The endpoints of the hosts are the same as without nesting (the records and the token map are not compared), and however
   many hosts vanish at once each is announced removed exactly once *)
Theorem C42_live_exact : forall c f st sn, Inv c st ->
  NoDup (keys (st_hosts (fst (refresh_live (live_fuel c st sn) c f st sn)))) /\
  forall e, In e (keys (st_hosts (fst (refresh_live (live_fuel c st sn) c f st sn)))) <-> e = control c \/ row_for c (sn_peers sn) e.
Proof.
  intros c f st sn HI. rewrite (proj1 (live_refresh c f st sn (proj1 HI))), <- (refresh_hosts c f st sn).
  exact (C42_exact c f st sn HI).
Qed.
Print Assumptions C42_live_exact.

Theorem C42_live_removed_once : forall c f st sn, Inv c st ->
  let r := refresh_live (live_fuel c st sn) c f st sn in
  policy_removes (snd r) = listener_removes (snd r) /\ NoDup (listener_removes (snd r)) /\
  (forall e, In e (listener_removes (snd r)) <-> In e (keys (st_hosts st)) /\ ~ In e (keys (st_hosts (fst r)))) /\
  nofuel (snd r).
Proof.
  intros c f st sn [Hn _] r. destruct (live_refresh c f st sn Hn) as [Hk T]. fold r in Hk, T.
  rewrite Hk, (told_listener_removes _ _ _ T), (told_policy_removes _ _ _ T).
  split; [reflexivity|]. split; [apply NoDup_filter, Hn|]. split; [apply In_gone_iff|exact (told_nofuel _ _ _ T)].
Qed.
Print Assumptions C42_live_removed_once.

(* non-vacuity: three hosts vanish in one refresh on a live control connection: 3 removals, each once, 4 rebuilds (3 nested) *)
Example C42_nonvacuous_live :
  let st := Build_state [((100, 9042), Hs (Some 1) (Some 1) (Some 100)); ((1, 9042), Hs (Some 1) (Some 1) (Some 1));
                         ((2, 9042), Hs (Some 1) (Some 1) (Some 2)); ((3, 9042), Hs (Some 1) (Some 1) (Some 3))] true (Some []) in
  let sn := Build_snapshot (Some (Lr (Some 1) (Some 1) (Some 100) true (Some [1000]))) [] in
  let r := refresh_live (live_fuel (Build_config (100, 9042) true 9042) st sn) (Build_config (100, 9042) true 9042) false st sn in
  listener_removes (snd r) = [(1, 9042); (2, 9042); (3, 9042)] /\
  length (filter (fun x => match x with ERebuild _ => true | _ => false end) (snd r)) = 4%nat /\
  keys (st_hosts (fst r)) = [(100, 9042)].
Proof. vm_compute. repeat split. Qed.

(* FULL statement of the token clause: after a refresh whose system.local names a partitioner, the token map is the one the
   snapshot describes ("rebuilt whenever membership or tokens changed").  The code never compares tokens: refuted. *)
Definition C42_tokens_mirror_full_statement : Prop := forall c f st sn, Inv c st -> lr_part (local_part c st sn) = true ->
  st_tokens (fst (refresh c f st sn)) = Some (snapshot_tokens c st sn).

Definition wit_cfg := Build_config (100, 9042) true 9042.
Definition wit_st := Build_state [((100, 9042), Hs (Some 1) (Some 1) (Some 100)); ((1, 9042), Hs (Some 1) (Some 1) (Some 1))]
                                 true (Some [((1, 9042), [10])]).
Definition wit_sn := Build_snapshot (Some (Lr (Some 1) (Some 1) (Some 100) true None))
                                    [Rw (Some 1) (Some 1) (Some 9042) (Some 1) (Some 1) (Some 1) (Some [11])].

Theorem C42_tokens_mirror_refuted : ~ C42_tokens_mirror_full_statement.
Proof.
  intros H. specialize (H wit_cfg false wit_st wit_sn).
  assert (Hi : Inv wit_cfg wit_st).
  { split; simpl.
    - constructor; [intros [H1|[]]; discriminate H1|]. constructor; [intros []|constructor].
    - left. reflexivity. }
  specialize (H Hi eq_refl). vm_compute in H. discriminate H.
Qed.
Print Assumptions C42_tokens_mirror_refuted.

(* PARTIAL: it holds unless ONLY tokens changed: i.e. when the tokens are unchanged, or the rebuild is forced, or the map was
   never built, or membership changed *)
Theorem C42_tokens_mirror_partial : forall c f st sn, lr_part (local_part c st sn) = true ->
  st_tokens st = Some (snapshot_tokens c st sn) \/ f = true \/ st_partitioner st = false \/
  (exists e, (In e (keys (st_hosts st)) /\ ~ In e (keys (hosts_after c st sn))) \/
             (~ In e (keys (st_hosts st)) /\ In e (keys (hosts_after c st sn)))) ->
  st_tokens (fst (refresh c f st sn)) = Some (snapshot_tokens c st sn).
Proof.
  intros c f st sn Hp H. apply tokens_mirror_iff. destruct H as [Hsame|[Hf|[Hnever|[e He]]]]; [right; exact Hsame|left..].
  - apply rebuilt_iff. tauto.
  - apply rebuilt_iff. tauto.
  - exact (membership_change_rebuilds c f st sn e Hp He).
Qed.
Print Assumptions C42_tokens_mirror_partial.

(* non-vacuity: one refresh with a new host, a vanished host, a moved host, an invalid row, a duplicate row *)
Definition ex_cfg := Build_config (100, 9042) true 9042.
Definition ex_st := Build_state [((100, 9042), Hs (Some 1) (Some 1) (Some 100)); ((1, 9042), Hs (Some 1) (Some 1) (Some 1));
                                 ((6, 9042), Hs (Some 1) (Some 1) (Some 6))] true (Some []).
Definition ex_sn := Build_snapshot (Some (Lr (Some 1) (Some 1) (Some 100) true (Some [1000])))
  [ Rw (Some 1) (Some 0) (Some 9042) (Some 1) (Some 2) (Some 1) (Some [10]);      (* bind-all address -> peer; dc moved *)
    Rw (Some 2) (Some 2) (Some 9042) (Some 2) (Some 1) (Some 1) (Some [20]);      (* new host *)
    Rw (Some 3) (Some 3) (Some 9042) None (Some 1) (Some 1) (Some [30]);          (* no host id: ignored *)
    Rw (Some 2) (Some 2) (Some 9042) (Some 77) (Some 3) (Some 3) (Some [777]) ].  (* duplicate endpoint: ignored *)
Example C42_nonvacuous : Inv ex_cfg ex_st /\
  refresh ex_cfg false ex_st ex_sn =
  ({| st_hosts := [((100, 9042), Hs (Some 1) (Some 1) (Some 100)); ((1, 9042), Hs (Some 2) (Some 1) (Some 1));
                   ((2, 9042), Hs (Some 1) (Some 1) (Some 2))];
      st_partitioner := true;
      st_tokens := Some [((100, 9042), [1000]); ((1, 9042), [10]); ((2, 9042), [20])] |},
   [ELbpDown (1, 9042) (Some 1) (Some 1); ELbpUp (1, 9042) (Some 2) (Some 1);
    ELbpAdd (2, 9042) (Some 1) (Some 1); EListenerAdd (2, 9042) (Some 1) (Some 1);
    ELbpRemove (6, 9042); EListenerRemove (6, 9042);
    ERebuild [((100, 9042), [1000]); ((1, 9042), [10]); ((2, 9042), [20])]]).
Proof.
  split; [|reflexivity]. split; simpl.
  - repeat constructor; simpl; intuition discriminate.
  - left. reflexivity.
Qed.
