(* C12 -- connection pools keep exact accounting and close what they open (HostConnection, protocol v3+).
   Model: Model/Pool.v, one op per atomic region of cassandra/pool.py (repaired code, see findings/C12.json).
   Every theorem quantifies over EVERY sequence of atomic steps, of any length, from any number of threads. *)
From Coq Require Import ZArith List Bool Lia.
From Verif Require Import Pool Pool_base C12_proofs PoolV2 C12v2_proofs.
Import ListNotations.
Local Open Scope Z_scope.

(* a pool never hands out a connection beyond its request capacity: in_flight never exceeds max_request_id,
   whatever borrowers, set_keyspace calls, timeouts, late responses, failures, replacements and shutdowns do *)
Theorem C12_capacity : forall (w : bool) (mx th : Z) (ops : list op) (c : nat),
  0 <= mx -> c_inflight (getc (run (init w mx th) ops) c) <= mx.
Proof.
  intros w mx th ops c H. destruct (inv_capacity _ c (InvA_run ops _ (InvA_init w mx th H))) as (_&_&_&H1).
  rewrite maxid_run in H1. exact H1.
Qed.
Print Assumptions C12_capacity.

(* a borrow that starts once the pool is shut down fails, for ever after *)
Theorem C12_borrow_after_shutdown_fails : forall (w : bool) (mx th : Z) (ops1 ops2 : list op),
  shut (run (init w mx th) ops1) = true ->
  snd (step (run (run (init w mx th) ops1) ops2) GetConn) = [OErrShutdown].
Proof. intros w mx th ops1 ops2 H. simpl. unfold get_conn. rewrite (shut_run ops2 _ H). reflexivity. Qed.
Print Assumptions C12_borrow_after_shutdown_fails.

(* in-flight counts never go negative; exact accounting: in_flight = live streams + orphaned streams *)
Theorem C12_nonneg : forall (w : bool) (mx th : Z) (ops : list op) (c : nat),
  0 <= mx ->
  let k := getc (run (init w mx th) ops) c in
  0 <= c_inflight k /\ c_inflight k = c_live k + c_orph k /\ 0 <= c_live k /\ 0 <= c_orph k.
Proof.
  intros w mx th ops c H k. destruct (inv_capacity _ c (InvA_run ops _ (InvA_init w mx th H))) as (?&?&?&_). subst k. lia.
Qed.
Print Assumptions C12_nonneg.

(* after shutdown() has run and no replacement task is queued or running, every connection the pool ever
   opened -- current, trashed, or created by a replacement that raced with the shutdown -- is closed *)
Theorem C12_closes_everything : forall (w : bool) (mx th : Z) (ops : list op),
  0 <= mx -> In ShutdownFlag ops -> quiescent (run (init w mx th) ops) = true ->
  all_closed (run (init w mx th) ops) = true.
Proof. intros w mx th ops H _ Hq. apply inv_closes; [apply Inv_reach, H|exact Hq]. Qed.
Print Assumptions C12_closes_everything.

(* the hypotheses are satisfiable by a non-trivial history: threshold crossed, replacement, old connection
   trashed with a live request, shutdown, late return: 2 connections opened, both closed at the end *)
Definition C12_hist : list op :=
  [GetConn; BorrowTry 0; BorrowTry 0; BorrowTry 0; Orphan 0; ReturnRead 0; Orphan 0; ReturnRead 0;
   GetConn; BorrowReadThr 0; BorrowCheckReplace 0; ReplaceCheck; ReplaceConnect true; ReplaceAssign; ReplaceFinish;
   ShutdownFlag; ShutdownCloseMain; ShutdownTrash; ReturnDec 0; Notify; ReturnRead 0].
Example C12_nonvacuous :
  let s := run (init true 3 2) C12_hist in
  quiescent s = true /\ length (conns s) = 2%nat /\ all_closed s = true /\ In ShutdownFlag C12_hist /\
  trash (run (init true 3 2) (firstn 15 C12_hist)) = [0%nat].
Proof. vm_compute. repeat split; auto 20. Qed.

(* HostConnectionPool (protocol v1/v2), Model/PoolV2.v: the same four statements and one about woken borrowers, for every
   sequence of its atomic steps. *)
Theorem C12v2_capacity : forall (n : nat) (co mc mx mr mn : Z) (ops : list lop) (c : nat),
  0 <= mx -> l_inflight (lget (lrun (linit n co mc mx mr mn) ops) c) <= mx.
Proof.
  intros n co mc mx mr mn ops c H. pose proof (linv_capacity _ c (LInvA_run ops _ (LInvA_init n co mc mx mr mn H))) as [H1 _].
  rewrite lmaxid_run in H1. exact (proj2 H1).
Qed.
Print Assumptions C12v2_capacity.

Theorem C12v2_nonneg : forall (n : nat) (co mc mx mr mn : Z) (ops : list lop) (c : nat),
  0 <= mx ->
  let k := lget (lrun (linit n co mc mx mr mn) ops) c in
  0 <= l_inflight k /\ l_inflight k = l_live k + l_orph k.
Proof.
  intros n co mc mx mr mn ops c H k. pose proof (linv_capacity _ c (LInvA_run ops _ (LInvA_init n co mc mx mr mn H))) as [H1 H2].
  subst k. split; [exact (proj1 H1)|exact H2].
Qed.
Print Assumptions C12v2_nonneg.

(* borrow_connection and every iteration of _wait_for_conn test is_shutdown first (LShutCheck) and raise when it is set *)
Theorem C12v2_borrow_after_shutdown_fails : forall (n : nat) (co mc mx mr mn : Z) (ops1 ops2 : list lop),
  lshut (lrun (linit n co mc mx mr mn) ops1) = true ->
  snd (lstep (lrun (lrun (linit n co mc mx mr mn) ops1) ops2) LShutCheck) = [LBool true].
Proof. intros n co mc mx mr mn ops1 ops2 H. simpl. rewrite (lshut_run ops2 _ H). reflexivity. Qed.
Print Assumptions C12v2_borrow_after_shutdown_fails.

Theorem C12v2_closes_everything : forall (n : nat) (co mc mx mr mn : Z) (ops : list lop),
  0 <= mx -> In LShutdownFlag ops -> lquiescent (lrun (linit n co mc mx mr mn) ops) = true ->
  lall_closed (lrun (linit n co mc mx mr mn) ops) = true.
Proof. intros n co mc mx mr mn ops H _ Hq. apply linv_closes; [apply LInv_run, LInv_init, H|exact Hq]. Qed.
Print Assumptions C12v2_closes_everything.

(* a borrower that was parked on the condition in _wait_for_conn (LWait) and resumes after the pool was shut down -- by that
   shutdown or by a stream freed meanwhile -- fails with "Pool is shutdown" and takes no stream: in every state with the flag
   set, the rest of its loop iteration ends with LErrShutdown and leaves the state untouched *)
Theorem C12v2_woken_borrower_fails : forall (n : nat) (co mc mx mr mn : Z) (ops : list lop) (fuel : nat),
  let s := lrun (linit n co mc mx mr mn) ops in
  lshut s = true -> lexec (lwait_loop (S fuel) LRet) s = (s, LErrShutdown).
Proof. intros n co mc mx mr mn ops fuel s H. simpl. rewrite H. reflexivity. Qed.
Print Assumptions C12v2_woken_borrower_fails.

(* non-vacuous: a second connection is spawned, retired into the trash with a stream in flight, a third one is being opened
   while shutdown() runs: all three end up closed *)
Example C12v2_nonvacuous :
  let ops := [LTake 0; LTake 0; LMaybeSpawn; LTaskCheck; LTaskConnect 0; LTaskAppend 0; LTaskDone; LTake 1; LTrash 1;
              LMaybeSpawn; LTaskCheck; LTaskConnect 1; LShutdownFlag; LShutdownSnap; LShutdownNext; LShutdownTrash; LTaskAppend 1; LTaskDone] in
  let s := lrun (linit 1 1 3 3 2 1) ops in
  lquiescent s = true /\ length (lconns s) = 3%nat /\ lall_closed s = true /\
  ltrash (lrun (linit 1 1 3 3 2 1) (firstn 9 ops)) = [1%nat].
Proof. vm_compute. repeat split. Qed.
