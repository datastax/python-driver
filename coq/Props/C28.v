(* C28 -- type descriptors round-trip between Cassandra and CQL notation.
   Model: Model/TypeDesc.v (hand-written, tied to cassandra/cqltypes.py by correspondence, checks/C28.py).
   spec_cass_print / spec_cql_name are the oracle (Cassandra's AbstractType.toString and CQL names);
   cass_parse / drv_cql / cls_codec model lookup_casstype, cql_parameterized_type and the codec structure of the class. *)
From Coq Require Import List Bool Ascii String NArith.
From Verif Require Import TypeDesc C28_proofs.
Import ListNotations.

(* the first clause of property C28 (properties.jsonl), as written *)
Definition C28_full_statement : Prop :=
  forall t, wf t = true ->
  exists c, cass_parse (spec_cass_print t) = POk c /\ drv_cql c = Some (spec_cql_name t) /\ cls_codec c = Some (codec t).

(* it fails on vectors: the parsed class prints the Java class name (open finding C28-1) *)
Theorem C28_cass_parse_refuted : ~ C28_full_statement.
Proof.
  intros H. remember (TVector (TSimple SFloat) (lit "3")) as t eqn:Et.
  destruct (H t) as [c [H1 [H2 _]]]; [subst; reflexivity|].
  rewrite cass_parse_spec in H1 by (subst; reflexivity). injection H1 as <-. rewrite parsed_cql in H2.
  subst t. vm_compute in H2. discriminate.
Qed.
Print Assumptions C28_cass_parse_refuted.

Theorem C28_cass_parse_partial : forall t, wf t = true -> vector_free t = true ->
  exists c, cass_parse (spec_cass_print t) = POk c /\ drv_cql c = Some (spec_cql_name t) /\ cls_codec c = Some (codec t).
Proof.
  intros t Hwf Hv. exists (parsed t). split; [apply cass_parse_spec; assumption|]. split; [|apply parsed_codec].
  rewrite parsed_cql. unfold spec_cql_name. f_equal. apply vector_free_name. assumption.
Qed.
Print Assumptions C28_cass_parse_partial.

(* every well-formed tree, vectors included: the descriptor parses, the codec is the type's, and the CQL name is the
   specified one except that vectors are written with the marshal class name *)
Theorem C28_cass_parse_codec : forall t, wf t = true ->
  exists c, cass_parse (spec_cass_print t) = POk c /\ cls_codec c = Some (codec t)
            /\ drv_cql c = Some (cql_name_gen vector_class_name comma_sp true t).
Proof.
  intros t Hwf. exists (parsed t). split; [apply cass_parse_spec; assumption|]. split; [apply parsed_codec|apply parsed_cql].
Qed.
Print Assumptions C28_cass_parse_codec.

(* "same value codec", behaviourally: at every protocol version, serialising / deserialising with the parsed class ends, through
   its top-level FrozenType / ReversedType wrappers, at the class of the unwrapped type, called with the SAME protocol version,
   and that class has the codec structure of the type; serial_size() is answered by the same class *)
Theorem C28_codec_route : forall t des pv, wf t = true ->
  exists c c', cass_parse (spec_cass_print t) = POk c /\ route des c pv = (c', pv) /\ size_route c = c' /\
               route des c' pv = (c', pv) /\ cls_codec c' = Some (codec t).
Proof.
  intros t des pv Hwf. exists (parsed t), (parsed (unwrap t)).
  split; [apply cass_parse_spec; assumption|]. split; [apply route_parsed|]. split; [apply size_route_parsed|]. split.
  - rewrite route_parsed, unwrap_idem. reflexivity.
  - rewrite parsed_codec. f_equal. apply codec_unwrap.
Qed.
Print Assumptions C28_codec_route.

(* second clause, from the parsed hierarchy on: printing the python list that a type's CQL name denotes gives back the
   canonical CQL name (", " separators), with or without frozen markers.  The string -> list direction is C28_cql_roundtrip
   below; the model of re.Scanner + ast.literal_eval it speaks of is hand-written and tied by correspondence only. *)
Theorem C28_cql_roundtrip_print : forall fz t,
  python_to_cqltype (to_py fz t) = cql_name_gen (lit "vector") comma_sp fz t.
Proof.
  intros fz. unfold python_to_cqltype.
  assert (W : forall x name, py_print_elems x = name ->
            py_print_elems (if fz then [PStr frozen_kw; PList x] else x) = if fz then lit "frozen<" ++ name ++ lit ">" else name).
  { intros x name <-. destruct fz; [apply print_bracket|reflexivity]. }
  apply ty_ind2; cbn [to_py cql_name_gen].
  - intros s. apply app_nil_r.
  - (* TList *) intros a IH. rewrite print_bracket, IH. reflexivity.
  - (* TSet *) intros a IH. rewrite print_bracket, IH. reflexivity.
  - intros k v IHk IHv. rewrite print_bracket, print_app, tailp_worded, IHk, IHv by apply to_py_worded.
    rewrite <- !app_assoc. reflexivity.
  - intros ts IH. apply W. rewrite print_bracket, print_seq, (map_ext_Forall _ _ IH). reflexivity.
  - intros ks n fn ft _. apply W, app_nil_r.
  - intros a d IH. rewrite print_bracket, print_app, IH by apply to_py_worded. cbn. rewrite app_nil_r, <- !app_assoc. reflexivity.
  - (* TFrozen *) intros a IH. apply W, IH.
  - (* TReversed *) intros a IH. exact IH.
Qed.
Print Assumptions C28_cql_roundtrip_print.

(* third clause: _strip_frozen_from_python removes exactly the frozen markers, at every depth: the result is the hierarchy
   of the same type printed without markers, and printing it gives the marker-free name *)
Theorem C28_strip_frozen : forall t, wf_cql t = true ->
  strip_frozen_from_python (to_py true t) = Some (to_py false t) /\
  python_to_cqltype (to_py false t) = cql_name_gen (lit "vector") comma_sp false t.
Proof. intros t H. split; [apply strip_to_py; assumption|apply C28_cql_roundtrip_print]. Qed.
Print Assumptions C28_strip_frozen.

(* second clause, end to end: for every printed CQL type string (separators "," or ", "; UDT names plain words or double-quoted
   identifiers with any content free of quote / backslash / newline, several of them in one string), cqltype_to_python
   (scanner with the non-greedy quoted token + literal_eval) yields the type's hierarchy and printing it back gives the
   canonical string: the identity for canonical strings, the same string up to the blank after commas otherwise *)
Theorem C28_cql_roundtrip : forall sep fz t, sep_ok sep -> wf_cql t = true ->
  cqltype_to_python (cql_name_gen (lit "vector") sep fz t) = Some (to_py fz t) /\
  option_map python_to_cqltype (cqltype_to_python (cql_name_gen (lit "vector") sep fz t))
  = Some (cql_name_gen (lit "vector") comma_sp fz t).
Proof.
  intros sep fz t Hs Hw. split; [apply parse_cql_name; assumption|].
  rewrite parse_cql_name by assumption. simpl. rewrite C28_cql_roundtrip_print. reflexivity.
Qed.
Print Assumptions C28_cql_roundtrip.

(* third clause, on strings *)
Theorem C28_strip_frozen_string : forall sep t, sep_ok sep -> wf_cql t = true ->
  strip_frozen (cql_name_gen (lit "vector") sep true t) = Some (cql_name_gen (lit "vector") comma_sp false t).
Proof.
  intros sep t Hsep Hwf. unfold strip_frozen. rewrite parse_cql_name, strip_to_py, C28_cql_roundtrip_print by assumption. reflexivity.
Qed.
Print Assumptions C28_strip_frozen_string.

Example C28_nonvacuous_nested_frozen :
  let t := TMap (TFrozen (TFrozen (TList (TSimple SInt)))) (TFrozen (TTuple [TFrozen (TUdt (lit "ks") (lit "u") [] [])])) in
  wf_cql t = true /\
  show (cql_name_gen (lit "vector") comma_sp true t) = "map<frozen<frozen<list<int>>>, frozen<frozen<tuple<frozen<frozen<u>>>>>>"%string /\
  option_map show (strip_frozen (cql_name_gen (lit "vector") comma_sp true t)) = Some "map<list<int>, tuple<u>>"%string /\
  route true (CApp (lit "ReversedType") [CApp (lit "FrozenType") [CApp (lit "ListType") [CReg (lit "Int32Type")] [None]] [None]] [None]) 2%N
    = (CApp (lit "ListType") [CReg (lit "Int32Type")] [None], 2%N).
Proof. vm_compute. repeat split; reflexivity. Qed.

Example C28_nonvacuous_quoted :
  let u n := TUdt (lit "ks") n [] [] in
  let t := TTuple [u (lit """A b"""); TFrozen (TList (TSimple SInt)); u (lit """C, d<>"""); u (lit "plain")] in
  wf_cql t = true /\ sep_ok comma_sp /\
  show (cql_name_gen (lit "vector") comma_sp true t)
    = "frozen<tuple<frozen<""A b"">, frozen<list<int>>, frozen<""C, d<>"">, frozen<plain>>>"%string /\
  option_map show (strip_frozen (cql_name_gen (lit "vector") comma_sp true t))
    = Some "tuple<""A b"", list<int>, ""C, d<>"", plain>"%string.
Proof. vm_compute. repeat split; try reflexivity. right. reflexivity. Qed.

Example C28_nonvacuous :
  let t := TMap (TSimple SInt) (TFrozen (TList (TUdt (lit "ks") (lit "abcd") [lit "f1"; lit "g"]
                                                [TSimple SText; TReversed (TTuple [TSimple SFloat; TSet (TSimple SUuid)])]))) in
  wf t = true /\ vector_free t = true /\
  show (spec_cql_name t) = "map<int, frozen<list<frozen<abcd>>>>"%string /\
  c28_check_cass t = true /\ wf_cql t = true /\
  cqltype_to_python (spec_cql_name t) = Some (to_py true t) /\
  option_map show (strip_frozen (spec_cql_name t)) = Some "map<int, list<abcd>>"%string.
Proof. vm_compute. repeat split; reflexivity. Qed.
