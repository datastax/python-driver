(* C39 -- column encryption is transparent, including for nulls.
   Model/Encryption.v: PKCS7 concrete; AES-256-CBC (`cryptography`) = enc/dec with the round-trip law as hypothesis;
   per-type codec = ser/deser with the C01 round-trip as hypothesis.  decode_val is the REPAIRED code (a null cell
   is not decrypted); decode_val_unguarded is the code before the fix, kept only for C39_unguarded_refuted. *)
From Coq Require Import ZArith List Bool.
From Verif Require Import Encryption C39_proofs.
Import ListNotations.
Local Open Scope Z_scope.

Theorem C39_pkcs7_roundtrip : forall x, unpad (pad x) = Some x /\ (length (pad x) mod 16 = 0)%nat.
Proof. intros x. split; [apply unpad_pad|apply pad_aligned]. Qed.
Print Assumptions C39_pkcs7_roundtrip.

(* policy.decrypt (policy.encrypt x) = x, whatever IV the encrypting policy used (decrypt takes it from the data) *)
Theorem C39_policy_roundtrip : forall (enc dec : list Z -> list Z -> list Z -> list Z),
  (forall k iv x, (length x mod 16 = 0)%nat -> dec k iv (enc k iv x) = x) ->
  forall k iv x, length iv = 16%nat -> decrypt dec k (encrypt enc k iv x) = Some x.
Proof. exact decrypt_encrypt. Qed.
Print Assumptions C39_policy_roundtrip.

(* the statement, parameterised by the result decoder so that it can be stated for both versions of the code *)
Definition C39_transparent_statement
  (decoder : forall V T : Type, (T -> list Z -> option V) -> (list Z -> list Z -> list Z -> list Z) ->
             list (column T) -> list (list (option (list Z))) -> option (list (list (option V)))) : Prop :=
  forall (V T : Type) (ser : T -> V -> option (list Z)) (deser : T -> list Z -> option V)
         (enc dec : list Z -> list Z -> list Z -> list Z),
  (forall k iv x, (length x mod 16 = 0)%nat -> dec k iv (enc k iv x) = x) ->
  (forall t v b, ser t v = Some b -> deser t b = Some v) ->
  forall iv cols (rows : list (list (option V))) wire, length iv = 16%nat ->
  Forall (fun r => length r <= length cols)%nat rows ->
  bind_rows V T ser enc iv cols rows = Some wire ->          (* what the prepared statement sends, row by row *)
  decoder V T deser dec cols wire = Some rows.                (* the server echoes it; the result decodes to the originals *)

(* every value, NULL INCLUDED, any number of rows, any mix of encrypted / plain columns *)
Theorem C39_transparent : C39_transparent_statement decode_rows.
Proof. exact rows_roundtrip. Qed.
Print Assumptions C39_transparent.

(* ... also when the ROWS frame carries its OWN metadata (v5 Metadata_changed after ALTER TABLE, or v3/v4 without
   skip_meta): whatever column list is cached with the prepared statement, decoding follows the in-frame list *)
Theorem C39_transparent_metadata_changed : forall (V T : Type) (ser : T -> V -> option (list Z)) (deser : T -> list Z -> option V)
         (enc dec : list Z -> list Z -> list Z -> list Z),
  (forall k iv x, (length x mod 16 = 0)%nat -> dec k iv (enc k iv x) = x) ->
  (forall t v b, ser t v = Some b -> deser t b = Some v) ->
  forall iv cols cached (rows : list (list (option V))) wire, length iv = 16%nat ->
  Forall (fun r => length r <= length cols)%nat rows ->
  bind_rows V T ser enc iv cols rows = Some wire ->
  recv_rows V T deser dec (Some cols) cached wire = Some rows.
Proof. intros V T ser deser enc dec Haes Hcodec iv cols cached. exact (rows_roundtrip V T ser deser enc dec Haes Hcodec iv cols). Qed.
Print Assumptions C39_transparent_metadata_changed.

(* the set of encrypted columns is derived from the policy, per column, under the column's OWN (keyspace, table, name),
   and the policy may change at any time (add_column).  After ANY history of registrations, decodes and round trips on one
   policy object, writing rows through a prepared statement and reading them back returns them unchanged -- with markers of
   several tables (prepared BATCH / PREPARED response without global table spec) and columns registered late included.
   The policy is the only state and the round trip holds in every policy: the history plays no part. *)
Theorem C39_transparent_history : forall (V T : Type) (ser : T -> V -> option (list Z)) (deser : T -> list Z -> option V)
         (enc dec : list Z -> list Z -> list Z -> list Z),
  (forall k iv x, (length x mod 16 = 0)%nat -> dec k iv (enc k iv x) = x) ->
  (forall t v b, ser t v = Some b -> deser t b = Some v) ->
  forall (p0 : policy T) (h : list (pop V T)) ms iv rows wire,
  let p := fst (prun V T ser deser enc dec p0 h) in
  length iv = 16%nat -> Forall (fun r => length r <= length ms)%nat rows ->
  bind_rows V T ser enc iv (map (resolve T p) ms) rows = Some wire ->
  pstep V T ser deser enc dec p (PRound V T ms iv rows) = (p, OutRound V (Some wire) (Some rows)).
Proof.
  intros V T ser deser enc dec Haes Hcodec p0 h ms iv rows wire p Hiv Hall Hb. cbn [pstep]. rewrite Hb.
  rewrite (resolved_roundtrip V T ser deser enc dec Haes Hcodec p ms iv rows wire Hiv Hall Hb). reflexivity.
Qed.
Print Assumptions C39_transparent_history.

(* what goes out for marker i depends on the policy entry of ITS OWN ColDesc only; a registration is visible at once *)
Theorem C39_sent_by_own_desc : forall (V T : Type) (ser : T -> V -> option (list Z)) (enc : list Z -> list Z -> list Z -> list Z)
    (p : policy T) iv vals ms w i m,
  bind_row V T ser enc iv (map (resolve T p) ms) vals = Some w -> nth_error ms i = Some m ->
  (forall k t x, pol_find T p (m_desc m) = Some (k, t) -> nth_error vals i = Some (Some x) ->
     exists b, ser t x = Some b /\ nth_error w i = Some (Some (encrypt enc k iv b))) /\
  (forall x, pol_find T p (m_desc m) = None -> nth_error vals i = Some (Some x) ->
     exists b, ser (m_type m) x = Some b /\ nth_error w i = Some (Some b)) /\
  (forall d k t, pol_find T (add_column T p d k t) d = Some (k, t)).
Proof.
  intros V T ser enc p iv vals ms w i m Hb Hm.
  destruct (sent_cell V T ser enc iv vals _ w i _ Hb (map_nth_error (resolve T p) i ms Hm)) as [E [_ P]].
  unfold resolve in E, P. split; [intros k t x Hf|split; [intros x Hf|apply add_column_wins]]; rewrite Hf in E, P;
    [exact (E k x eq_refl)|exact (P x eq_refl)].
Qed.
Print Assumptions C39_sent_by_own_desc.

(* several Clusters / Sessions in one process, statements of every PREPARED shape (with / without partition-key indexes,
   protocol v3 included), registrations and RE-registrations at any time: after ANY history, a round trip through ANY session
   returns the rows -- bind and decode both consult the policy object of that session's own cluster, whatever state it is in. *)
Theorem C39_transparent_sessions : forall (V T : Type) (ser : T -> V -> option (list Z)) (deser : T -> list Z -> option V)
         (enc dec : list Z -> list Z -> list Z -> list Z),
  (forall k iv x, (length x mod 16 = 0)%nat -> dec k iv (enc k iv x) = x) ->
  (forall t v b, ser t v = Some b -> deser t b = Some v) ->
  forall (st0 : wstate T) (h : list (wop V T)) s sh ms iv rows wire,
  let st := fst (wrun V T ser deser enc dec st0 h) in
  length iv = 16%nat -> Forall (fun r => length r <= length ms)%nat rows ->
  bind_rows V T ser enc iv (map (resolve T (stmt_policy T (fst st) (nth s (snd st) 0%nat) sh)) ms) rows = Some wire ->
  wstep V T ser deser enc dec st (WRound V T s sh ms iv rows) = (st, OutRound V (Some wire) (Some rows)).
Proof.
  intros V T ser deser enc dec Haes Hcodec st0 h s sh ms iv rows wire st Hiv Hall Hb. clearbody st. destruct st as [w sessions].
  cbn [fst snd] in Hb. unfold wstep, wstep_with. rewrite Hb.
  rewrite (handler_is_stmt_policy T w sessions s sh).
  rewrite (resolved_roundtrip V T ser deser enc dec Haes Hcodec _ ms iv rows wire Hiv Hall Hb). reflexivity.
Qed.
Print Assumptions C39_transparent_sessions.

(* registering a column again (key rotation, corrected type) replaces the earlier registration *)
Theorem C39_reregistration_wins : forall (T : Type) (p : policy T) d k1 t1 k2 t2,
  pol_find T (add_column T (add_column T p d k1 t1) d k2 t2) d = Some (k2, t2).
Proof. intros T p d k1 t1 k2 t2. apply add_column_wins. Qed.
Print Assumptions C39_reregistration_wins.

(* a process-wide handler overwritten by every Session.__init__ is NOT transparent: cluster 0 encrypts column (1,1,1),
   cluster 1 has an empty policy and connects last; a value written through session 0 comes back as iv ++ padded bytes *)
Theorem C39_shared_handler_refuted :
  let ops := [WNewCluster (list Z) unit; WNewCluster (list Z) unit; WAdd (list Z) unit 0%nat (1, 1, 1) [7] tt;
              WConnect (list Z) unit 0%nat; WConnect (list Z) unit 1%nat] in
  let st := fst (wrun (list Z) unit c39_ser c39_deser id_cipher id_cipher ([], []) ops) in
  let round := WRound (list Z) unit 0%nat ServerPkIndexes [mkmarker (1, 1, 1) tt] (repeat 9 16) [[Some [5]]] in
  snd (wstep (list Z) unit c39_ser c39_deser id_cipher id_cipher st round)
    = OutRound (list Z) (Some [[Some (repeat 9 16 ++ [5] ++ repeat 15 15)]]) (Some [[Some [5]]]) /\
  snd (wstep_with (list Z) unit c39_ser c39_deser id_cipher id_cipher (handler_policy_shared unit) st round)
    = OutRound (list Z) (Some [[Some (repeat 9 16 ++ [5] ++ repeat 15 15)]]) (Some [[Some (repeat 9 16 ++ [5] ++ repeat 15 15)]]).
Proof. vm_compute. split; reflexivity. Qed.
Print Assumptions C39_shared_handler_refuted.

(* non-null values of encrypted columns go out as iv ++ AES(pad(serialize v)) with the POLICY's type; nulls stay null;
   columns outside the policy go out as their plain serialization *)
Theorem C39_sent_encrypted : forall (V T : Type) (ser : T -> V -> option (list Z)) (enc : list Z -> list Z -> list Z -> list Z)
    iv vals cols w i c,
  bind_row V T ser enc iv cols vals = Some w -> nth_error cols i = Some c ->
  (forall k x, ce_key c = Some k -> nth_error vals i = Some (Some x) ->
      exists b, ser (pol_type c) x = Some b /\ nth_error w i = Some (Some (encrypt enc k iv b))) /\
  (nth_error vals i = Some None -> nth_error w i = Some None) /\
  (forall x, ce_key c = None -> nth_error vals i = Some (Some x) ->
      exists b, ser (meta_type c) x = Some b /\ nth_error w i = Some (Some b)).
Proof. exact sent_cell. Qed.
Print Assumptions C39_sent_encrypted.

(* the code before the fix (decrypt applied to a null cell) violates the statement: one encrypted column, one null *)
Theorem C39_unguarded_refuted : ~ C39_transparent_statement decode_rows_unguarded.
Proof.
  intros H.
  specialize (H (list Z) unit c39_ser c39_deser id_cipher id_cipher
                (fun _ _ _ _ => eq_refl) (fun t v b E => eq_sym E)
                (repeat 0 16) [c39_col (Some [1])] [[None]] [[None]] eq_refl ltac:(repeat constructor) eq_refl).
  discriminate H.
Qed.
Print Assumptions C39_unguarded_refuted.

(* non-vacuity: two columns (encrypted, plain), three rows incl. a null in the encrypted column and an empty value *)
Example C39_nonvacuous :
  c39_run (repeat 9 16) [Some [1; 2]; None] [[Some [0; 0; 0; 5]; Some [97]]; [None; None]; [Some []; Some [98; 99]]]
  = (Some [[Some (repeat 9 16 ++ [0; 0; 0; 5] ++ repeat 12 12); Some [97]]; [None; None];
           [Some (repeat 9 16 ++ repeat 16 16); Some [98; 99]]],
     Some [[Some [0; 0; 0; 5]; Some [97]]; [None; None]; [Some []; Some [98; 99]]]).
Proof. vm_compute. reflexivity. Qed.
