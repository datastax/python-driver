(* C26 -- replica sets match Cassandra's replica placement.
   Model of the driver: Model/Ring.v (hand-written from cassandra/metadata.py, tied by correspondence in checks/C26.py).
   Specification: Model/PlacementSpec.v (Cassandra's SimpleStrategy / NetworkTopologyStrategy.calculateNaturalEndpoints).
   The placement theorems hold for ANY ring (any number of tokens per host, any datacenter / rack layout `loc`), any
   replication settings and any key token t; their hypothesis is that ring tokens are sorted (Metadata.rebuild_token_map:
   `sorted(ring)`) and distinct. *)
From Coq Require Import ZArith List Bool.
From Verif Require Import RingBase Ring PlacementSpec RingCache C26_lists C26_nts C26_proofs.
Import ListNotations.
Local Open Scope Z_scope.

(* SimpleStrategy: the driver's replica list IS Cassandra's list (same hosts, same order) *)
Theorem C26_simple : forall loc rf ring t, strictly_sorted (map fst ring) = true ->
  driver_replicas loc (Simple rf) ring t = simple_spec rf ring t.
Proof.
  intros loc rf ring t Hs. rewrite driver_row by assumption. apply simple_row_spec.
Qed.
Print Assumptions C26_simple.

(* NetworkTopologyStrategy (repaired code): no host is repeated, and the hosts are exactly Cassandra's *)
Theorem C26_nts : forall loc rfs ring t, strictly_sorted (map fst ring) = true ->
  NoDup (driver_replicas loc (NTS rfs) ring t) /\
  (forall h, In h (driver_replicas loc (NTS rfs) ring t) <-> In h (nts_spec loc rfs ring t)).
Proof. intros loc rfs ring t Hs. rewrite driver_row by assumption. apply row_correct. Qed.
Print Assumptions C26_nts.

(* the statement of the property, for either strategy *)
Theorem C26_replicas : forall loc s ring t, strictly_sorted (map fst ring) = true ->
  NoDup (driver_replicas loc s ring t) /\
  (forall h, In h (driver_replicas loc s ring t) <-> In h (natural_endpoints loc (placement_of s) ring t)).
Proof.
  intros loc [rf|rfs] ring t Hs; cbn [placement_of natural_endpoints]; [|apply C26_nts; assumption].
  rewrite C26_simple by assumption. split; [apply simple_walk_NoDup; constructor | tauto].
Qed.
Print Assumptions C26_replicas.

(* bisect_left + wrap: the replicas of a key are those of the first ring token at or after its token, else of the first token *)
Theorem C26_bisect : forall loc s ring t, strictly_sorted (map fst ring) = true ->
  driver_replicas loc s ring t =
  driver_replicas loc s ring (match find (fun tk => t <=? tk) (map fst ring) with Some tk => tk | None => hd 0 (map fst ring) end).
Proof. intros loc s ring t Hs. rewrite !driver_row, <- first_token_index_find by assumption. reflexivity. Qed.
Print Assumptions C26_bisect.

(* ... and what a lookup of ring token number k returns is the entry stored under that token by make_token_replica_map *)
Theorem C26_map_lookup : forall loc s ring k, strictly_sorted (map fst ring) = true -> (k < length ring)%nat ->
  assoc (nth k (map fst ring) 0) (replica_map true loc s ring) = Some (driver_replicas loc s ring (nth k (map fst ring) 0)).
Proof.
  intros loc s ring k Hs Hk. rewrite driver_row, first_token_index_nth, replica_map_rows by assumption.
  apply assoc_rows; assumption.
Qed.
Print Assumptions C26_map_lookup.

(* The code before the `fix:` commit (skipped_hosts.append without the membership test) violates the statement:
   host 2 owns two consecutive tokens in a rack that is already represented, is emitted twice, host 4 is lost. *)
Definition C26_nts_statement (impl : topo_t -> strategy -> ring_t -> Z -> list Z) : Prop :=
  forall loc rfs ring t, strictly_sorted (map fst ring) = true ->
    NoDup (impl loc (NTS rfs) ring t) /\
    (forall h, In h (impl loc (NTS rfs) ring t) <-> In h (nts_spec loc rfs ring t)).

Theorem C26_nts_unfixed_refuted : ~ C26_nts_statement driver_replicas_prefix.
Proof.
  intro H. destruct (H witness_loc [(0,4)] witness_ring 0 eq_refl) as [_ Hs].
  assert (Hin : In 4 (nts_spec witness_loc [(0,4)] witness_ring 0)) by (vm_compute; tauto).
  apply Hs in Hin. vm_compute in Hin. intuition discriminate.
Qed.
Print Assumptions C26_nts_unfixed_refuted.

Theorem C26_nts_fixed_statement : C26_nts_statement driver_replicas.
Proof. exact C26_nts. Qed.
Print Assumptions C26_nts_fixed_statement.

(* Metadata.get_replicas(keyspace, key) under Murmur3Partitioner: a key whose hash is Long.MIN_VALUE lives in the range of token Long.MAX_VALUE *)
Theorem C26_key : forall loc s ring h, strictly_sorted (map fst ring) = true ->
  NoDup (driver_replicas_for_hash loc s ring h) /\
  (forall x, In x (driver_replicas_for_hash loc s ring h) <-> In x (natural_endpoints_for_hash loc (placement_of s) ring h)).
Proof.
  intros loc s ring h Hs. unfold driver_replicas_for_hash, natural_endpoints_for_hash.
  rewrite murmur3_token_normalize. apply C26_replicas. assumption.
Qed.
Print Assumptions C26_key.

(* the cached replica map of a keyspace, under ANY interleaving of lookups, ALTER KEYSPACE events (settings written without the
   lock, rebuild under _rebuild_lock) and evictions: whenever nothing is in flight, what a lookup is served was computed from the
   CURRENT replication settings.  The atomic regions are checked on the source by the lock audit in checks/C26.py. *)
Theorem C26_cache_current : forall v ops, forallb in_source ops = true ->
  quiescent (crun (cinit v) ops) -> served (crun (cinit v) ops) = settings (crun (cinit v) ops).
Proof.
  intros v ops Hs Hq. apply cache_inv_served; [|exact Hq]. apply cache_inv_run; [exact Hs | apply cache_inv_init].
Qed.
Print Assumptions C26_cache_current.

(* with the "is a rebuild needed" test outside the lock (and not repeated inside) a stale map is published and stays *)
Theorem C26_cache_unlocked_refuted : exists ops,
  quiescent (crun (cinit 0) ops) /\ served (crun (cinit 0) ops) <> settings (crun (cinit 0) ops).
Proof. exists [QStart; QRead; ESet 1; ECheckUnlocked; QPublish]. repeat split. discriminate. Qed.
Print Assumptions C26_cache_unlocked_refuted.

(* non-vacuity: a two-datacenter ring, host 2 owning consecutive tokens, hypotheses satisfied, non-trivial answers *)
Definition ex_loc : topo_t := topo_of [(1,(0,1)); (2,(0,1)); (3,(0,2)); (4,(0,1)); (5,(1,1)); (6,(1,1))].
Definition ex_ring : ring_t := [(-30,5); (0,1); (10,2); (20,2); (25,6); (30,3); (40,4)].
Example C26_nonvacuous :
  strictly_sorted (map fst ex_ring) = true /\
  driver_replicas ex_loc (NTS [(0,3); (1,5)]) ex_ring (-7) = [6; 5; 1; 3; 2] /\
  nts_spec ex_loc [(0,3); (1,5)] ex_ring (-7) = [1; 6; 3; 2; 5] /\
  driver_replicas_prefix witness_loc (NTS [(0,4)]) witness_ring 0 = [1; 3; 2; 2] /\
  driver_replicas witness_loc (NTS [(0,4)]) witness_ring 0 = [1; 3; 2; 4] /\
  driver_replicas ex_loc (Simple 3) ex_ring 41 = [5; 1; 2].
Proof. vm_compute. repeat split. Qed.
