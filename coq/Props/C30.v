(* C30 -- prepared-statement binding and routing keys are consistent.
   Model: Model/Bind.v (hand-written from cassandra/query.py, tied by correspondence on every run);
   Cassandra's partition-key encoding: Model/CompositeSpec.v.  Every theorem holds for EVERY value type V and
   EVERY per-column serializer ser (value serialization itself is C01/C02), every column-name list, every
   routing-index list and every protocol version. *)
From Coq Require Import ZArith List Bool.
From Verif Require Import CompositeSpec Bind BindHistory C30_proofs C30_hist_proofs.
Import ListNotations.
Local Open Scope Z_scope.

(* positional = by-name: the dict {name_i: v_i} binds exactly like the list [v_0..v_{n-1}] (same values, same error);
   a short list/dict only on protocol >= 4 (on < 4 they differ: KeyError vs short list). *)
Theorem C30_pos_eq_named : forall V ser names pk_idx pv (vs : list (bval V)),
  NoDup names -> (length vs <= length names)%nat -> (length vs = length names \/ 4 <= pv) ->
  bind V ser names pk_idx pv (InDict (combine names vs)) = bind V ser names pk_idx pv (InList vs).
Proof.
  intros V ser names pk_idx pv vs Hnd Hle Hc. cbn [bind]. rewrite dict_to_list_combine by assumption.
  destruct Hc as [Hc|Hc].
  - rewrite Hc, Nat.sub_diag. cbn [repeat]. rewrite app_nil_r. reflexivity.
  - apply bind_values_padded; [assumption|]. rewrite Nat.add_comm. apply Nat.sub_add. exact Hle.
Qed.
Print Assumptions C30_pos_eq_named.

(* keys of the dict that are not column names are ignored (PYTHON-178) *)
Theorem C30_extra_names_ignored : forall V ser names pk_idx pv d k (v : bval V), ~ In k names ->
  bind V ser names pk_idx pv (InDict ((k, v) :: d)) = bind V ser names pk_idx pv (InDict d).
Proof. intros. cbn [bind]. rewrite dict_to_list_skip by assumption. reflexivity. Qed.
Print Assumptions C30_extra_names_ignored.

(* 'unset' only on v4+: below v4 no bound value is ever UNSET (short lists stay short, UNSET and missing names raise);
   on v4+ every missing trailing / missing named value is UNSET and the value list is complete. *)
Theorem C30_unset_v4_only : forall V ser names pk_idx pv,
  (forall inp ws, pv < 4 -> bind V ser names pk_idx pv inp = inr ws -> ~ In WUnset ws) /\
  (forall vs ws, pv < 4 -> bind V ser names pk_idx pv (InList vs) = inr ws -> length ws = length vs) /\
  (forall vs, pv < 4 -> In BUnset vs -> exists e, bind V ser names pk_idx pv (InList vs) = inl e) /\
  (forall d k n, pv < 4 -> nth_error names k = Some n -> dict_get d n = None ->
                 exists e, bind V ser names pk_idx pv (InDict d) = inl e) /\
  (forall vs ws, 4 <= pv -> bind V ser names pk_idx pv (InList vs) = inr ws ->
                 length ws = length names /\
                 forall k, (length vs <= k < length names)%nat -> nth_error ws k = Some WUnset) /\
  (forall d ws k n, bind V ser names pk_idx pv (InDict d) = inr ws -> nth_error names k = Some n ->
                    dict_get d n = None -> 4 <= pv /\ nth_error ws k = Some WUnset).
Proof.
  intros V ser names pk_idx pv.
  split; [|split; [|split; [|split; [|split]]]].
  - intros inp ws Hpv H Hin. apply In_nth_error in Hin. destruct Hin as [k Hk].
    apply (Z.lt_nge pv 4); [exact Hpv|]. exact (proj1 (unset_value H Hk)).
  - intros vs ws Hpv H. exact (proj1 (bind_length (inp := InList vs) H) Hpv).
  - intros vs Hpv Hin. apply In_nth_error in Hin. destruct Hin as [k Hk].
    exact (unset_rejected (InList vs) k (markers_given (InList vs) Hk) (or_introl Hpv)).
  - intros d k n Hpv Hk Hg. exact (unset_rejected (InDict d) k (markers_dict d Hk (or_introl Hg)) (or_introl Hpv)).
  - intros vs ws Hpv H. split; [exact (proj2 (bind_length (inp := InList vs) H) Hpv)|].
    intros k Hk. exact (proj1 (unset_marker (inp := InList vs) H (markers_fill (InList vs) k Hpv Hk))).
  - intros d ws k n H Hk Hg. destruct (unset_marker H (markers_dict d Hk (or_introl Hg))). tauto.
Qed.
Print Assumptions C30_unset_v4_only.

(* an UNSET (explicit, or implied by a missing trailing / named value) partition-key component is rejected *)
Theorem C30_pk_unset_rejected : forall V ser names pk_idx pv,
  (forall (vs : list (bval V)) k, In k pk_idx -> (k < length names)%nat ->
      (nth_error vs k = Some BUnset \/ (4 <= pv /\ (length vs <= k)%nat)) ->
      exists e, bind V ser names pk_idx pv (InList vs) = inl e) /\
  (forall (d : list (Z * bval V)) k n, In k pk_idx -> nth_error names k = Some n ->
      (dict_get d n = None \/ dict_get d n = Some BUnset) ->
      exists e, bind V ser names pk_idx pv (InDict d) = inl e) /\
  (forall vs ws k, bind V ser names pk_idx pv (InList vs) = inr ws -> In k pk_idx -> nth_error ws k <> Some WUnset).
Proof.
  intros V ser names pk_idx pv. split; [|split].
  - intros vs k Hin Hk Hc. apply (unset_rejected (InList vs) k); [|right; exact Hin].
    destruct Hc as [Hu|[Hpv Hlen]]; [exact (markers_given (InList vs) Hu)|apply markers_fill; auto].
  - intros d k n Hin Hk Hc. exact (unset_rejected (InDict d) k (markers_dict d Hk Hc) (or_intror Hin)).
  - intros vs ws k H Hin Hu. destruct (unset_value (inp := InList vs) H Hu) as [_ Hrk].
    rewrite (is_rk_In pk_idx k Hin) in Hrk. discriminate.
Qed.
Print Assumptions C30_pk_unset_rejected.

Theorem C30_extra_rejected : forall V ser names pk_idx pv (vs : list (bval V)),
  (length names < length vs)%nat -> bind V ser names pk_idx pv (InList vs) = inl ETooMany.
Proof. intros V ser names pk_idx pv vs H. cbn [bind]. unfold bind_values. apply Nat.ltb_lt in H. rewrite H. reflexivity. Qed.
Print Assumptions C30_extra_rejected.

Theorem C30_values_serialized : forall V ser names pk_idx pv vs ws k b,
  bind V ser names pk_idx pv (InList vs) = inr ws ->
  (nth_error ws k = Some (WBytes b) <-> exists v, nth_error vs k = Some (BVal v) /\ ser k v = Some b).
Proof. intros V ser names pk_idx pv vs. exact (values_serialized V ser names pk_idx pv (InList vs)). Qed.
Print Assumptions C30_values_serialized.

(* routing key = Cassandra's encoding (composite_spec) of the serialized partition-key values, in routing-index order:
   (1) whenever every partition-key marker got a value (bs = their serializations, each < 64 KiB when composite),
   (2) and NEVER anything else: any routing key the statement reports is that encoding. *)
Theorem C30_routing_key : forall V ser names pk_idx pv vs ws,
  bind V ser names pk_idx pv (InList vs) = inr ws ->
  (forall bs, pk_idx <> [] -> Forall2 (pk_component V ser vs) pk_idx bs ->
      forallb component_ok bs = true \/ length pk_idx = 1%nat ->
      routing_key pk_idx ws = RkBytes (composite_spec bs)) /\
  (forall rk, routing_key pk_idx ws = RkBytes rk ->
      exists bs, Forall2 (pk_component V ser vs) pk_idx bs /\ rk = composite_spec bs).
Proof.
  intros V ser names pk_idx pv vs ws H. split.
  - intros bs Hne Hf Hok. apply (bound_routing_key (inp := InList vs) _ H). eauto.
  - intros rk Hr. apply (bound_routing_key (inp := InList vs) rk H) in Hr. destruct Hr as [_ [bs [Hf [_ Hrk]]]]. eauto.
Qed.
Print Assumptions C30_routing_key.

(* from_message: indexes derived from table metadata point at the partition-key columns, in TABLE order
   (so the composite above is in the order Cassandra hashes); server-provided indexes are used as they are. *)
Theorem C30_from_message_indexes : forall ns pkn,
  (forall l, derive_indexes ns [] (Some pkn) = l -> l <> [] -> Forall2 (fun i n => nth_error ns i = Some n) l pkn) /\
  (ns <> [] -> (forall n, In n pkn -> In n ns) -> length (derive_indexes ns [] (Some pkn)) = length pkn) /\
  (forall i idx tpk, ns <> [] -> derive_indexes ns (i :: idx) tpk = i :: idx).
Proof.
  intros ns pkn. split; [|split].
  - apply derive_indexes_table.
  - apply derive_indexes_complete.
  - intros. apply derive_indexes_server. assumption.
Qed.
Print Assumptions C30_from_message_indexes.

(* One BoundStatement over time (bind is public API on an existing statement; Model/BindHistory.v).
   After ANY history of bind / read-routing_key operations (failed binds included), a successful bind followed by
   any number of reads: the next read reports the routing key of THIS binding, never an earlier one. *)
Theorem C30_rebind_routing_key : forall V ser names pk_idx pv (h : list (bop V)) inp ws n,
  bind V ser names pk_idx pv inp = inr ws ->
  let st := step V ser names pk_idx pv in
  let s0 := fst (run_with V st (init None) h) in
  let s1 := fst (st s0 (OBind inp)) in
  let s2 := fst (run_with V st s1 (repeat ORead n)) in
  snd (st s2 ORead) = ObsRead (routing_key pk_idx ws) ws.
Proof. intros V ser names pk_idx pv h inp ws n. apply rebind_from, run_inv, derived_inv_init. Qed.
Print Assumptions C30_rebind_routing_key.

(* ... hence, with C30_routing_key: Cassandra's encoding of the partition key of the row addressed NOW *)
Theorem C30_rebind_composite : forall V ser names pk_idx pv (h : list (bop V)) vs ws n bs,
  bind V ser names pk_idx pv (InList vs) = inr ws -> pk_idx <> [] ->
  Forall2 (pk_component V ser vs) pk_idx bs -> forallb component_ok bs = true \/ length pk_idx = 1%nat ->
  let st := step V ser names pk_idx pv in
  let s2 := fst (run_with V st (fst (st (fst (run_with V st (init None) h)) (OBind (InList vs)))) (repeat ORead n)) in
  snd (st s2 ORead) = ObsRead (RkBytes (composite_spec bs)) ws.
Proof.
  intros V ser names pk_idx pv h vs ws n bs Hb Hne Hf Hok. cbn zeta.
  rewrite (C30_rebind_routing_key V ser names pk_idx pv h (InList vs) ws n Hb).
  rewrite (proj1 (C30_routing_key V ser names pk_idx pv vs ws Hb) bs Hne Hf Hok). reflexivity.
Qed.
Print Assumptions C30_rebind_composite.

(* a routing_key passed to the constructor is reported as given, before and after every bind (API behaviour; the
   statement of C30 makes no demand on a key the application chose itself) *)
Theorem C30_explicit_key_kept : forall V ser names pk_idx pv (ops : list (bop V)) k, pk_idx <> [] ->
  let s := fst (run_with V (step V ser names pk_idx pv) (init (Some k)) ops) in
  st_explicit s = Some k /\ snd (read_key pk_idx s) = RkBytes k.
Proof. intros V ser names pk_idx pv ops k Hne. apply explicit_from; [exact Hne|reflexivity]. Qed.
Print Assumptions C30_explicit_key_kept.

(* the code before the fix kept the derived key across bind(): bind [1,'a']; read; bind [2,'b']; read -> key of row 1 *)
Theorem C30_stale_cache_refuted :
  c30_hist_stale [1; 2] [TInt32; TText] [0%nat] None 4 None
    [OBind (InList [BVal (CInt 1); BVal (CStr [97])]); ORead; OBind (InList [BVal (CInt 2); BVal (CStr [98])]); ORead]
  = [ObsBind None [WBytes [0; 0; 0; 1]; WBytes [97]]; ObsRead (RkBytes [0; 0; 0; 1]) [WBytes [0; 0; 0; 1]; WBytes [97]];
     ObsBind None [WBytes [0; 0; 0; 2]; WBytes [98]]; ObsRead (RkBytes [0; 0; 0; 1]) [WBytes [0; 0; 0; 2]; WBytes [98]]]
  /\ nth 3 (c30_hist [1; 2] [TInt32; TText] [0%nat] None 4 None
    [OBind (InList [BVal (CInt 1); BVal (CStr [97])]); ORead; OBind (InList [BVal (CInt 2); BVal (CStr [98])]); ORead]) (ObsBind None [])
  = ObsRead (RkBytes [0; 0; 0; 2]) [WBytes [0; 0; 0; 2]; WBytes [98]].
Proof. vm_compute. split; reflexivity. Qed.
Print Assumptions C30_stale_cache_refuted.

(* the component length is a 16-bit UNSIGNED big-endian number: 40000 bytes -> 0x9C 0x40, 65535 is the largest component *)
Example C30_unsigned_length :
  u16_be 32767 = [127; 255] /\ u16_be 32768 = [128; 0] /\ u16_be 40000 = [156; 64] /\ u16_be 65535 = [255; 255] /\
  (forall b, component_ok b = true <-> Z.of_nat (length b) < 65536).
Proof. repeat split; try reflexivity; unfold component_ok; apply Z.ltb_lt. Qed.

(* non-vacuity: a 3-column statement (int, text, blob), composite partition key (blob, int) from table metadata,
   bound by name on v4 with the text column missing *)
Example C30_nonvacuous :
  c30_run [1; 2; 3] [TInt32; TText; TBlob] [] (Some [3; 1]) 4
          (InDict [(3, BVal (CBytes [7; 7; 7])); (1, BVal (CInt 1)); (9, BNone)])
  = ([2%nat; 0%nat], inr [WBytes [0; 0; 0; 1]; WUnset; WBytes [7; 7; 7]],
     RkBytes (composite_spec [[7; 7; 7]; [0; 0; 0; 1]])).
Proof. vm_compute. reflexivity. Qed.

Example C30_nonvacuous_hyp : exists bs,
  Forall2 (pk_component cval (cser_cols [TInt32; TText; TBlob]) [BVal (CInt 1); BNone; BVal (CBytes [7; 7; 7])])
          [2%nat; 0%nat] bs /\ forallb component_ok bs = true.
Proof.
  exists [[7; 7; 7]; [0; 0; 0; 1]]. split; [|reflexivity].
  repeat constructor; eexists; split; reflexivity.
Qed.
