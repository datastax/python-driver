(* C18 -- paged results yield every row exactly once, in order.
   Model: Model/Paging.v (ResultSet + ResponseFuture paging over a scripted server), tied to cassandra/cluster.py
   by correspondence (checks/C18.py).  `server` is ANY script: any number of pages, any page sizes incl. empty, and
   any number of page requests that end in an error delivered to the application (`Fail`) and of speculative
   executions firing inside a page fetch (`Spec`), anywhere; plus continuous paging sessions (`init_cont`). *)
From Coq Require Import ZArith List Bool.
From Verif Require Import Paging ListFacts C18_proofs.
Import ListNotations.
Local Open Scope Z_scope.

(* list(result_set) / `for row in result_set` terminates (fuel not exhausted) and returns the concatenation of
   all pages' rows in server order (no failing request: an exception would leave list()/the loop) *)
Theorem C18_iter : forall srv, nfails srv = O -> snd (iterate srv) = VRows (concat (pages srv)).
Proof. intros srv H. rewrite (proj1 (iterate_spec srv H)), all_rows_concat. reflexivity. Qed.
Print Assumptions C18_iter.

(* an application that keeps calling next() on the same iterator after failed page fetches still gets every row
   exactly once, in order; a failed request is repeated with the SAME paging state (that of the last page received) *)
Theorem C18_iter_across_failures : forall srv,
  snd (iterate_retry srv) = VRows (concat (pages srv)) /\ reqs (fst (iterate_retry srv)) = expected_reqs None srv.
Proof. intros srv. destruct (iterate_retry_spec srv) as [A B]. rewrite A, all_rows_concat. auto. Qed.
Print Assumptions C18_iter_across_failures.

(* the first request carries no paging state; request k (k >= 1) carries the state returned with page k-1 *)
Theorem C18_states : forall srv, nfails srv = O -> nspecs srv = O -> reqs (fst (iterate srv)) = None :: map Some (states srv).
Proof. intros srv H H'. rewrite (proj2 (iterate_spec srv H)). apply expected_nofail; assumption. Qed.
Print Assumptions C18_states.

Theorem C18_states_kth : forall srv k st, nfails srv = O -> nspecs srv = O -> nth_error (states srv) k = Some st ->
  nth_error (reqs (fst (iterate srv))) (S k) = Some (Some st).
Proof. intros srv k st Hn Hs H. rewrite (C18_states srv Hn Hs). cbn. rewrite nth_error_map, H. reflexivity. Qed.
Print Assumptions C18_states_kth.

(* for ANY access pattern (any sequence of iter/next/fetch_next_page/one/[i]/==/list calls, failures and speculative
   executions included): the requests sent are a prefix of the expected sequence (states in order; a repeated failed
   request and a speculative execution of a page fetch carry the same state as the regular request of that page),
   and never more requests than pages + failures + speculative executions: nothing is requested after the page without paging state *)
Theorem C18_stops : forall srv ops,
  let '(s0, o0) := init srv in let '(s', o) := run_state s0 ops in
  (exists rest, reqs (o0 ++ o) ++ rest = expected_reqs None srv)
  /\ (length (reqs (o0 ++ o)) <= npages srv + nfails srv + nspecs srv)%nat.
Proof.
  intros srv ops. pose proof (any_pattern_prefix srv ops) as P.
  destruct (init srv) as [s0 o0]. destruct (run_state s0 ops) as [s' o].
  split; [eexists; exact P|].
  apply (f_equal (@length _)) in P. rewrite app_length, expected_length in P. rewrite <- P. apply Nat.le_add_r.
Qed.
Print Assumptions C18_stops.

Theorem C18_expected_nofail : forall srv, nfails srv = O -> nspecs srv = O -> expected_reqs None srv = None :: map Some (states srv).
Proof. intros srv. apply expected_nofail. Qed.
Print Assumptions C18_expected_nofail.

(* exactly as many requests as pages when iterating to the end *)
Theorem C18_stops_iter : forall srv, nfails srv = O -> nspecs srv = O -> length (reqs (fst (iterate srv))) = npages srv.
Proof. intros srv H H'. rewrite (C18_states srv H H'). cbn. rewrite map_length. apply states_length. Qed.
Print Assumptions C18_stops_iter.

(* materialising through the index / equality operators agrees with iteration (same rows or same exception, same requests) *)
Theorem C18_list_eq_iter : forall srv, materialise srv = iterate srv.
Proof.
  intros srv. unfold materialise, iterate. pose proof (init_spec srv) as F. destruct (init srv) as [s0 o0].
  destruct F as ([F1 F2] & _). unfold enter_list_mode. rewrite F1, F2. destruct (list_self s0) as [[s' o] r]. destruct r; reflexivity.
Qed.
Print Assumptions C18_list_eq_iter.

Theorem C18_getitem : forall srv i, nfails srv = O -> nspecs srv = O -> let '(s0, _) := init srv in
  exists o, snd (step s0 (OGetItem i)) = o ++ [Ret (py_getitem (concat (pages srv)) i)] /\ reqs o = map Some (states srv).
Proof.
  intros srv i Hn Hs. pose proof (enter_list_mode_init srv Hn) as E. pose proof (init_one_request srv Hn Hs) as O.
  destruct (init srv) as [s0 o0]. destruct E as (s1 & o & E & C & R). exists o. cbn [step]. rewrite E, C, all_rows_concat.
  cbn in O. subst o0. rewrite (expected_nofail srv None Hn Hs) in R. injection R as R. auto.
Qed.
Print Assumptions C18_getitem.

Theorem C18_eq : forall srv other, nfails srv = O -> nspecs srv = O -> let '(s0, _) := init srv in
  exists o b, snd (step s0 (OEq other)) = o ++ [Ret (VBool b)] /\ (b = true <-> concat (pages srv) = other).
Proof.
  intros srv other Hn _. pose proof (enter_list_mode_init srv Hn) as E. destruct (init srv) as [s0 o0].
  destruct E as (s1 & o & E & C & _). exists o, (zlist_eqb (concat (pages srv)) other). cbn [step].
  rewrite E, C, all_rows_concat. split; [reflexivity | exact (eq_listb_spec Z.eqb Z.eqb_eq _ _)]. (* zlist_eqb is eq_listb Z.eqb *)
Qed.
Print Assumptions C18_eq.

(* manual paging (current_rows; while has_more_pages: fetch_next_page() [called again if it raised]; current_rows)
   yields the same rows and sends the same requests as iteration -- with or without failing requests *)
Theorem C18_manual_eq_iter : forall srv,
  snd (manual srv) = Some (concat (pages srv)) /\ reqs (fst (manual srv)) = reqs (fst (iterate_retry srv)).
Proof.
  intros srv. destruct (manual_spec srv) as [M R]. rewrite M, R, (proj2 (iterate_retry_spec srv)), all_rows_concat. auto.
Qed.
Print Assumptions C18_manual_eq_iter.

(* callback-driven paging (add_callbacks(handle_page, ...) with handle_page calling start_fetching_next_page()):
   the handler is given every row exactly once, in order, and finishes -- whether the first page arrived before or
   after the callbacks were registered -- with the same requests as iteration *)
Theorem C18_async_eq_iter : forall early srv, nfails srv = O ->
  let '(o, r, f) := async_pages early srv in
  r = concat (pages srv) /\ f = true /\ reqs o = reqs (fst (iterate_retry srv)).
Proof.
  intros early srv Hn. pose proof (async_pages_spec early srv Hn) as A. destruct (async_pages early srv) as [[o r] f].
  destruct A as (A1 & A2 & A3). rewrite A1, A2, (proj2 (iterate_retry_spec srv)), all_rows_concat. auto.
Qed.
Print Assumptions C18_async_eq_iter.

(* continuous paging (DSE_V1 and DSE_V2): pages are pushed, not requested; they come out once, in order *)
Theorem C18_cont_iter : forall srv, snd (iterate_cont srv) = [Ret (VRows (concat (pages srv)))].
Proof. intros srv. unfold iterate_cont, init_cont. destruct (init srv) as [s0 o0]. rewrite all_rows_concat. reflexivity. Qed.
Print Assumptions C18_cont_iter.

(* step by step: after iter(), the k-th next() returns the k-th row of the concatenation *)
Theorem C18_cont_steps : forall srv, let '(a0, _) := init_cont srv in
  snd (arun_state (fst (astep a0 OIter)) (repeat ONext (length (concat (pages srv))))) = map (fun r => Ret (VRow r)) (concat (pages srv)).
Proof.
  intros srv. unfold init_cont. destruct (init srv) as [s0 o0]. rewrite <- all_rows_concat.
  apply cont_next_steps.
Qed.
Print Assumptions C18_cont_steps.

(* no page is ever requested by a continuous result, whatever (modelled) calls are made and however far they go
   past the last row: iter/next/list/one/[i]/==/has_more_pages/paging_state *)
Theorem C18_cont_no_requests : forall srv ops, forallb cont_op ops = true ->
  let '(a0, o0) := init_cont srv in reqs (snd (arun_state a0 ops)) = [].
Proof.
  intros srv ops H. unfold init_cont. destruct (init srv) as [s0 o0]. exact (proj1 (arun_quiet ops (Cont (mkCS (all_rows srv) false (more s0))) I H)).
Qed.
Print Assumptions C18_cont_no_requests.

(* non-vacuity: a script with a speculative execution, a continuous session, and `srv`: four pages, two of them empty, one
   page request failing twice *)
Example C18_nonvacuous :
  let srv := More [1; 2] 10 (More [] 11 (Fail (Fail (More [3] 12 (Last []))))) in
  iterate (More [1] 10 (Spec (More [2] 11 (Last [3])))) = ([Req None; Req (Some 10); Req (Some 10); Req (Some 11)], VRows [1; 2; 3])
  /\ arun_state (fst (init_cont (More [1] 10 (More [] 11 (Last [2])))))  [OIter; ONext; ONext; ONext; ONext; OHasMore]
      = (Cont (mkCS [] true (Some (10, More [] 11 (Last [2])))), [Ret VSelf; Ret (VRow 1); Ret (VRow 2); Ret VStop; Ret VStop; Ret (VBool true)])
  /\ iterate_retry srv = ([Req None; Req (Some 10); Req (Some 11); Req (Some 11); Req (Some 11); Req (Some 12)], VRows [1; 2; 3])
  /\ manual srv = ([Req None; Req (Some 10); Req (Some 11); Req (Some 11); Req (Some 11); Req (Some 12)], Some [1; 2; 3])
  /\ snd (iterate srv) = VError
  /\ snd (run_state (fst (init srv)) [OIter; ONext; ONext; ONext; ONext; ONext; ONext]) =
     [Ret VSelf; Ret (VRow 1); Ret (VRow 2); Req (Some 10); Req (Some 11); Ret VError; Req (Some 11); Ret VError;
      Req (Some 11); Ret (VRow 3); Req (Some 12); Ret VStop].
Proof. repeat split. Qed.
