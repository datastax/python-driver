(* C06 -- protocol v5 segments are reassembled exactly and corruption is detected.
   Model: Model/Crc.v, Model/Segment.v (segment.py + the checksumming path of Connection.process_io_buffer with the
   repairs listed in docs/C06.md), on top of Model/Stream.v.  The compressor pair is abstract: any functions with decompress (compress x) |x| = x. *)
From Coq Require Import ZArith List Bool Lia.
From Verif Require Import Crc Stream Segment Crc_proofs C05_proofs Seg_bytes C06_proofs C06_flip.
From Verif Require SegmentToy.
Import ListNotations.
Local Open Scope Z_scope.

Definition codec_ok (compress : list Z -> list Z) (decompress : list Z -> Z -> list Z) : Prop :=
  (forall x, decompress (compress x) (blen x) = x) /\ (forall x, Forall byte_ok x -> Forall byte_ok (compress x)).

(* Any frames, cut into segment payloads in ANY way (several frames per segment, frames spanning segments, payloads of any
   size up to 128 KiB - 1, compressed or left uncompressed by the sender's rule), the byte stream split into reads in ANY way:
   exactly those frames are delivered, in order, and both buffers end empty. *)
Theorem C06_roundtrip : forall compression compress decompress, codec_ok compress decompress ->
  forall (segs : list seg) (fs : list frame) (chunks : list (list Z)),
  segs_ok segs -> Forall wf fs -> payloads segs = frames_bytes fs ->
  concat chunks = wire compression compress segs ->
  exists c, run_cfeed compression decompress cinit chunks = (CLive [] [] c, map deliver fs).
Proof. intros compression compress decompress [H1 H2]. apply roundtrip; assumption. Qed.
Print Assumptions C06_roundtrip.

(* The driver's own encoder (SegmentCodec.encode: one self-contained segment per message, messages > 128 KiB - 1 split into
   several segments), any message sizes, any chunking. *)
Theorem C06_roundtrip_messages : forall compression compress decompress, codec_ok compress decompress ->
  forall (fs : list frame) (chunks : list (list Z)),
  Forall wf fs -> Forall (fun f => Forall byte_ok (enc f)) fs ->
  concat chunks = concat (map (fun f => encode compression compress (enc f)) fs) ->
  exists c, run_cfeed compression decompress cinit chunks = (CLive [] [] c, map deliver fs).
Proof. intros compression compress decompress [H1 H2]. apply roundtrip_messages; assumption. Qed.
Print Assumptions C06_roundtrip_messages.

(* No spurious checksum (or any other) error on any split of a valid stream. *)
Theorem C06_no_spurious_crc : forall compression compress decompress, codec_ok compress decompress ->
  forall (segs : list seg) (fs : list frame) (chunks : list (list Z)),
  segs_ok segs -> Forall wf fs -> payloads segs = frames_bytes fs ->
  concat chunks = wire compression compress segs ->
  forall r, ~ In (Defunct r) (snd (run_cfeed compression decompress cinit chunks)).
Proof.
  intros compression compress decompress Hc segs fs chunks H1 H2 H3 H4 r Hin.
  destruct (C06_roundtrip compression compress decompress Hc segs fs chunks H1 H2 H3 H4) as (c & E).
  rewrite E in Hin. exact (deliver_not_defunct fs r Hin).
Qed.
Print Assumptions C06_no_spurious_crc.

(* One flipped bit anywhere in the header or its CRC-24 (3- or 5-byte header), any payload, any chunking, anything after it:
   the connection is failed with a CRC mismatch and nothing is delivered. *)
Theorem C06_detects_header_flip : forall compression compress decompress, codec_ok compress decompress ->
  forall p sc (k : nat) more chunks fb c,
  seg_ok p -> (k < 8 * hlc compression)%nat -> parse1 fb = NeedMore ->
  concat chunks = flip_bit k (encode_segment compression compress p sc) ++ more ->
  run_cfeed compression decompress (CLive [] fb c) chunks = (CDead, [Defunct R_CRC]).
Proof.
  intros compression compress decompress [H1 H2] p sc k more chunks fb c Hok Hk Hfb Hc.
  eapply flip_detected; try eassumption.
  rewrite encode_segment_length. lia.
Qed.
Print Assumptions C06_detects_header_flip.

(* One flipped bit anywhere in the payload or its CRC-32, payload of ANY length: same. *)
Theorem C06_detects_payload_flip : forall compression compress decompress, codec_ok compress decompress ->
  forall p sc (k : nat) more chunks fb c,
  seg_ok p -> (8 * hlc compression <= k < 8 * length (encode_segment compression compress p sc))%nat -> parse1 fb = NeedMore ->
  concat chunks = flip_bit k (encode_segment compression compress p sc) ++ more ->
  run_cfeed compression decompress (CLive [] fb c) chunks = (CDead, [Defunct R_CRC]).
Proof.
  intros compression compress decompress [H1 H2] p sc k more chunks fb c Hok Hk Hfb Hc.
  eapply flip_detected; try eassumption. lia.
Qed.
Print Assumptions C06_detects_payload_flip.

(* CRC-24 as computed by compute_crc24: a single flipped bit of the header always changes it ... *)
Theorem C06_crc24_single_bit : forall (hl : nat) data k, (hl = 3 \/ hl = 5)%nat -> 0 <= data -> 0 <= k < 8 * Z.of_nat hl ->
  compute_crc24 (Z.lxor data (2 ^ k)) hl <> compute_crc24 data hl.
Proof. intros hl data k _ _ Hk. apply C06_bridge.crc24_flip. exact Hk. Qed.
Print Assumptions C06_crc24_single_bit.

(* ... and CRC-32: changing one byte (in any way) of a payload of any length always changes it. *)
Theorem C06_crc32_single_byte : forall pre b b' post v, 0 <= v < 2 ^ 32 -> Forall byte_ok pre -> byte_ok b -> byte_ok b' ->
  Forall byte_ok post -> b <> b' -> compute_crc32 (pre ++ b :: post) v <> compute_crc32 (pre ++ b' :: post) v.
Proof. exact crc32_detects. Qed.
Print Assumptions C06_crc32_single_byte.

(* The framing switch of the handshake: whichever answer the server gives to STARTUP (READY, or AUTHENTICATE followed later by
   AUTH_SUCCESS), a v5 connection reads segments in the compressed format iff compression was announced in STARTUP -- the
   format the peer writes them in -- and the choice does not change afterwards; before v5 no segment codec is installed. *)
Theorem C06_codec_follows_negotiation : forall (negotiated : bool) (r : hreply), r <> RAuthSuccess ->
  hs_codec (on_reply true r (hs_init negotiated)) = Some negotiated /\
  hs_codec (on_reply true RAuthSuccess (on_reply true r (hs_init negotiated))) = Some negotiated /\
  hs_codec (on_reply false r (hs_init negotiated)) = None.
Proof. intros [|] [| |] H; try congruence; repeat split. Qed.
Print Assumptions C06_codec_follows_negotiation.

(* ... hence what the peer sends after the switch (any frames, any segmentation, any chunking), starting with AUTH_SUCCESS on
   an authenticated connection, is reassembled exactly and without any checksum error. *)
Theorem C06_roundtrip_after_handshake : forall compress decompress, codec_ok compress decompress ->
  forall (negotiated : bool) (r : hreply) (c : bool), r <> RAuthSuccess ->
  hs_codec (on_reply true r (hs_init negotiated)) = Some c ->
  forall (segs : list seg) (fs : list frame) (chunks : list (list Z)),
  segs_ok segs -> Forall wf fs -> payloads segs = frames_bytes fs ->
  concat chunks = wire negotiated compress segs ->
  exists c', run_cfeed c decompress cinit chunks = (CLive [] [] c', map deliver fs).
Proof.
  intros compress decompress Hc negotiated r c Hr Hcodec segs fs chunks H1 H2 H3 H4.
  destruct (C06_codec_follows_negotiation negotiated r Hr) as (E & _). rewrite E in Hcodec. inversion Hcodec; subst c.
  eapply C06_roundtrip; eassumption.
Qed.
Print Assumptions C06_roundtrip_after_handshake.

(* Non-vacuity: the identity pair is a codec (every segment is then "left uncompressed" under negotiated compression);
   two frames in three segments (one frame spanning two segments, 5-byte headers), read one byte at a time; and a flipped bit. *)
Definition id_c (x : list Z) : list Z := x.
Definition id_d (x : list Z) (_ : Z) : list Z := x.
Definition ex6_frames : list frame := [(128, mkH 5 0 7 8 3, [1; 2; 3]); (128, mkH 5 0 (-1) 12 1, [9])].
Definition ex6_bytes : list Z := concat (map enc ex6_frames).
Definition ex6_segs : list seg := [(firstn 5 ex6_bytes, true); (firstn 9 (skipn 5 ex6_bytes), false); (skipn 14 ex6_bytes, true)].
Definition ex6_stream : list Z := wire true id_c ex6_segs.
Example C06_nonvacuous :
  codec_ok id_c id_d /\ segs_ok ex6_segs /\ Forall wf ex6_frames /\ payloads ex6_segs = frames_bytes ex6_frames /\
  run_cfeed true id_d cinit (map (fun b => [b]) ex6_stream) = (CLive [] [] true, map deliver ex6_frames) /\
  run_cfeed true id_d cinit (map (fun b => [b]) (flip_bit 100 ex6_stream)) = (CDead, [Defunct R_CRC]).
Proof.
  split; [split; intros; [reflexivity|assumption]|].
  split. { repeat constructor; vm_compute; intuition discriminate. }
  split. { repeat constructor; vm_compute; intuition discriminate. }
  split; [reflexivity|]. split; vm_compute; reflexivity.
Qed.

(* Tie (T): the functions REGENERATED from cassandra/segment.py (Gen/SegmentGen.v, rewritten from the working tree on
   every run) are the model's functions.
   compute_crc24, SegmentCodec.encode_header, SegmentCodec.decode_header and SegmentHeader.segment_length of the hand
   model used above are, for every input, what the source says now; the statements are in Proofs/C06_bridge.v.
   Unqualified names below are the hand model's; the regenerated ones are written SegmentGen.x, SegmentConsts.x. *)
Require Verif.Gen.SegmentGen Verif.Model.Crc24 Verif.Proofs.SegmentCrc_proofs Verif.Proofs.C06_bridge.

Theorem C06_source_crc24_is_model : forall data len,
  SegmentGen.compute_crc24 data len = compute_crc24 data (Z.to_nat len).
Proof. exact C06_bridge.source_crc24_is_model. Qed.
Print Assumptions C06_source_crc24_is_model.

(* so the single-bit guarantee holds of the source's compute_crc24 itself (header lengths 3 and 5) *)
Theorem C06_source_crc24_single_bit : forall hl data k, (hl = 3 \/ hl = 5) -> 0 <= data -> 0 <= k < 8 * hl ->
  SegmentGen.compute_crc24 (Z.lxor data (2 ^ k)) hl <> SegmentGen.compute_crc24 data hl.
Proof.
  intros hl data k _ _ Hk. rewrite !C06_bridge.source_crc24_is_model.
  apply C06_bridge.crc24_flip. lia.
Qed.
Print Assumptions C06_source_crc24_single_bit.

Theorem C06_source_encode_header_is_model : forall c pl ul sc, pl <= MAX_PAYLOAD_LENGTH ->
  exists recs, SegmentGen.encode_header pl ul sc c (SegmentGen.header_length c) = PyBase.Ok recs /\
               concat (map Crc24.write_uint_le_model recs) = encode_header c pl ul sc.
Proof. exact C06_bridge.source_encode_header_is_model. Qed.
Print Assumptions C06_source_encode_header_is_model.

Theorem C06_source_encode_header_rejects : forall c pl ul sc hl, MAX_PAYLOAD_LENGTH < pl ->
  SegmentGen.encode_header pl ul sc c hl = PyBase.Raise.
Proof. exact SegmentCrc_proofs.encode_header_rejects. Qed.
Print Assumptions C06_source_encode_header_rejects.

Theorem C06_source_decode_header_in_parse_seg : forall c decompress io,
  header_length_with_crc c <= blen io ->
  let hl := Z.to_nat (header_length c) in
  parse_seg c decompress io =
  match SegmentGen.decode_header c (SegmentGen.header_length c) (le_val (firstn hl io)) (le_val (firstn 3 (skipn hl io))) with
  | PyBase.Ok (pl, ul, _) => C06_bridge.seg_tail c decompress pl ul io
  | _ => SBad
  end.
Proof. exact C06_bridge.source_decode_header_in_parse_seg. Qed.
Print Assumptions C06_source_decode_header_in_parse_seg.

(* the source's header codec by itself: round trip and rejection of every CRC mismatch *)
Theorem C06_source_header_roundtrip : forall c pl ul sc,
  0 <= pl <= SegmentConsts.MAX_PAYLOAD_LENGTH -> 0 <= ul <= SegmentConsts.MAX_PAYLOAD_LENGTH ->
  exists hd crc, SegmentGen.encode_header pl ul sc c (SegmentGen.header_length c) =
                   PyBase.Ok [(hd, SegmentGen.header_length c); (crc, 3)] /\
                 0 <= hd < 2 ^ (8 * SegmentGen.header_length c) /\ 0 <= crc < 2 ^ 24 /\
                 SegmentGen.decode_header c (SegmentGen.header_length c) hd crc = PyBase.Ok (pl, (if c then ul else -1), sc).
Proof. exact SegmentCrc_proofs.header_roundtrip. Qed.
Print Assumptions C06_source_header_roundtrip.

Theorem C06_source_header_crc_mismatch : forall c hl hd crc, crc <> SegmentGen.compute_crc24 hd hl ->
  SegmentGen.decode_header c hl hd crc = PyBase.Raise.
Proof. exact SegmentCrc_proofs.decode_header_crc_mismatch. Qed.
Print Assumptions C06_source_header_crc_mismatch.
