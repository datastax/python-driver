(* C44 -- heartbeats detect dead idle connections without leaking capacity.
   One heartbeat round on one connection is a composition of Model/Conn.v steps.  The theorems hold in EVERY state satisfying
   the stated side conditions, hence for any number of rounds and any traffic in between. *)
From Coq Require Import ZArith List Bool Lia.
From Verif Require Import Conn Conn_lemmas C44_proofs Heartbeat.
Import ListNotations.
Local Open Scope Z_scope.

(* an idle, healthy connection below the in_flight threshold gets a heartbeat: the OPTIONS request is registered on the
   next free stream id *)
Theorem C44_idle_get_heartbeat :
  let s := run (init 2 4 2) [Borrow; SendCheck 0; SendReg 0 7; RecvBegin 0; RecvPop 0 DOk; ReturnConn; RecvEnd; HbSkipBusy] in
  let s' := step s (HbSend 50) in
  msg_received s = false /\ lookup 1 (reqs s') = Some 50 /\ in_flight s' = in_flight s + 1 /\ free s' = [0]
  /\ log s' = ESent 1 50 :: EGot 1 :: log s.
Proof. vm_compute. repeat split. Qed.
Print Assumptions C44_idle_get_heartbeat.

(* a connection that received traffic is not sent a heartbeat: run() only resets the idle flag *)
Theorem C44_busy_skipped : forall s,
  let s' := step s HbSkipBusy in
  msg_received s' = false /\ in_flight s' = in_flight s /\ free s' = free s /\ reqs s' = reqs s /\ wire s' = wire s /\ log s' = log s.
Proof. intros s. unfold step. fields. repeat split; reflexivity. Qed.
Print Assumptions C44_busy_skipped.

(* a successful heartbeat leaves in_flight exactly as it was and the same ids free (the used id goes to the back of the
   deque).  Stated for the connection states below (idle / with outstanding, orphaned and held ids / after earlier
   rounds); the general statement is checked on the real code every round by the correspondence, not proved. *)
Definition cap_ok (pre : list op) (i cb : Z) : bool :=
  let s := run (init 4 4 2) pre in let s' := run s (hb_ok i cb) in
  (in_flight s' =? in_flight s) && list_eqb (sort (free s')) (sort (free s)) && negb (defunct s') && negb (msg_received s').
Theorem C44_capacity_preserved_instances :
  cap_ok [] 0 50 = true /\
  cap_ok [Borrow; SendCheck 0; SendReg 0 7; Borrow] 2 50 = true /\
  cap_ok [Borrow; SendCheck 0; SendReg 0 7; TimeoutPop 0 true; TimeoutOrphan 0; Borrow; SendCheck 1; SendReg 1 8] 2 50 = true /\
  cap_ok ([Borrow; SendCheck 0; SendReg 0 7] ++ hb_ok 1 40 ++ [RecvBegin 0; RecvPop 0 DOk; ReturnConn; RecvEnd]) 2 50 = true.
Proof. vm_compute. repeat split. Qed.
Print Assumptions C44_capacity_preserved_instances.

(* every frame counts as traffic, server-pushed EVENT frames (stream -1) included: the next round skips the connection *)
Theorem C44_pushed_event_is_traffic : forall s, msg_received (step s RecvPush) = true /\ in_flight (step s RecvPush) = in_flight s
  /\ free (step s RecvPush) = free s /\ reqs (step s RecvPush) = reqs s.
Proof. intros s. unfold step. fields. repeat split; reflexivity. Qed.
Print Assumptions C44_pushed_event_is_traffic.

(* a failed or unanswered heartbeat: run() calls connection.defunct(exc) -- on a live connection the flag is set and every later
   send is refused -- and then owner.return_connection(connection): the owner is notified *)
Theorem C44_failed_defunct : forall s, defunct s = false -> closed s = false ->
  defunct (step s DefunctFlag) = true /\ send_verdict (step s DefunctFlag) = 1.
Proof. intros s D C. unfold step. rewrite D, C. unfold send_verdict. fields. split; reflexivity. Qed.
Print Assumptions C44_failed_defunct.

Theorem C44_owner_notified : forall s, log (step s OwnerReturn) = ENotified :: log s.
Proof. intros s. unfold step. fields. reflexivity. Qed.
Print Assumptions C44_owner_notified.

Theorem C44_failed_round_instances :
  let s := run (init 2 4 2) [Borrow; SendCheck 0; SendReg 0 7; HbSend 50] in
  let s' := run s hb_failed in
  defunct s' = true /\ closed s' = true /\ reqs s' = [] /\ hd_error (log s') = Some ENotified /\ erroring s' = [50; 7].
Proof. vm_compute. repeat split. Qed.
Print Assumptions C44_failed_round_instances.

(* at the in_flight threshold no heartbeat is sent and nothing changes (the future fails, see run()) *)
Theorem C44_at_threshold_not_sent : forall s cb, in_flight s <? max_id s = false ->
  let s' := step s (HbSend cb) in in_flight s' = in_flight s /\ free s' = free s /\ reqs s' = reqs s /\ log s' = EHbCap :: log s.
Proof. intros s cb C. unfold step. rewrite C. fields. repeat split; reflexivity. Qed.
Print Assumptions C44_at_threshold_not_sent.


(* the wait loop gives every HeartbeatFuture of the round the SAME deadline (idle_heartbeat_timeout after the wait phase began),
   whatever the number of futures, their order and how long the earlier ones took: a reply processed within the timeout is never
   reported as a failure, a later or missing one always is *)
Theorem C44_shared_deadline : forall T arrivals i a, 0 <= T -> nth_error arrivals i = Some a ->
  nth_error (wait_phase T arrivals) i = Some (in_time T a).
Proof. intros T arrivals i a HT E. rewrite (wait_phase_spec T arrivals HT). exact (map_nth_error _ _ _ E). Qed.
Print Assumptions C44_shared_deadline.

(* no state is carried from one round to the next: each round is judged on its own replies only (so by definition of `rounds`;
   what is proved is that each is judged by the shared deadline) *)
Theorem C44_rounds_independent : forall T rs k r, 0 <= T -> nth_error rs k = Some r ->
  nth_error (rounds T rs) k = Some (map (in_time T) r).
Proof. intros T rs k r HT E. unfold rounds. rewrite (map_nth_error _ _ _ E). rewrite (wait_phase_spec T r HT). reflexivity. Qed.
Print Assumptions C44_rounds_independent.


(* every connection a holder listed at the start of the round is visited exactly once, in order, and treated according to its own
   state -- also when an earlier one in the list is dead and its owner drops it while the round is running (a modelling decision:
   `send_phase` walks the list taken at the start of the round, which the correspondence compares with run(); restated here) *)
Theorem C44_every_listed_connection_visited : forall listed i c, nth_error listed i = Some c ->
  nth_error (send_phase listed) i = Some (decide c) /\ length (send_phase listed) = length listed.
Proof. intros listed i c E. unfold send_phase. split; [exact (map_nth_error _ _ _ E)|apply map_length]. Qed.
Print Assumptions C44_every_listed_connection_visited.

Example C44_nonvacuous_deadline : wait_phase 100 [Some 40; Some 60; Some 90; None; Some 10; Some 101] = [true; true; true; false; true; false].
Proof. reflexivity. Qed.

Example C44_nonvacuous :
  let s := run (init 2 3 2) ([Borrow; SendCheck 0; SendReg 0 7] ++ hb_ok 1 1001 ++ [RecvBegin 0; RecvPop 0 DOk; ReturnConn; RecvEnd; HbSkipBusy]
                             ++ hb_ok 1 1002 ++ [HbSend 1003] ++ hb_failed) in
  in_flight s = 0 /\ defunct s = true /\ free s = [1] /\ invoked 1002 (log s) = 1.
Proof. vm_compute. repeat split. Qed.
