(* C32 -- concurrent execution returns one ordered result per statement.
   Model: Model/Concurrent.v (cassandra/concurrent.py, where the async future is completed only while pending), tied
   to the source by region-by-region correspondence (checks/C32.py).
   The theorems quantify over ANY configuration c (any number of statements with any behaviour vector, any concurrency,
   fail-fast on/off, any recursion threshold; C32_one_per_statement and C32_fail_fast: List and Future variants,
   concurrency > 0) and ANY history `ops` (any interleaving of caller regions, completions in any order, second regions
   of the async variant). *)
From Coq Require Import List Bool Arith.
From Verif Require Import Concurrent ListFacts C32_proofs.
Import ListNotations.

(* at most `concurrency` slots are held after every region (pending futures + deferred result deliveries) *)
Theorem C32_concurrency_bound : forall c ops, length (inflight (run c ops)) <= conc c.
Proof. intros c ops. eapply Nat.le_trans; [apply Nat.le_add_r | apply slots_bound]. Qed.
Print Assumptions C32_concurrency_bound.

(* in particular for the pending futures, the quantity the harness measures as peak in-flight *)
Theorem C32_concurrency_bound_futures : forall c ops, length (filter (is_later c) (inflight (run c ops))) <= conc c.
Proof. intros c ops. eapply Nat.le_trans; [apply filter_length_le | apply C32_concurrency_bound]. Qed.
Print Assumptions C32_concurrency_bound_futures.

(* the async variant's future: the model's InvalidStateError count stays 0 (it is never incremented: completing is
   guarded by `still pending`), the future never changes once completed, and it is completed when
   execute_concurrent_async has returned -- for every history, also n = 0 *)
Theorem C32_future_once : forall c ops,
  fut_err (run c ops) = 0
  /\ (forall more, fut (run c ops) <> FPending -> fut (run c (ops ++ more)) = fut (run c ops))
  /\ (forall o, pc (run c ops) = MFin o -> fut (run c ops) <> FPending).
Proof.
  intros c ops. split; [apply fut_err_zero|]. split.
  - intros more H. exact (proj1 (run_mono c ops more) H).
  - intros o. apply fin_done.
Qed.
Print Assumptions C32_future_once.

(* fail fast: the stored first failure is never replaced by a later one *)
Theorem C32_first_failure_kept : forall c ops more e, exc (run c ops) = Some e -> exc (run c (ops ++ more)) = Some e.
Proof. intros c ops more e H. rewrite (proj2 (proj2 (run_mono c ops more))); [exact H | congruence]. Qed.
Print Assumptions C32_first_failure_kept.

(* `expected c` = [(0, outcome of statement 0); (1, ...); ...]: one entry per statement, in input order *)
Theorem C32_expected_shape : forall c, length (expected c) = length (behs c) /\ map fst (expected c) = seq 0 (length (behs c)).
Proof.
  intros c. split; [apply expected_length | apply expected_fst].
Qed.
Print Assumptions C32_expected_shape.

(* List and async variants, any history: whatever list the caller gets back (execute_concurrent's return value, the
   value _results() hands to execute_concurrent_async, the async future's result) is exactly one correct entry per
   statement in input order.  (With fail-fast off; with fail-fast on a returned list means no failure was seen.) *)
Theorem C32_one_per_statement : forall c ops l, var c <> VGen -> 0 < conc c -> ff c = false ->
  (pc (run c ops) = MRet (Return l) \/ pc (run c ops) = MFin (Return l) \/ fut (run c ops) = FResult l) -> l = expected c.
Proof.
  intros c ops l V Hc _ H. exact (delivered_ok c ops (Return l) V Hc H).
Qed.
Print Assumptions C32_one_per_statement.

(* fail fast: what is raised to the caller / stored in the async future is the failure of a statement that really
   failed (that the stored failure is the first and stays: C32_first_failure_kept) *)
Theorem C32_fail_fast : forall c ops e, var c <> VGen -> 0 < conc c ->
  (pc (run c ops) = MRet (RaiseExc e) \/ pc (run c ops) = MFin (RaiseExc e) \/ fut (run c ops) = FExc e) ->
  exists b, nth_error (behs c) e = Some b /\ ok_of b = false.
Proof.
  intros c ops e V Hc H. exact (delivered_ok c ops (RaiseExc e) V Hc H).
Qed.
Print Assumptions C32_fail_fast.

(* non-vacuity: 4 statements (later ok, sync ok, later err, sync raise), concurrency 2, completions out of order *)
Example C32_nonvacuous :
  let c := mkCfg [BLaterOk; BSyncOk; BLaterErr; BRaise] 2 false VList 100 in
  let s := run c [MainStep; MainStep; Complete 2; MainStep; Complete 0; MainStep] in
  pc s = MRet (Return [(0, true); (1, true); (2, false); (3, false)]) /\ expected c = [(0, true); (1, true); (2, false); (3, false)]
  /\ fut (run (mkCfg [BLaterErr] 1 true VFuture 100) [MainStep; MainStep; Complete 0; Finish2 0; MainStep; MainStep]) = FExc 0.
Proof. repeat split. Qed.
