(* C46 -- per-statement options override profile and session defaults.
   Model: Model/Options.v (Session._create_response_future + BoundStatement inheritance), tied to the source by
   exhaustive correspondence over the set/unset lattice (checks/C46.py).
   Quantified over: both configuration modes, the three statement kinds, every statement/profile/session option
   value, every timeout argument, every protocol version (only hypothesis: a batch needs protocol >= 2, as the
   driver raises UnsupportedOperation otherwise). *)
From Coq Require Import ZArith List Bool Lia.
From Verif Require Import Options C46_proofs.
Import ListNotations.
Local Open Scope Z_scope.

(* a setting made on the statement is the one in effect -- whatever the profile and the session say *)
Theorem C46_statement_wins : forall m k st pr se t pg pv f, effective m k st pr se t pg pv = Some f ->
  (forall v, s_cl st = Some v -> m_cl f = v)
  /\ (forall v, s_serial st = Some v -> m_serial f = Some v)
  /\ (forall v, s_retry st = Some v -> f_retry f = v)
  /\ (forall v, s_fetch st = FSet v -> k <> Batch -> pv <> 1 -> m_fetch f = v)
  /\ (forall v, t = TSet v -> f_timeout f = v).
Proof.
  intros m k st pr se t pg pv f H. rewrite (effective_fields _ _ _ _ _ _ _ _ _ H). cbn.
  unfold eff_cl, eff_serial, eff_retry, eff_timeout. repeat split; intros v E; rewrite E; try reflexivity.
  (* left: the fetch size, which a batch and protocol 1 do not carry *)
  intros N P. destruct (Z.eqb_spec pv 1); [contradiction|]. destruct k; [reflexivity|reflexivity|contradiction].
Qed.
Print Assumptions C46_statement_wins.

(* a BoundStatement's own settings win over the PreparedStatement's, which win over profile/session *)
Theorem C46_bound_inherits : forall prep expl mk,
  (forall v, s_cl expl = Some v -> s_cl (bound_of prep expl mk) = Some v)
  /\ (s_cl expl = None -> s_cl (bound_of prep expl mk) = s_cl prep)
  /\ (forall v, s_serial expl = Some v -> s_serial (bound_of prep expl mk) = Some v)
  /\ (s_serial expl = None -> s_serial (bound_of prep expl mk) = s_serial prep)
  /\ (forall v, s_retry expl = Some v -> s_retry (bound_of prep expl mk) = Some v)
  /\ (s_retry expl = None -> s_retry (bound_of prep expl mk) = s_retry prep)
  /\ (forall v, s_fetch expl = FSet v -> s_fetch (bound_of prep expl mk) = FSet v)
  /\ (s_fetch expl = FUnset -> s_fetch (bound_of prep expl mk) = s_fetch prep).
Proof. intros prep expl mk. cbn. repeat split; intros; try rewrite H; reflexivity. Qed.
Print Assumptions C46_bound_inherits.

(* otherwise: the execution profile's setting, or in legacy mode the session's; row factory, load-balancing and
   speculative-execution policy always come from there (statements carry no such setting) *)
Theorem C46_else_profile_or_session : forall m k st pr se t pg pv f, effective m k st pr se t pg pv = Some f ->
  (s_cl st = None -> m_cl f = match m with Legacy => d_cl se | Profiles => p_cl pr end)
  /\ (s_serial st = None -> m_serial f = match m with Legacy => d_serial se | Profiles => p_serial pr end)
  /\ (s_retry st = None -> f_retry f = match m with Legacy => d_retry se | Profiles => p_retry pr end)
  /\ (t = TNotSet -> f_timeout f = match m with Legacy => d_timeout se | Profiles => p_timeout pr end)
  /\ (s_fetch st = FUnset -> k <> Batch -> 2 <= pv -> m_fetch f = d_fetch se)
  /\ f_rowf f = match m with Legacy => d_rowf se | Profiles => p_rowf pr end
  /\ f_lbp f = match m with Legacy => d_lbp se | Profiles => p_lbp pr end
  /\ f_spec f = match m with
                | Legacy => None
                | Profiles => if s_idem st then Some (p_spec pr, or_else (s_keyspace st) (d_keyspace se)) else None
                end.
Proof.
  intros m k st pr se t pg pv f H. rewrite (effective_fields _ _ _ _ _ _ _ _ _ H). cbn.
  unfold eff_cl, eff_serial, eff_retry, eff_timeout. repeat split; try (intros N; rewrite N; reflexivity).
  (* left: the fetch size, which a batch and protocol 1 do not carry *)
  intros N NB P. rewrite N. destruct (Z.leb_spec 2 pv); [|lia]. destruct k; [reflexivity|reflexivity|contradiction].
Qed.
Print Assumptions C46_else_profile_or_session.

(* the message carries exactly the effective values; gating of fetch size (v1), client timestamp (v3+, enabled),
   keyspace (v5+/DSE_V2, never on EXECUTE); the paging state passes through unchanged; a request is always built
   except for a batch on protocol 1 *)
Theorem C46_message_carries : forall m k st pr se t pg pv,
  (k = Batch -> 2 <= pv) ->
  exists f, effective m k st pr se t pg pv = Some f
  /\ m_cl f = eff_cl m st pr se /\ m_serial f = eff_serial m st pr se
  /\ m_ts f = (if (3 <=? pv) && d_use_ts se then Some (d_ts se) else None)
  /\ m_keyspace f = match k with Bound => None | _ => if uses_keyspace_flag pv then s_keyspace st else None end
  /\ (k <> Batch -> m_paging f = pg /\ (pv = 1 -> m_fetch f = None)).
Proof.
  intros m k st pr se t pg pv Hb. destruct (effective_some m k st pr se t pg pv Hb) as [f H]. exists f.
  split; [exact H|]. rewrite (effective_fields _ _ _ _ _ _ _ _ _ H). cbn. repeat split.
  - destruct k; [reflexivity|reflexivity|contradiction].
  - intros ->. destruct k; [| |contradiction]; destruct (s_fetch st); reflexivity.
Qed.
Print Assumptions C46_message_carries.

(* the encoder rejects a request only when the protocol version cannot carry an option in effect (never silently
   dropping it); from protocol v3 on every request built here is encodable *)
Theorem C46_rejected_only_if_uncarriable : forall k f pv, encodes k f pv = false ->
  pv < 3 /\ ((k = Batch /\ (m_serial f <> None \/ m_ts f <> None \/ m_keyspace f <> None))
             \/ (k <> Batch /\ pv < 2 /\ (m_serial f <> None \/ m_fetch f <> None \/ m_paging f <> None))).
Proof.
  intros k f pv H. unfold encodes in H.
  (* at or above its threshold (2, or 3 for a batch) every request encodes; below it H says that one of the three options the
     version cannot carry is set *)
  destruct k; [destruct (Z.ltb_spec pv 2) as [L|]..|destruct (Z.ltb_spec pv 3) as [L|]]; try discriminate H;
    apply negb_false_iff in H; rewrite !orb_true_iff in H; (split; [lia|]).
  - (* Simple *) right. split; [discriminate|]. split; [exact L|].
    destruct H as [[H|H]|H]; auto using truthy_some, is_some_some.
  - (* Bound *) right. split; [discriminate|]. split; [exact L|].
    destruct H as [[H|H]|H]; auto using truthy_some, is_some_some.
  - (* Batch *) left. split; [reflexivity|].
    destruct H as [[H|H]|H]; auto using truthy_some, is_some_some.
Qed.
Print Assumptions C46_rejected_only_if_uncarriable.

Theorem C46_v3_always_encodes : forall k f pv, 3 <= pv -> encodes k f pv = true.
Proof.
  intros k f pv H. destruct (encodes k f pv) eqn:E; [reflexivity|].
  apply C46_rejected_only_if_uncarriable in E. lia.
Qed.
Print Assumptions C46_v3_always_encodes.

(* a consistency level configured on the profile (or assigned to the legacy session) is the one in effect for statements
   without their own, on ordinary and on DBaaS clusters alike; only a level nobody chose follows the cluster kind *)
Theorem C46_configured_level_in_effect : forall dbaas m k st pr se t pg pv f pcl scl,
  s_cl st = None ->
  effective m k st (mkProf (configured_cl dbaas pcl) (p_serial pr) (p_retry pr) (p_timeout pr) (p_rowf pr) (p_lbp pr) (p_spec pr))
            (mkSess (configured_cl dbaas scl) (d_serial se) (d_retry se) (d_timeout se) (d_rowf se) (d_lbp se) (d_fetch se)
                    (d_use_ts se) (d_ts se) (d_keyspace se)) t pg pv = Some f ->
  (forall v, m = Profiles -> pcl = Some v -> m_cl f = v)
  /\ (forall v, m = Legacy -> scl = Some v -> m_cl f = v)
  /\ (m = Profiles -> pcl = None -> m_cl f = if dbaas then 6 else 10)
  /\ (m = Legacy -> scl = None -> m_cl f = if dbaas then 6 else 10).
Proof.
  intros dbaas m k st pr se t pg pv f pcl scl Hs H.
  rewrite (effective_fields _ _ _ _ _ _ _ _ _ H). cbn. unfold eff_cl. rewrite Hs.
  repeat split; intros; subst; reflexivity.
Qed.
Print Assumptions C46_configured_level_in_effect.

(* the speculative-execution policy in effect is really used: its timer is the one armed when the request is created,
   whenever the policy's delay is below the client timeout -- in particular when there is NO client timeout
   (execute(timeout=None), request_timeout=None, every execute_concurrent* call) *)
Theorem C46_speculative_policy_in_effect : forall p delay timeout, 0 <= delay ->
  (timeout = None \/ exists t, timeout = Some t /\ delay < t) -> first_timer (Some p) delay timeout = TSpec delay.
Proof.
  intros p delay timeout Hd H. unfold first_timer. destruct (0 <=? delay) eqn:E; [|apply Z.leb_gt in E; lia].
  destruct H as [->|(t & -> & Hlt)]; [reflexivity|]. destruct (delay <? t) eqn:F; [reflexivity | apply Z.ltb_ge in F; lia].
Qed.
Print Assumptions C46_speculative_policy_in_effect.

Theorem C46_no_policy_no_speculation : forall delay timeout d, first_timer None delay timeout <> TSpec d.
Proof. intros delay timeout d. unfold first_timer. destruct timeout; discriminate. Qed.
Print Assumptions C46_no_policy_no_speculation.

(* giving a legacy setting commits the cluster to legacy mode (so that setting is the one in effect, see
   C46_else_profile_or_session with m = Legacy) and it stays there; likewise for profiles; whatever the history *)
Theorem C46_mode_follows_configuration : forall ops m,
  (forall m', cfg_step m SetLegacy = Some m' -> mode_of m' = Legacy /\ mode_of (cfg_final m' ops) = Legacy)
  /\ (forall m', cfg_step m UseProfiles = Some m' -> mode_of (cfg_final m' ops) = Profiles).
Proof.
  intros ops m. split; intros m' H.
  - assert (m' = CLegacy) by (destruct m; cbn in H; congruence). subst m'.
    rewrite committed_stays by discriminate. split; reflexivity.
  - assert (m' = CProfiles) by (destruct m; cbn in H; congruence). subst m'.
    rewrite committed_stays by discriminate. reflexivity.
Qed.
Print Assumptions C46_mode_follows_configuration.

(* the row factory in effect is the one that builds the rows; the model has one path for ordinary and continuous paging
   (rows_built_by ignores which), the correspondence compares both *)
Theorem C46_row_factory_builds_rows : forall m k st pr se t pg pv f cont, effective m k st pr se t pg pv = Some f ->
  rows_built_by f cont = match m with Legacy => d_rowf se | Profiles => p_rowf pr end
  /\ (continuous_in_effect m cont = true -> m = Profiles).
Proof.
  intros m k st pr se t pg pv f cont H. rewrite (effective_fields _ _ _ _ _ _ _ _ _ H).
  split; [reflexivity|]. destruct m; [discriminate | reflexivity].
Qed.
Print Assumptions C46_row_factory_builds_rows.

Example C46_nonvacuous :
  let st := mkStmt (Some 6) None None (FSet (Some 50)) (Some 9) true in
  let pr := mkProf 10 (Some 8) 20 (Some 30) 40 41 42 in
  let se := mkSess 1 None 21 (Some 31) 43 44 (Some 5000) true 777 (Some 3) in
  effective Profiles Simple st pr se TNotSet (Some 12) 4
    = Some (mkFields 6 (Some 8) (Some 50) (Some 777) None (Some 12) (Some 30) 20 40 41 (Some (42, Some 9)))
  /\ effective Legacy Bound (bound_of (mkStmt (Some 2) (Some 8) (Some 22) FUnset None false) (mkStmt None None None FUnset None false) (Some 9))
        pr se (TSet None) None 5
    = Some (mkFields 2 (Some 8) (Some 5000) (Some 777) None None None 22 43 44 None)
  /\ effective Profiles Batch st pr se TNotSet None 1 = None.
Proof. repeat split. Qed.
