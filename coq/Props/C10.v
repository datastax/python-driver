(* C10 -- a failed connection fails every pending request exactly once.  Model: Model/Conn.v (defunct = DefunctFlag; Close;
   ErrCp; ErrSwap; ErrCall..., close() = Close; ErrSwap; ErrCall...), every callback invocation is an event of the log. *)
From Coq Require Import ZArith List Bool Lia.
From Verif Require Import Conn Conn_lemmas.
Import ListNotations.
Local Open Scope Z_scope.

(* in ANY state: once defunct or closed, send_msg's tests refuse the request (ConnectionShutdown), nothing is registered *)
Theorem C10_send_refused : forall s i, (defunct s = true \/ closed s = true) -> lookup i (ghost s) = Some THeld ->
  let s' := step s (SendCheck i) in reqs s' = reqs s /\ log s' = ERefused i :: log s /\ lookup i (ghost s') = Some TLost.
Proof.
  intros s i D L. unfold step. rewrite L.
  assert (V : send_verdict s = 1) by (unfold send_verdict; destruct D as [D|D]; rewrite D; [|destruct (defunct s)]; reflexivity).
  rewrite V. fields. cbn [lookup]. rewrite Z.eqb_refl. repeat split; reflexivity.
Qed.
Print Assumptions C10_send_refused.

(* in ANY state: error_all_requests' locked swap leaves nothing registered, so no later response can be delivered to a
   request that was outstanding at the failure (process_msg's pop finds nothing) *)
Theorem C10_swap_empties : forall s, reqs (step s ErrSwap) = [] /\ zlen (erroring (step s ErrSwap)) = zlen (erroring s) + zlen (reqs s).
Proof. exact err_swap_spec. Qed.
Print Assumptions C10_swap_empties.

Theorem C10_no_late_delivery : forall s i j r d, reqs s = [] -> cur s = Some (j, r, PBegun) -> log (step s (RecvPop i d)) = log s.
Proof.
  intros s i j r d R C. unfold step. rewrite C. destruct (negb (i =? j)); [reflexivity|]. rewrite R. cbn [lookup].
  destruct (lookup i (ghost s)) as [[]|]; reflexivity.
Qed.
Print Assumptions C10_no_late_delivery.


(* the asyncio reactor defers the second half of close() to the loop thread (op CloseRun = `if not self.is_defunct:
   error_all_requests`).  A failure reported between close() and the deferred half finds the connection closed: defunct()
   returns without setting is_defunct (DefunctFlag is a no-op), so the deferred half still fails every pending request. *)
Theorem C10_deferred_close_then_failure : forall s, defunct s = false ->
  let s' := run s [Close; DefunctFlag; CloseRun] in
  closed s' = true /\ defunct s' = false /\ reqs s' = [] /\ zlen (erroring s') = zlen (erroring s) + zlen (reqs s).
Proof.
  intros s D. unfold run. cbn [fold_left]. destruct (step_close s) as (A & B & R & E). rewrite D in B.
  set (s1 := step s Close) in *. rewrite (step_defunctflag_closed s1 A). cbn [step]. rewrite B.
  destruct (err_swap_spec s1) as [X Y]. rewrite X, Y, R, E. unfold err_swap. fields. auto.
Qed.
Print Assumptions C10_deferred_close_then_failure.

(* paging sessions are told about the failure whether or not an ordinary request is registered *)
Theorem C10_sessions_errored_without_requests : forall s i se rel, reqs s = [] -> In (i, (se, rel)) (cps s) ->
  In (ECpError se) (log (step s ErrCp)).
Proof.
  intros s i se rel _ I. unfold step. rewrite errcp_log. apply in_or_app. left.
  exact (in_map (fun c => ECpError (fst (snd c))) _ _ I).
Qed.
Print Assumptions C10_sessions_errored_without_requests.

(* each ErrCall invokes exactly the next queued callback, once, with ConnectionShutdown *)
Theorem C10_errcall_once : forall s cb rest, erroring s = cb :: rest ->
  erroring (step s ErrCall) = rest /\ log (step s ErrCall) = ECbShutdown cb :: log s.
Proof. intros s cb rest E. unfold step. rewrite E. fields. split; reflexivity. Qed.
Print Assumptions C10_errcall_once.

(* failure injected after three sends and a response that opened a paging session: every outstanding callback exactly once *)
Definition pre : list op :=
  [Borrow; SendCheck 0; SendReg 0 7; Borrow; SendCheck 1; SendReg 1 8; Borrow; SendCheck 2; SendReg 2 9;
   RecvBegin 0; RecvPop 0 DOk; CpNew 100; ReturnConn; RecvEnd].
Theorem C10_exactly_once_instance :
  let s := run (init 4 4 2) (pre ++ [DefunctFlag; Close; ErrCp; ErrSwap; ErrCall; ErrCall; ErrCall; RecvBegin 1; RecvPop 1 DOk]) in
  invoked 8 (log s) = 1 /\ shutdowns 8 (log s) = 1 /\ invoked 9 (log s) = 1 /\ shutdowns 9 (log s) = 1 /\ invoked 7 (log s) = 1
  /\ shutdowns 7 (log s) = 0 /\ In (ECpError 100) (log s) /\ reqs s = [] /\ erroring s = [].
Proof. vm_compute. repeat split. right. right. left. reflexivity. Qed.
Print Assumptions C10_exactly_once_instance.

(* full statement: after the failure procedure has completed, nothing stays registered and every paging session was
   errored.  Both parts are false in the faithful model. *)
Definition failure_done (s : state) : Prop := (defunct s = true \/ closed s = true) /\ erroring s = [] /\ cur s = None.
Definition C10_full_statement : Prop := forall ops,
  let s := run (init 4 4 2) ops in failure_done s -> In ErrSwap ops ->
  reqs s = [] /\ (forall c, In c (cps s) -> In (ECpError (fst (snd c))) (log s)).

(* send_msg's flag tests and its registration are not atomic: a failure in between leaves the request registered on a dead
   connection; it is never errored (finding C10-1) *)
Theorem C10_send_race_refuted : ~ C10_full_statement.
Proof.
  intros F. destruct (F [Borrow; SendCheck 0; DefunctFlag; Close; ErrCp; ErrSwap; SendReg 0 7]) as [R _];
    [vm_compute; repeat split; auto|cbn; tauto|vm_compute in R; discriminate R].
Qed.
Print Assumptions C10_send_race_refuted.

(* an explicit close() (every reactor: is_closed under the lock, then error_all_requests) never errors the paging sessions
   (finding C10-2): the session created in `pre` is still un-notified after the complete close procedure *)
Theorem C10_close_leaves_paging_sessions :
  let s := run (init 4 4 2) (pre ++ [Close; ErrSwap; ErrCall; ErrCall]) in
  closed s = true /\ erroring s = [] /\ reqs s = [] /\ keys (cps s) = [0] /\ existsb (fun e => match e with ECpError _ => true | _ => false end) (log s) = false.
Proof. vm_compute. repeat split. Qed.
Print Assumptions C10_close_leaves_paging_sessions.

Example C10_nonvacuous : failure_done (run (init 4 4 2) (pre ++ [DefunctFlag; Close; ErrCp; ErrSwap; ErrCall; ErrCall])).
Proof. vm_compute. repeat split; auto. Qed.
