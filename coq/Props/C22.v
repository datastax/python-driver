(* C22 -- token-aware plans put live local replicas first without losing hosts.
   Model: `ta_plan` of Model/LBP.v, its inputs described in Model/TokenAware.v (hand-written, tied to
   TokenAwarePolicy.make_query_plan by checks/C22.py), the code AFTER the repair d849ab7.  Everything is an arbitrary
   input: the replica list as iterated (`order`: Metadata.get_replicas's answer, permuted by shuffle() or not), host up
   flags, the child's distance function and the child's plan. *)
From Coq Require Import ZArith List Bool Permutation.
From Verif Require Import LBP LBP_base_proofs TokenAware.
Import ListNotations.
Local Open Scope Z_scope.

(* the plan starts with exactly the replicas that are up and LOCAL, in the order the replica list is iterated: ring order
   without shuffle; with shuffle (any permutation of the ring-order list) the same hosts in the shuffled order *)
Theorem C22_prefix : forall (up : Z -> bool) (cd : Z -> dist) (replicas order child : list Z),
  Permutation replicas order ->
  let prefix := filter (fun r => up r && dist_eqb (cd r) LOCAL) order in
  firstn (length prefix) (ta_plan true up cd order child) = prefix /\
  (forall h, In h prefix <-> In h replicas /\ up h = true /\ cd h = LOCAL) /\
  Permutation (filter (fun r => up r && dist_eqb (cd r) LOCAL) replicas) prefix.
Proof.
  intros up cd replicas order child HP.
  split; [apply ta_plan_firstn | split; [intros h; rewrite HP; apply ta_prefix_In | apply filter_perm, HP]].
Qed.
Print Assumptions C22_prefix.

(* then every remaining host of the wrapped policy's plan, in that policy's order *)
Theorem C22_rest_order : forall (up : Z -> bool) (cd : Z -> dist) (order child : list Z),
  let prefix := ta_prefix up cd order in
  skipn (length prefix) (ta_plan true up cd order child) = filter (fun h => negb (mem h prefix)) child.
Proof. exact ta_plan_skipn. Qed.
Print Assumptions C22_rest_order.

(* no host repeated (the replica list of one token and the child's plan being duplicate-free: C26 and C21) *)
Theorem C22_nodup : forall (up : Z -> bool) (cd : Z -> dist) (order child : list Z),
  NoDup order -> NoDup child -> NoDup (ta_plan true up cd order child).
Proof. exact ta_nodup. Qed.
Print Assumptions C22_nodup.

(* no host of the wrapped plan is left out -- whatever the up flags and distances are, routed or not *)
Theorem C22_nothing_lost : forall (routed : bool) (up : Z -> bool) (cd : Z -> dist) (order child : list Z) (h : Z),
  In h child -> In h (ta_plan routed up cd order child).
Proof. intros routed up cd order child h H. apply ta_plan_In. left. exact H. Qed.
Print Assumptions C22_nothing_lost.

(* and nothing else appears: a planned host is in the wrapped plan or is an up, LOCAL replica *)
Theorem C22_nothing_added : forall (routed : bool) (up : Z -> bool) (cd : Z -> dist) (order child : list Z) (h : Z),
  In h (ta_plan routed up cd order child) -> In h child \/ (In h order /\ up h = true /\ cd h = LOCAL).
Proof. intros routed up cd order child h H. apply ta_plan_In in H. tauto. Qed.
Print Assumptions C22_nothing_added.

(* statements without routing key or keyspace get the child's plan as is *)
Theorem C22_unrouted : forall (up : Z -> bool) (cd : Z -> dist) (order child : list Z),
  ta_plan false up cd order child = child.
Proof. reflexivity. Qed.
Print Assumptions C22_unrouted.

(* the code before the repair lost hosts: replica 1 is LOCAL and in the child's plan but not marked up yet *)
Theorem C22_before_fix_refuted :
  ~ (forall (up : Z -> bool) (cd : Z -> dist) (order child : list Z) (h : Z),
       In h child -> In h (ta_plan_before_fix up cd order child)).
Proof.
  intros H. specialize (H (fun h => h =? 2) (fun _ => LOCAL) [1] [2; 1] 1 (or_intror (or_introl eq_refl))).
  vm_compute in H. destruct H as [H|[]]. discriminate.
Qed.
Print Assumptions C22_before_fix_refuted.

Example C22_nonvacuous :
  (* replicas 3,1,4 (ring order); 3 is up and local, 1 is local but not up yet, 4 is remote; child plan 1,2,3,4 *)
  ta_plan true (fun h => mem h [2; 3; 4]) (fun h => if h =? 4 then REMOTE else LOCAL) [3; 1; 4] [1; 2; 3; 4] = [3; 1; 2; 4]
  /\ ta_plan_before_fix (fun h => mem h [2; 3; 4]) (fun h => if h =? 4 then REMOTE else LOCAL) [3; 1; 4] [1; 2; 3; 4] = [3; 2; 4].
Proof. split; reflexivity. Qed.
