(* C37 -- cqlengine statements bind every placeholder to its own clause's value.
   Model: Model/Clauses.v (hand-written from cassandra/cqlengine/statements.py, query.py; tied by correspondence in checks/C37.py).
   A statement is built by ANY sequence of add_where / add_conditional / add_assignment / add_field / update_context_id calls
   (`build k ops`), over any number and kind of clauses and any values; `wf_op` only says that each clause class sits where
   cqlengine itself puts it and that Token() carries as many columns as values (what AbstractQuerySet.filter enforces). *)
From Coq Require Import ZArith List Bool Permutation.
From Verif Require Import Clauses Clauses_proofs.
Import ListNotations.
Local Open Scope Z_scope.

(* every clause class: get_context_size() = number of placeholders rendered = number of context entries, all three being the
   consecutive ids i, i+1, ... (finding C37-1 violated this for empty add/remove/append/prepend) *)
Theorem C37_clause : forall c i, wfc c = true ->
  flat_map fps (clause_render i c) = zseq i (Z.to_nat (clause_size c)) /\
  map fst (clause_ctx i c) = zseq i (Z.to_nat (clause_size c)).
Proof. exact clause_ids. Qed.
Print Assumptions C37_clause.

(* placeholders of the rendered text = keys of the context: none missing, none extra, no duplicates *)
Theorem C37_bijection : forall k ops, forallb (wf_op k) ops = true ->
  let s := build k ops in
  Permutation (placeholders (render s)) (map fst (context s)) /\
  NoDup (placeholders (render s)) /\ NoDup (map fst (context s)).
Proof. intros k ops H. apply stmt_bijection, Inv_build, H. Qed.
Print Assumptions C37_bijection.

(* every value a clause supplies is what the context binds to that id, and that id is rendered by that very clause
   (by C37_bijection it is rendered nowhere else) *)
Theorem C37_own_value : forall k ops, forallb (wf_op k) ops = true ->
  let s := build k ops in
  forall p i c id v, In p (render_parts k) -> In (i, c) (get_part p s) -> In (id, v) (clause_ctx i c) ->
  dict_get id (context s) = Some v /\ In id (flat_map fps (clause_render_in k i c)).
Proof.
  intros k ops H s p i c id v Hp Hic Hv. destruct (Inv_build k ops H) as [HI Hk].
  rewrite <- Hk. apply (stmt_own_value (build k ops) i c id v HI); [eapply get_part_allc; eassumption | assumption].
Qed.
Print Assumptions C37_own_value.

(* BatchQuery.execute: the renumbered statements use pairwise disjoint ids (no duplicate in the whole batch text),
   the merged parameters have exactly those keys, and bind every id to the value of its own statement *)
Theorem C37_batch : forall qs, Forall Inv qs ->
  let ss := batch_stmts 0 qs in
  let ps := snd (batch_exec 0 qs []) in
  fst (batch_exec 0 qs []) = map render ss /\
  Forall Inv ss /\
  NoDup (flat_map placeholders (fst (batch_exec 0 qs []))) /\
  Permutation (flat_map placeholders (fst (batch_exec 0 qs []))) (map fst ps) /\
  (forall s id v, In s ss -> In (id, v) (context s) -> dict_get id ps = Some v).
Proof. intros qs. exact (batch_spec qs 0). Qed.
Print Assumptions C37_batch.

(* statements that enter a batch are the ones built above *)
Theorem C37_batch_members : forall k ops, forallb (wf_op k) ops = true -> Inv (build k ops).
Proof. intros k ops H. apply Inv_build. exact H. Qed.
Print Assumptions C37_batch_members.

(* WHERE / IF / SET / DELETE-field parts: the rendered part is the rendering of exactly the requested clauses, in request order,
   whatever update_context_id calls are interleaved *)
Theorem C37_parts : forall k ops p, In p (render_parts k) ->
  exists l, In (p, part_render k l) (render (build k ops)) /\ map snd l = adds_of p ops.
Proof.
  intros k ops p Hp. exists (get_part p (build k ops)). split; [|apply parts_build].
  unfold render, build. rewrite sk_fold. apply in_map_iff. exists p. auto.
Qed.
Print Assumptions C37_parts.

(* ... and every fragment a clause renders names that clause's own column *)
Theorem C37_parts_field : forall c i fr, In fr (clause_render i c) -> ff fr = clause_field c.
Proof. exact clause_render_field. Qed.
Print Assumptions C37_parts_field.

(* query-set chains: whatever order_by / limit / only / defer / allow_filtering calls are interleaved, the SELECT's WHERE clauses
   are exactly the filters requested, in order, and the statement satisfies the bijection *)
Theorem C37_parts_chain : forall ops, forallb (wf_add Select PWhere) (filters_of ops) = true ->
  map snd (s_where (select_stmt (chain ops))) = filters_of ops /\ bij (select_stmt (chain ops)).
Proof.
  intros ops H. unfold select_stmt. destruct (chain_parts ops) as [-> _].
  (* build3_ok is about three lists in three parts; a SELECT has one, so two other parts get the empty list *)
  destruct (build3_ok Select PAssign PCond PWhere [] [] (filters_of ops)) as (_ & _ & W & B); auto.
Qed.
Print Assumptions C37_parts_chain.

Theorem C37_parts_chain_delete : forall ops,
  forallb (wf_add Delete PWhere) (filters_of ops) = true -> forallb (wf_add Delete PCond) (iffs_of ops) = true ->
  map snd (s_where (delete_stmt (chain ops))) = filters_of ops /\
  map snd (s_cond (delete_stmt (chain ops))) = iffs_of ops /\ bij (delete_stmt (chain ops)).
Proof.
  intros ops H1 H2. unfold delete_stmt. destruct (chain_parts ops) as [-> ->].
  destruct (build3_ok Delete PAssign PWhere PCond [] (filters_of ops) (iffs_of ops)) as (_ & W & C & B); auto.
Qed.
Print Assumptions C37_parts_chain_delete.

Theorem C37_parts_chain_update : forall ops assigns,
  forallb (wf_add Update PWhere) (filters_of ops) = true -> forallb (wf_add Update PCond) (iffs_of ops) = true ->
  forallb (wf_add Update PAssign) assigns = true ->
  map snd (s_where (update_stmt (chain ops) assigns)) = filters_of ops /\
  map snd (s_cond (update_stmt (chain ops) assigns)) = iffs_of ops /\
  map snd (s_assign (update_stmt (chain ops) assigns)) = filter (fun c => negb (clause_size c =? 0)) assigns /\
  bij (update_stmt (chain ops) assigns).
Proof.
  intros ops assigns H1 H2 H3. unfold update_stmt. destruct (chain_parts ops) as [-> ->].
  destruct (build3_ok Update PWhere PCond PAssign (filters_of ops) (iffs_of ops) (filter (fun c => negb (clause_size c =? 0)) assigns))
    as (A & B & C & D); auto using forallb_filter.
Qed.
Print Assumptions C37_parts_chain_update.

(* instance-level conditional update (instance.iff(...).update(...)): the UPDATE carries all requested conditions; the follow-up DELETE of the
   nulled columns carries exactly the requested conditions on columns the UPDATE did not rewrite (by db field name), in order *)
Theorem C37_parts_instance_update : forall keys conds assigns nulled,
  forallb (wf_add Update PWhere) keys = true -> forallb (wf_add Delete PWhere) keys = true ->
  forallb (wf_add Update PCond) conds = true -> forallb (wf_add Delete PCond) conds = true ->
  forallb (wf_add Update PAssign) assigns = true ->
  let asg := filter (fun c => negb (clause_size c =? 0)) assigns in
  let u := fst (inst_update_stmts keys conds assigns nulled) in
  let d := snd (inst_update_stmts keys conds assigns nulled) in
  map snd (s_cond u) = conds /\ map snd (s_assign u) = asg /\ map snd (s_where u) = keys /\
  map snd (s_cond d) = delete_conds conds (map clause_field asg) /\ map snd (s_field d) = map CDelField nulled /\
  map snd (s_where d) = keys /\
  (forall c, In c (map snd (s_cond d)) <-> In c conds /\ ~ In (clause_field c) (map clause_field asg)) /\
  bij u /\ bij d.
Proof.
  intros keys conds assigns nulled K1 K2 C1 C2 A asg u d. subst u d. unfold inst_update_stmts. fold asg. cbn [fst snd].
  destruct (build3_ok Update PCond PAssign PWhere conds asg keys) as (U1 & U2 & U3 & U4); auto.
  { apply forallb_filter, A. }
  destruct (build3_ok Delete PCond PField PWhere (delete_conds conds (map clause_field asg)) (map CDelField nulled) keys)
    as (D1 & D2 & D3 & D4); auto.
  { apply forallb_filter, C2. }
  { apply wf_delfields. }
  repeat (split; [assumption|]). split; [|split; assumption].
  intros c. cbn [get_part] in D1. rewrite D1. apply filter_notin.
Qed.
Print Assumptions C37_parts_instance_update.

(* the code before the fix: ListUpdateClause/SetUpdateClause/MapUpdateClause rendered (and bound) an empty add/remove/append/prepend
   although get_context_size() counted 0 for it.  With that rendering the bijection fails: the witness replayed by corpus/C37.
   (Only the list clause's old rendering is needed, and only here, so it is defined here and not in Model/Clauses.v.) *)
Definition old_list_render (i : Z) (f : name) (v : option (list Z)) (op : option listop) (prev : option (list Z)) : list frag :=
  let '(asg, pre, app) := list_analyze v op prev in
  render_opts f i [(KAssign, is_some asg); (KPrepend, is_some pre); (KPlus, is_some app)].
Theorem C37_prefix_refuted :
  let c := CListUpd 0 (Some []) (Some LAppend) None in
  let s := build Update [Add PAssign c; Add PAssign (CAssign 1 (VInt 1))] in
  clause_size c = 0 /\ flat_map fps (old_list_render 0 0 (Some []) (Some LAppend) None) = [0] /\
  flat_map fps (part_render Update [(0, CAssign 1 (VInt 1))]) = [0] /\ map fst (s_assign s) = [0; 0].
Proof. vm_compute. repeat split. Qed.
Print Assumptions C37_prefix_refuted.

Example C37_nonvacuous :
  let ops := [Add PWhere (CWhere 0 true OpIN (QPlain (VList [1; 2])));
              Add PCond (CCond 5 (VInt 3));
              Add PAssign (CListUpd 7 (Some [9; 1; 2; 8]) None (Some [1; 2]));
              Add PAssign (CMapUpd 9 [(1, 2); (3, 4)] None (Some [(1, 2)]));
              Renum 10;
              Add PWhere (CWhere (-1) false OpGT (QToken [4; 5] 2))] in
  forallb (wf_op Update) ops = true /\
  placeholders (render (build Update ops)) = [11; 12; 13; 14; 10; 16; 17; 15] /\
  context (build Update ops) =
    [(10, VInQ (VList [1; 2])); (16, VInt 4); (17, VInt 5); (11, VList [9]); (12, VList [8]); (13, VInt 3); (14, VInt 4); (15, VInt 3)].
Proof. vm_compute. repeat split. Qed.
