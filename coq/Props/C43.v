(* C43 -- schema agreement is reported only when all live nodes agree.
   Model: Model/SchemaAgreement.v (hand-written; tied to cassandra/cluster.py by the correspondence in checks/C43.py).
   A script `polls` is ANY finite list of polls (snapshot / timeout / shutdown, host states, durations); every theorem
   below quantifies over all of them, so "at poll k after any history" is "after any prefix `pre`".
   `wait c false None polls` = wait_for_schema_agreement on a live control connection without preloaded results;
   outcome `More k e` = the script ended while the loop was about to issue poll k at elapsed time e (it went on polling). *)
From Coq Require Import ZArith List Bool Lia.
From Verif Require Import SchemaAgreement C43_proofs.
Import ListNotations.
Local Open Scope Z_scope.

(* _get_schema_mismatches reports "no mismatch" exactly when the control node and the known peers not marked down
   report exactly one distinct non-empty version (DESIGN 4.0) *)
Theorem C43_mismatch_spec : forall h s, agreed h s = true <-> single_version h s.
Proof. exact agreed_spec. Qed.
Print Assumptions C43_mismatch_spec.

(* zero reported versions is not agreement *)
Theorem C43_zero_versions_disagree : forall h s, (forall v, ~ reported h s v) -> agreed h s = false.
Proof.
  intros h s H. destruct (agreed h s) eqn:E; [|reflexivity].
  apply agreed_spec in E. destruct E as [v [Hv _]]. destruct (H v Hv).
Qed.
Print Assumptions C43_zero_versions_disagree.

(* returns True at poll k  <->  the versions at poll k form a single version *)
Theorem C43_verdict : forall c pre p rest k e, 0 < budget c ->
  snd (wait c false None pre) = More k e ->
  (snd (wait c false None (pre ++ p :: rest)) = Agreed k <->
   exists s, p_resp p = RSnap s /\ single_version (p_hosts p) s).
Proof. intros c pre p rest k e Hb. rewrite !wait_loop by exact Hb. apply verdict_at_poll. Qed.
Print Assumptions C43_verdict.

(* whenever True is returned, it is because of the snapshot of that very poll *)
Theorem C43_verdict_sound : forall c polls j, 0 < budget c -> snd (wait c false None polls) = Agreed j ->
  exists p s, nth_error polls j = Some p /\ p_resp p = RSnap s /\ single_version (p_hosts p) s.
Proof.
  intros c polls j Hb H. rewrite wait_loop in H by exact Hb.
  destruct (loop_outcome c polls 0%nat 0 _ H) as (i & p & s & -> & O). exists p, s. exact O.
Qed.
Print Assumptions C43_verdict_sound.

(* preloaded results are judged by the same rule *)
Theorem C43_preloaded_verdict : forall c h s polls, 0 < budget c ->
  (snd (wait c false (Some (h, s)) polls) = AgreedPreloaded <-> single_version h s).
Proof.
  intros c h s polls Hb. rewrite wait_positive_budget by exact Hb.
  rewrite <- agreed_spec. destruct (agreed h s); simpl; [split; reflexivity|].
  split; [|discriminate]. intros H. apply loop_outcome in H. destruct H.
Qed.
Print Assumptions C43_preloaded_verdict.

(* while polls time out or disagree, the wait keeps polling until the budget has elapsed: it asks for another poll with
   elapsed < budget, or returns False with elapsed >= budget -- never True, never None, never an early False *)
Theorem C43_keeps_polling : forall c polls, 0 < budget c -> Forall inconclusive polls ->
  (exists k e, snd (wait c false None polls) = More k e /\ e < budget c) \/
  (exists e, snd (wait c false None polls) = Disagreed e /\ budget c <= e).
Proof. intros c polls Hb. rewrite wait_loop by exact Hb. apply keeps_polling. Qed.
Print Assumptions C43_keeps_polling.

Theorem C43_false_only_after_budget : forall c polls e, 0 < budget c ->
  snd (wait c false None polls) = Disagreed e -> budget c <= e.
Proof.
  intros c polls e Hb H. rewrite wait_loop in H by exact Hb.
  exact (loop_outcome _ _ _ _ _ H).
Qed.
Print Assumptions C43_false_only_after_budget.

(* ... and it does not poll forever: budget-many polls (1 ms granularity) always suffice for a verdict *)
Theorem C43_terminates : forall c polls, 0 < budget c -> 0 < qtimeout c -> Forall (fun p => 0 <= p_dur p) polls ->
  budget c <= Z.of_nat (length polls) -> forall k e, snd (wait c false None polls) <> More k e.
Proof.
  intros c polls Hb Hq HF Hlen k e. rewrite wait_loop by exact Hb.
  apply loop_terminates; [exact Hq|exact HF|lia].
Qed.
Print Assumptions C43_terminates.

(* a schema-changing request's future records whether agreement was reached (any flags of the control connection,
   schema metadata enabled or not; Metadata.refresh not raising) *)
Theorem C43_future_records : forall e c polls, 0 < budget c -> cluster_shutdown e = false -> refresh_raises e = false ->
  (f_is_schema_agreed (schema_change_path e c polls) = true <->
   exists k, snd (wait c (cc_shutdown e) None polls) = Agreed k).
Proof.
  intros e c polls Hb Hc Hr. rewrite future_flag, Hc, Hr, andb_false_r. simpl. rewrite andb_true_r.
  apply wait_truthy_Agreed. exact Hb.
Qed.
Print Assumptions C43_future_records.

(* in EVERY environment (shutdown, refresh raising, ...) agreement is recorded only if it was reached *)
Theorem C43_future_never_overclaims : forall e c polls, 0 < budget c ->
  f_is_schema_agreed (schema_change_path e c polls) = true ->
  exists k, snd (wait c (cc_shutdown e) None polls) = Agreed k.
Proof.
  intros e c polls Hb H. rewrite future_flag, !andb_true_iff in H. apply wait_truthy_Agreed; tauto.
Qed.
Print Assumptions C43_future_never_overclaims.

(* `_set_final_result(None)` stands in a `finally`: schema_change_path sets f_final_set on every path *)
Theorem C43_future_completed : forall e c polls, f_final_set (schema_change_path e c polls) = true.
Proof.
  intros e c polls. unfold schema_change_path. destruct (cluster_shutdown e); [reflexivity|].
  destruct (wait c (cc_shutdown e) None polls) as [ev o]. destruct (refresh_schema e o). reflexivity.
Qed.
Print Assumptions C43_future_completed.

(* observers of the completed request (add_callback callbacks, result() waiters) see the recorded flag: it is assigned BEFORE
   the result is delivered *)
Theorem C43_future_at_delivery : forall e c polls,
  f_at_delivery (schema_change_path e c polls) = Some (f_is_schema_agreed (schema_change_path e c polls)).
Proof.
  intros e c polls. unfold schema_change_path. destruct (cluster_shutdown e); [apply delivered_flag|].
  destruct (wait c (cc_shutdown e) None polls) as [ev o]. destruct (refresh_schema e o) as [r rf]. apply delivered_flag.
Qed.
Print Assumptions C43_future_at_delivery.

(* peers(_v2) table rows: a row counts for the host known under (address, native_port); the default port is used only when the
   row has no positive native_port (peers v1) *)
Theorem C43_rows_counted_by_endpoint : forall d h local rows v,
  reported h (RSn d local rows) v <->
  local = Some (Some v) \/ exists a p, In (a, p, Some v) rows /\ counted h (row_endpoint d (a, p, Some v)) = true.
Proof.
  intros d h local rows v. unfold reported, RSn. simpl. split.
  - intros [H|[e [Hin Hc]]]; [left; exact H|]. right. apply in_map_iff in Hin. destruct Hin as [[[a p] v'] [Heq Hin]].
    injection Heq as He Hv. subst v'. exists a, p. split; [exact Hin|]. rewrite <- He in Hc. exact Hc.
  - intros [H|[a [p [Hin Hc]]]]; [left; exact H|]. right. exists (row_endpoint d (a, p, Some v)). split; [|exact Hc].
    apply in_map_iff. exists (a, p, Some v). split; [reflexivity|exact Hin].
Qed.
Print Assumptions C43_rows_counted_by_endpoint.

Theorem C43_native_port_is_the_port : forall d a p v, 0 < p -> row_endpoint d (a, Some p, v) = (a, p).
Proof. intros d a p v H. unfold row_endpoint. assert (E : (0 <? p) = true) by lia. rewrite E. reflexivity. Qed.
Print Assumptions C43_native_port_is_the_port.

(* non-vacuity: a script with a disagreement, a timeout, a down peer that disagrees and an unknown peer that disagrees;
   agreement is reached at poll 2 with 1 s budget, and the future records it even with schema metadata disabled *)
Definition ex_hosts : hoststates := [((1, 9042), Up); ((2, 9043), Down); ((100, 9042), Unknown)].
Definition ex_polls : list poll :=
  [ Pl (RSnap (RSn 9042 (Some (Some 7)) [(1, None, Some 8); (2, Some 9043, Some 7)])) ex_hosts 10;
    Pl RTimeout ex_hosts 0;
    Pl (RSnap (RSn 9042 (Some (Some 8)) [(1, Some 9042, Some 8); (2, Some 9043, Some 7); (3, Some 9042, Some 9)])) ex_hosts 5 ].
Example C43_nonvacuous_run : wait (Build_cfg 1000 300) false None ex_polls =
  ([EQuery 300; ESleep 200; EQuery 300; EQuery 300], Agreed 2).
Proof. reflexivity. Qed.
Example C43_nonvacuous_prefix : snd (wait (Build_cfg 1000 300) false None (firstn 2 ex_polls)) = More 2 510.
Proof. reflexivity. Qed.
(* a lagging peer on a non-default native port is counted (and blocks agreement) exactly because it is matched by its own port *)
Example C43_nonvacuous_port :
  agreed [((1, 9043), Up)] (RSn 9042 (Some (Some 7)) [(1, Some 9043, Some 8)]) = false /\
  agreed [((1, 9043), Up)] (RSn 9042 (Some (Some 7)) [(1, None, Some 8)]) = true.
Proof. split; reflexivity. Qed.
Example C43_nonvacuous_future :
  f_is_schema_agreed (schema_change_path (Build_env false false false false) (Build_cfg 1000 300) ex_polls) = true.
Proof. reflexivity. Qed.
Example C43_nonvacuous_disagree :
  snd (wait (Build_cfg 500 300) false None (repeat (Pl (RSnap (RSn 9042 (Some (Some 7)) [(1, None, Some 8)])) ex_hosts 0) 5)) = Disagreed 600.
Proof. reflexivity. Qed.
