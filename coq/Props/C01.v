(* C01 -- every CQL value survives an encode/decode round trip.
   Model: Model/CqlCodec.v (to_binary/from_binary of cassandra/cqltypes.py, per type and protocol version), tied to
   the source by correspondence on every run (checks/C01.py); its marshal part equals the translated source (MarshalBridge.v).  Statement side: norm, wf_type, py_repr in
   Model/CassandraSpec.v.  All theorems hold for every protocol version pv : Z, every type tree, unbounded sizes. *)
From Coq Require Import ZArith List Bool.
From Verif Require Import PyBase MarshalModel Utf8Model CqlType CqlCodec CassandraSpecInt CassandraSpec C01_proofs.
Import ListNotations.
Local Open Scope Z_scope.

(* whatever the driver encodes for a (non-null) value decodes to the normal form of that value *)
Theorem C01_roundtrip : forall pv t v bs,
  wf_type t = true -> py_repr t v = true -> v <> VNull ->
  to_binary pv t v = Some bs -> from_binary pv t bs = Some (norm t v).
Proof. exact roundtrip_to_from. Qed.
Print Assumptions C01_roundtrip.

(* null elements of a list/set survive, in place (they are written with length -1, protocol v3+; v1/v2 refuse) *)
Theorem C01_null_elements : forall pv t vs bs,
  wf_type t = true -> forallb (py_repr t) vs = true ->
  to_binary pv (TList t) (VSeq vs) = Some bs ->
  exists ws, from_binary pv (TList t) bs = Some (VSeq ws) /\ length ws = length vs /\
             forall i, nth_error vs i = Some VNull -> nth_error ws i = Some VNull.
Proof.
  intros pv t vs bs W Y H. exists (map (norm t) vs).
  split; [|split].
  - apply (roundtrip_to_from pv (TList t) (VSeq vs) bs); auto. discriminate.
  - apply map_length.
  - intros i Hi. rewrite nth_error_map, Hi. cbn. rewrite norm_null. reflexivity.
Qed.
Print Assumptions C01_null_elements.

(* a tuple written with fewer items than its type has fields comes back padded with nulls *)
Theorem C01_null_fields : forall pv t1 t2 v1 bs,
  wf_type (TTuple [t1; t2]) = true -> py_repr t1 v1 = true -> v1 <> VNull ->
  to_binary pv (TTuple [t1; t2]) (VSeq [v1]) = Some bs ->
  from_binary pv (TTuple [t1; t2]) bs = Some (VSeq [norm t1 v1; VNull]).
Proof.
  intros pv t1 t2 v1 bs W Y Hn H.
  apply (roundtrip_to_from pv (TTuple [t1; t2]) (VSeq [v1]) bs); auto; [|discriminate].
  cbn [py_repr]. rewrite Y. reflexivity.
Qed.
Print Assumptions C01_null_fields.

(* empty collections survive at every protocol version *)
Theorem C01_empty_collections : forall pv t k x,
  (exists bs, to_binary pv (TList t) (VSeq []) = Some bs /\ from_binary pv (TList t) bs = Some (VSeq [])) /\
  (exists bs, to_binary pv (TSet t) (VSeq []) = Some bs /\ from_binary pv (TSet t) bs = Some (VSeq [])) /\
  (exists bs, to_binary pv (TMap k x) (VMap []) = Some bs /\ from_binary pv (TMap k x) bs = Some (VMap [])).
Proof.
  intros. unfold to_binary, from_binary, wrap_to, wrap_from. cbn [serialize deserialize].
  unfold enc_coll, enc_map, dec_coll, dec_map, pack_len, unpack_len, lenw.
  destruct (3 <=? pv); repeat split; eexists; split; reflexivity.
Qed.
Print Assumptions C01_empty_collections.

(* a decoded map is readable through the Mapping API: the decoded key re-serializes (OrderedMapSerializedKey, inner
   protocol version) to exactly the bytes it arrived as -- for keys that are not null and not tuples written short *)
Theorem C01_map_keys_found : forall pv kt k kb,
  wf_type kt = true -> py_repr kt k = true -> k <> VNull -> norm kt k = k ->
  to_binary (inner pv) kt k = Some kb ->
  exists k', from_binary (inner pv) kt kb = Some k' /\ key_lookup_bytes pv kt k' = Some kb.
Proof.
  intros pv kt k kb W Y Hn N H. exists (norm kt k). split.
  - apply roundtrip_to_from; assumption.
  - rewrite N. unfold key_lookup_bytes. rewrite <- to_binary_nonnull by assumption. exact H.
Qed.
Print Assumptions C01_map_keys_found.

(* finding C01-3: with the OUTER protocol version a list-typed key decoded at v2 is never found *)
Theorem C01_map_key_outer_version_refuted :
  to_binary (inner 2) (TList (TScalar SInt)) (VSeq [VInt 1; VInt 2]) = Some [0;0;0;2; 0;0;0;4;0;0;0;1; 0;0;0;4;0;0;0;2] /\
  key_lookup_bytes_outer 2 (TList (TScalar SInt)) (VSeq [VInt 1; VInt 2]) = Some [0;2; 0;4;0;0;0;1; 0;4;0;0;0;2] /\
  key_lookup_bytes 2 (TList (TScalar SInt)) (VSeq [VInt 1; VInt 2]) = Some [0;0;0;2; 0;0;0;4;0;0;0;1; 0;0;0;4;0;0;0;2].
Proof. repeat split; reflexivity. Qed.
Print Assumptions C01_map_key_outer_version_refuted.

(* finding C01-4: without the two exclusions the statement fails -- a tuple key written with fewer items comes back
   padded and re-serializes to other bytes; a null key cannot be serialized at all (raises) *)
Definition C01_map_keys_full_statement : Prop :=
  forall pv kt k kb, wf_type kt = true -> py_repr kt k = true ->
    enc_elem (inner pv) (serialize (inner pv) kt) k = Some kb ->
    exists k' l, dec_elem (inner pv) (wrap_from (empty_ok kt) (deserialize (inner pv) kt)) (Some kb) = Some (k', Some []) /\
                 key_lookup_bytes pv kt k' = Some l /\ enc_elem (inner pv) (fun _ => Some l) k' = Some kb.
Theorem C01_map_keys_refuted : ~ C01_map_keys_full_statement.
Proof.
  intro H.
  destruct (H 4 (TTuple [TScalar SInt; TScalar SInt]) (VSeq [VInt 1]) [0;0;0;8; 0;0;0;4;0;0;0;1] eq_refl eq_refl eq_refl)
    as (k' & l & D & L & E).
  vm_compute in D. inversion D; subst k'. vm_compute in L. inversion L; subst l. vm_compute in E. discriminate.
Qed.
Print Assumptions C01_map_keys_refuted.

Theorem C01_map_null_key_refuted : key_lookup_bytes 4 (TScalar SText) VNull = None.
Proof. reflexivity. Qed.
Print Assumptions C01_map_null_key_refuted.

(* the side conditions are needed: without wf_type / py_repr the statement fails on the model (and on the driver:
   lib/vf/codec_run.py, which checks/C01.py runs, counts these cases as 'outside_statement'): a Reversed/Frozen wrapper around text maps '' to None,
   an empty tuple value is written as b'' and read back as None *)
Definition C01_unrestricted_statement : Prop :=
  forall pv t v bs, v <> VNull -> to_binary pv t v = Some bs -> from_binary pv t bs = Some (norm t v).
Theorem C01_unrestricted_refuted : ~ C01_unrestricted_statement.
Proof.
  intro H. specialize (H 4 (TReversed (TScalar SText)) (VText []) [] ltac:(discriminate) eq_refl). discriminate.
Qed.
Print Assumptions C01_unrestricted_refuted.

Theorem C01_empty_tuple_refuted :
  from_binary 4 (TTuple [TScalar SInt; TScalar SInt]) [] = Some VNull /\
  to_binary 4 (TTuple [TScalar SInt; TScalar SInt]) (VSeq []) = Some [].
Proof. split; reflexivity. Qed.
Print Assumptions C01_empty_tuple_refuted.

(* hypotheses are satisfiable by a non-trivial nested value with nulls two levels deep, at v2 (16-bit outer lengths) *)
Example C01_nonvacuous :
  let t := TMap (TScalar SText) (TList (TTuple [TScalar SInt; TSet (TScalar SVarint); TScalar STimestamp])) in
  let v := VMap [(VText [104; 233; 128512], VSeq [VSeq [VNull; VSeq [VInt (-129); VNull]; VInt 170234527813096]; VNull; VSeq [VInt 7]])] in
  let bs := [0; 1; 0; 7; 104; 195; 169; 240; 159; 152; 128; 0; 58; 0; 0; 0; 3;
             0; 0; 0; 34; 255; 255; 255; 255; 0; 0; 0; 14; 0; 0; 0; 2; 0; 0; 0; 2; 255; 127; 255; 255; 255; 255;
             0; 0; 0; 8; 0; 0; 154; 211; 208; 143; 13; 232;
             255; 255; 255; 255;
             0; 0; 0; 8; 0; 0; 0; 4; 0; 0; 0; 7] in
  wf_type t = true /\ py_repr t v = true /\ v <> VNull /\
  to_binary 2 t v = Some bs /\ from_binary 2 t bs = Some (norm t v) /\
  norm t v = VMap [(VText [104; 233; 128512], VSeq [VSeq [VNull; VSeq [VInt (-129); VNull]; VInt 170234527813096]; VNull; VSeq [VInt 7; VNull; VNull]])].
Proof. repeat split; try (vm_compute; reflexivity). discriminate. Qed.
